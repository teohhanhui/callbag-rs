(** * Inv_threads_fine: C18 for the FINE interleaving model of merge! (ThreadsFine.v), over ALL
      schedules: every access to a talkback cell is a step of its own.

    For every n >= 1, all queues, all endings with at most one failing member among the members
    0..n-1 and every state reachable by any interleaving of [mf_step true n]: the checks of
    [merge_check] as for the coarse model, and every member's talkback is told to stop at most once
    (exactly once, or the member completed by itself, when the output has ended and all is quiet).

    Method (as in Inv_threads_merge.v): [mf_step true n] is restated as a relation on explicit
    records ([fstep], [fstep_of]); inductive invariants
    - [FTI]  per thread, by program counter: the cell/stop bookkeeping
             (cell = negb stopped while greeting or delivering, ...);
    - [FGE]  ended => the (unique) failing member is sweeping, delivering its Error or finished;
    - [FGI]  end_count <= number of members "done with ending Terminate", with equality as long as
             the output has not ended;
    - [FSW]  the Dekker argument: a sibling the failing member's sweep has passed is stopped, or has
             not yet published / will read ended = true / completed by itself;
    - [FTRI] the trace monitors as functions of the state: the trace summary [TS] of
             Inv_threads_merge.v at the thread records of this model, and [UPS] (a member is told
             to stop at most once).
    Each is shown inductive by a frame lemma (what a step of thread [t] changes for the others) and
    the clause of [t] itself, step by step. *)

From CB Require Import Threads ThreadSpec ThreadsFine ThreadFacts Inv_threads_merge.

Set Implicit Arguments.

#[local] Arguments count : simpl never.

Inductive mf_reach (n : nat) (qs : nat -> list val) (fins : nat -> final) : mf_state -> Prop :=
| mfr0 : mf_reach n qs fins (mf_init true n qs fins)
| mfrS s t : mf_reach n qs fins s -> mf_reach n qs fins (mf_step true n s t).

Notation FS := mk_mf_state.
Notation FT := mk_mf_thread.

Section Step.
  Variable n : nat.
  Variables (st ec : nat) (en : bool) (cl stp : nat -> bool) (th : nat -> mf_thread).
  Variables (tr : list tevent) (t : nat).

  (** how [mf_next] is entered *)
  Inductive forigin : mf_pc -> nat -> list tevent -> Prop :=
  | fo_start : st <> 0 -> forigin MfAtStartInc (S st) tr
  | fo_greet : forigin MfInGreet st ((t, TEnd) :: tr)
  | fo_data : forigin MfInData st ((t, TEnd) :: tr)
  | fo_swap : cl t = false -> forigin MfAtSelfSwap st tr.

  (** where [mf_sweep_goto] arrives, from index [j] and with the trace [tr1] *)
  Inductive fgoto (e j : nat) (tr1 : list tevent) : mf_pc -> list tevent -> Prop :=
  | fg_sweep j' : j' = (if j =? t then S j else j) -> j' < n -> fgoto e j tr1 (MfAtSweep e j') tr1
  | fg_err j' : j' = (if j =? t then S j else j) -> n <= j' ->
      fgoto e j tr1 MfInErr ((t, TBegin (DE e)) :: tr1).

  Inductive fstep_at : mf_state -> Prop :=
  | fs_fin : mf_pcv (th t) = MfFinished -> fstep_at (FS st ec en cl stp th tr)
  | fs_publish q f :
      th t = FT MfAtPublish q f ->
      fstep_at (FS st ec en (upd cl t true) stp (upd th t (FT MfAtEndedLoad q f)) tr)
  | fs_load_ended q f :
      th t = FT MfAtEndedLoad q f -> en = true ->
      fstep_at (FS st ec en cl stp (upd th t (FT MfAtSelfSwap q f)) tr)
  | fs_load_ok q f :
      th t = FT MfAtEndedLoad q f -> en = false ->
      fstep_at (FS st ec en cl stp (upd th t (FT MfAtStartInc q f)) tr)
  | fs_swap_dispose q f :
      (* the member finds its talkback still in its cell: it takes it out and disposes itself *)
      th t = FT MfAtSelfSwap q f -> cl t = true ->
      fstep_at (FS st ec en (upd cl t false) (upd stp t true) (upd th t (FT MfFinished q f))
                  ((t, TUp t UT) :: tr))
  | fs_publish_old q f :
      (* a program counter of the code before the repair; never reached *)
      th t = FT MfAtPublishOld q f ->
      fstep_at (FS st ec en (upd cl t true) stp (upd th t (FT MfAtStartInc q f)) tr)
  | fs_start_first q f :
      th t = FT MfAtStartInc q f -> st = 0 ->
      fstep_at (FS 1 ec en cl stp (upd th t (FT MfInGreet q f)) ((t, TBegin DH) :: tr))
  | fs_next_stopped pc q f st' tr0 :
      th t = FT pc q f -> forigin pc st' tr0 -> stp t = true ->
      fstep_at (FS st' ec en cl stp (upd th t (FT MfFinished q f)) tr0)
  | fs_next_data pc v q' f st' tr0 :
      th t = FT pc (v :: q') f -> forigin pc st' tr0 -> stp t = false ->
      fstep_at (FS st' ec en cl stp (upd th t (FT MfInData q' f)) ((t, TBegin (DD v)) :: tr0))
  | fs_next_term pc st' tr0 :
      th t = FT pc [] FinTerm -> forigin pc st' tr0 -> stp t = false ->
      fstep_at (FS st' ec en cl stp (upd th t (FT MfAtClear [] FinTerm)) tr0)
  | fs_next_err pc e st' tr0 :
      th t = FT pc [] (FinErr e) -> forigin pc st' tr0 -> stp t = false ->
      fstep_at (FS st' ec en cl stp (upd th t (FT (MfAtEndedStore e) [] (FinErr e))) tr0)
  | fs_next_none pc st' tr0 :
      th t = FT pc [] FinNone -> forigin pc st' tr0 -> stp t = false ->
      fstep_at (FS st' ec en cl stp (upd th t (FT MfFinished [] FinNone)) tr0)
  | fs_clear q f :
      th t = FT MfAtClear q f ->
      fstep_at (FS st ec en (upd cl t false) stp (upd th t (FT MfAtEndInc q f)) tr)
  | fs_endinc_last q f :
      th t = FT MfAtEndInc q f -> S ec = n ->
      fstep_at (FS st (S ec) en cl stp (upd th t (FT MfInTerm q f)) ((t, TBegin DT) :: tr))
  | fs_endinc_notlast q f :
      th t = FT MfAtEndInc q f -> S ec <> n ->
      fstep_at (FS st (S ec) en cl stp (upd th t (FT MfFinished q f)) tr)
  | fs_ret pc q f :
      th t = FT pc q f -> pc = MfInTerm \/ pc = MfInErr ->
      fstep_at (FS st ec en cl stp (upd th t (FT MfFinished q f)) ((t, TEnd) :: tr))
  | fs_store e q f pc' tr' :
      th t = FT (MfAtEndedStore e) q f -> fgoto e 0 tr pc' tr' ->
      fstep_at (FS st ec true cl stp (upd th t (FT pc' q f)) tr')
  | fs_sweep_hit e j q f pc' tr' :
      (* the failing member takes sibling j's talkback out of its cell and disposes it *)
      th t = FT (MfAtSweep e j) q f -> cl j = true ->
      fgoto e (S j) ((t, TUp j UT) :: tr) pc' tr' ->
      fstep_at (FS st ec en (upd cl j false) (upd stp j true) (upd th t (FT pc' q f)) tr')
  | fs_sweep_miss e j q f pc' tr' :
      th t = FT (MfAtSweep e j) q f -> cl j = false ->
      fgoto e (S j) tr pc' tr' ->
      fstep_at (FS st ec en cl stp (upd th t (FT pc' q f)) tr').
End Step.

(** the cases of [Hs : fstep_at ..], one per constructor and in their order: [H] is the stepper's
    record, [Ho] how [mf_next] is entered, [Hret] the two returns, [Hgo] where the sweep goes on,
    the others the guards *)
Ltac fstep_cases Hs :=
  destruct Hs as [ _ | q f H | q f H Hen | q f H Hen | q f H Hcell | q f H | q f H Hst0
                 | pc q f st' tr0 H Ho Hstp | pc v q f st' tr0 H Ho Hstp | pc st' tr0 H Ho Hstp
                 | pc er st' tr0 H Ho Hstp | pc st' tr0 H Ho Hstp
                 | q f H | q f H Hec | q f H Hec | pc q f H Hret
                 | er q f pc' tr' H Hgo | er j q f pc' tr' H Hcell Hgo | er j q f pc' tr' H Hcell Hgo ].

Definition fstep (n : nat) (s : mf_state) (t : nat) : mf_state -> Prop :=
  fstep_at n (mfs_start s) (mfs_endc s) (mfs_ended s) (mfs_cell s) (mfs_stopped s) (mfs_th s)
    (mfs_tr s) t.

Lemma fnext_of n st ec en cl stp th tr t pc q f st' tr0 :
  th t = FT pc q f -> forigin st cl tr t pc st' tr0 ->
  fstep n (FS st ec en cl stp th tr) t (mf_next (FS st' ec en cl stp th tr0) t (FT pc q f)).
Proof.
  intros Hth Ho. unfold mf_next; cbn.
  destruct (stp t) eqn:Hs; cbn.
  - eapply fs_next_stopped; eauto.
  - destruct q as [|v q']; cbn.
    + destruct f; cbn.
      * eapply fs_next_term; eauto.
      * eapply fs_next_err; eauto.
      * eapply fs_next_none; eauto.
    + eapply fs_next_data; eauto.
Qed.

Lemma fgoto_of n st ec en cl stp th tr t pc q f e j :
  exists pc' tr', fgoto n t e j tr pc' tr' /\
    mf_sweep_goto n (FS st ec en cl stp th tr) t (FT pc q f) e j
    = FS st ec en cl stp (upd th t (FT pc' q f)) tr'.
Proof.
  unfold mf_sweep_goto. cbn -[Nat.eqb Nat.ltb].
  destruct (Nat.ltb_spec (if j =? t then S j else j) n) as [Hlt|Hge]; cbn -[Nat.eqb Nat.ltb].
  - eexists _, _. split; [eapply fg_sweep; eauto|reflexivity].
  - eexists _, _. split; [eapply fg_err; eauto|reflexivity].
Qed.

Lemma fstep_of n s t : fstep n s t (mf_step true n s t).
Proof.
  destruct s as [st ec en cl stp th tr].
  unfold mf_step. cbn -[Nat.eqb Nat.ltb mf_next mf_sweep_goto].
  destruct (th t) as [pc q f] eqn:Hth. cbn -[Nat.eqb Nat.ltb mf_next mf_sweep_goto].
  destruct pc; cbn -[Nat.eqb Nat.ltb mf_next mf_sweep_goto].
  - now apply fs_publish.
  - destruct en; cbn.
    + now apply fs_load_ended.
    + now apply fs_load_ok.
  - destruct (cl t) eqn:Ec.
    + unfold mf_next, mf_dispose. cbn. rewrite upd_same. cbn. now apply fs_swap_dispose.
    + apply fnext_of; auto. now constructor.
  - now apply fs_publish_old.
  - destruct st as [|st]; cbn -[mf_next].
    + now apply fs_start_first.
    + apply fnext_of; auto. constructor; lia.
  - apply fnext_of; auto. constructor.
  - apply fnext_of; auto. constructor.
  - now apply fs_clear.
  - destruct (Nat.eqb_spec (S ec) n); cbn.
    + now apply fs_endinc_last.
    + now apply fs_endinc_notlast.
  - eapply fs_ret; eauto.
  - change (FS st ec en cl stp th tr <| mfs_ended := true |>) with (FS st ec true cl stp th tr).
    destruct (fgoto_of n st ec true cl stp th tr t (MfAtEndedStore e) q f e 0) as (pc' & tr' & Hg & ->).
    eapply fs_store; eauto.
  - destruct (cl j) eqn:Ec.
    + unfold mf_dispose, mf_emit.
      change (mf_sweep_goto n _ t) with
        (mf_sweep_goto n (FS st ec en (upd cl j false) (upd stp j true) th ((t, TUp j UT) :: tr)) t).
      destruct (fgoto_of n st ec en (upd cl j false) (upd stp j true) th ((t, TUp j UT) :: tr) t
                  (MfAtSweep e j) q f e (S j)) as (pc' & tr' & Hg & ->).
      eapply fs_sweep_hit; eauto.
    + destruct (fgoto_of n st ec en cl stp th tr t (MfAtSweep e j) q f e (S j)) as (pc' & tr' & Hg & ->).
      eapply fs_sweep_miss; eauto.
  - eapply fs_ret; eauto.
  - apply fs_fin. now rewrite Hth.
Qed.

Definition is_err (f : final) : bool := match f with FinErr _ => true | _ => false end.

Lemma cnt_mono P Q k : (forall j, j < k -> P j = true -> Q j = true) -> cnt P k <= cnt Q k.
Proof.
  induction k; cbn; intros H; [lia|].
  assert (IH : cnt P k <= cnt Q k) by (apply IHk; intros; apply H; auto).
  destruct (P k) eqn:E; [rewrite (H k) by auto|destruct (Q k)]; lia.
Qed.

Section FineInv.
  Variable n : nat.
  Variable fins : nat -> final.
  Hypothesis amo : forall i j e1 e2, i < n -> j < n -> fins i = FinErr e1 -> fins j = FinErr e2 -> i = j.

  Definition FTIc (st : nat) (en : bool) (j : nat) (cl sp : bool) (thr : mf_thread) : Prop :=
    mf_fin thr = fins j /\ (sp = true -> en = true) /\ (en = true -> 1 <= st) /\
    (n <= j -> mf_pcv thr = MfFinished) /\
    (* whoever disposes a member empties its cell in the same step *)
    (cl = true -> sp = false) /\
    (* the failing member is never told to stop *)
    (is_err (mf_fin thr) = true -> sp = false) /\
    match mf_pcv thr with
    | MfAtPublish => cl = false /\ sp = false
    | MfAtEndedLoad => cl = negb sp
    | MfAtSelfSwap => cl = negb sp /\ en = true /\ is_err (mf_fin thr) = false
    | MfAtPublishOld => False
    | MfAtStartInc => cl = negb sp
    | MfInGreet | MfInData => cl = negb sp /\ 1 <= st
    | MfAtClear => cl = negb sp /\ mf_q thr = [] /\ mf_fin thr = FinTerm /\ 1 <= st
    | MfAtEndInc | MfInTerm => cl = false /\ mf_q thr = [] /\ mf_fin thr = FinTerm /\ 1 <= st
    | MfAtEndedStore e => cl = negb sp /\ mf_q thr = [] /\ mf_fin thr = FinErr e /\ 1 <= st
    | MfAtSweep e i =>
        mf_q thr = [] /\ mf_fin thr = FinErr e /\ en = true /\ 1 <= st /\ i < n /\ i <> j /\ cl = true
    | MfInErr => mf_q thr = [] /\ is_err (mf_fin thr) = true /\ en = true /\ 1 <= st /\ cl = true
    | MfFinished =>
        j < n -> 1 <= st /\ (en = false -> mf_q thr = []) /\
                 (is_err (mf_fin thr) = true -> en = true) /\
                 (sp = false -> (mf_fin thr = FinTerm /\ mf_q thr = [] /\ cl = false)
                                \/ (mf_fin thr <> FinTerm /\ cl = true))
    end.

  (** [FTI], [FGE], [FGI], [FTRI] are the invariants [TI] (threads), [GE] ([ended]), [GI]
      ([end_count]) and [TRI] (trace) of Inv_threads_merge.v for this model; [FSW] (what the sweep has
      passed) is new *)
  Definition FTI (s : mf_state) : Prop :=
    forall j, FTIc (mfs_start s) (mfs_ended s) j (mfs_cell s j) (mfs_stopped s j) (mfs_th s j).

  Lemma FTI_init qs : FTI (mf_init true n qs fins).
  Proof.
    intros j. unfold FTIc. cbn -[Nat.ltb].
    destruct (Nat.ltb_spec j n); cbn; repeat split; auto; try congruence; try lia.
  Qed.

  Lemma FTIc_lt st en j cl sp thr : FTIc st en j cl sp thr -> mf_pcv thr <> MfFinished -> j < n.
  Proof. intros (_ & _ & _ & H & _) Hp. destruct (Nat.lt_ge_cases j n); auto. exfalso; auto. Qed.

  Definition is_sweeping (pc : mf_pc) : bool :=
    match pc with MfAtSweep _ _ | MfInErr | MfFinished => true | _ => false end.

  Definition FGE (s : mf_state) : Prop :=
    mfs_ended s = true ->
    exists k e, k < n /\ fins k = FinErr e /\ is_sweeping (mf_pcv (mfs_th s k)) = true.

  Lemma FGE_init qs : FGE (mf_init true n qs fins).
  Proof. unfold FGE; cbn; discriminate. Qed.

  Lemma flt_of_pc s t : FTI s -> mf_pcv (mfs_th s t) <> MfFinished -> t < n.
  Proof. intros HTI. apply (FTIc_lt (HTI t)). Qed.

  Lemma not_ended_yet s t e :
    FTI s -> FGE s -> t < n -> fins t = FinErr e -> is_sweeping (mf_pcv (mfs_th s t)) = false ->
    mfs_ended s = false.
  Proof.
    intros HTI HGE Ht Hf Hp. destruct (mfs_ended s) eqn:E; auto.
    destruct (HGE E) as (k & e0 & Hk & He & Hpc).
    assert (k = t) by (apply (amo (e1 := e0) (e2 := e)); auto). subst k. congruence.
  Qed.

  (** [st] occurs in the clauses only as [1 <= st], [en] only as [en = true] to be shown or
      [en = false] to be used *)
  Lemma FTIc_mono st st' en j cl sp thr :
    st <= st' -> FTIc st en j cl sp thr -> FTIc st' en j cl sp thr.
  Proof.
    unfold FTIc. intros Hle (H1 & H2 & H3 & H4 & H5 & H6 & H7). repeat split; auto.
    - intros He. specialize (H3 He). lia.
    - destruct (mf_pcv thr); clauses; intuition lia.
  Qed.

  Lemma FTIc_ended st en j cl sp thr : 1 <= st -> FTIc st en j cl sp thr -> FTIc st true j cl sp thr.
  Proof.
    unfold FTIc. intros Hst (H1 & H2 & H3 & H4 & H5 & H6 & H7). repeat split; auto.
    destruct (mf_pcv thr); clauses; intuition congruence.
  Qed.

  Lemma FTI_upd st ec en cl stp th tr t st' ec' cl' stp' thr' tr' :
    FTI (FS st ec en cl stp th tr) -> st <= st' ->
    (forall j, j <> t -> cl' j = cl j) -> (forall j, j <> t -> stp' j = stp j) ->
    FTIc st' en t (cl' t) (stp' t) thr' ->
    FTI (FS st' ec' en cl' stp' (upd th t thr') tr').
  Proof.
    intros HTI Hle Hcl Hsp Ht j. cbn. pw j t; [exact Ht|].
    rewrite Hcl, Hsp by assumption. apply (FTIc_mono Hle), (HTI j).
  Qed.

  Lemma FTIc_hit st j sp thr :
    FTIc st true j true sp thr -> is_err (mf_fin thr) = false -> FTIc st true j false true thr.
  Proof.
    unfold FTIc. intros (H1 & H2 & H3 & H4 & H5 & H6 & H7) He. rewrite (H5 eq_refl) in H7.
    repeat split; auto; try congruence.
    destruct (mf_fin thr); try discriminate He.
    all: destruct (mf_pcv thr); cbn in *; clauses.
  Qed.

  Lemma FTIc_origin st en t cl sp cls tr pc q f st' tr0 :
    FTIc st en t cl sp (FT pc q f) -> forigin st cls tr t pc st' tr0 -> cls t = cl ->
    st <= st' /\ 1 <= st' /\ t < n /\ f = fins t /\ (sp = true -> cl = false /\ en = true) /\
    (sp = false -> cl = true) /\ (is_err f = true -> sp = false).
  Proof.
    intros HT Ho Hc. assert (Ht : t < n) by (apply (FTIc_lt HT); destruct Ho; discriminate).
    revert HT. unfold FTIc. cbn. intros (H1 & H2 & H3 & H4 & H5 & H6 & H7).
    destruct Ho, sp; cbn in H7; clauses.
  Qed.

  Lemma FTIc_goto st t e j tr pc' tr' :
    fgoto n t e j tr pc' tr' -> t < n -> FinErr e = fins t -> 1 <= st ->
    FTIc st true t true false (FT pc' [] (FinErr e)).
  Proof.
    intros Hg Ht Hf Hst. unfold FTIc. destruct Hg as [j' Hj' Hlt|j' Hj' Hge]; cbn; repeat split; auto; try lia.
    destruct (Nat.eqb_spec j t); lia.
  Qed.

  (** [FTI_upd], then the clause of [t] at its new program counter from the one at the old *)
  Ltac fti_frame HTI :=
    eapply FTI_upd; [exact HTI | lia | auto using upd_other | auto using upd_other | rewrite ?upd_same];
    unfold FTIc in *; cbn in *; clauses; intuition congruence.
  Ltac fti_next HTI Ht Ho Hstp :=
    destruct (FTIc_origin Ht Ho eq_refl) as (Hle & Hst & Htn & Hf & Hsp & Hcl & Her); clear Ht;
    eapply FTI_upd; [exact HTI|lia|auto|auto|]; rewrite Hstp;
    unfold FTIc in *; cbn in *; clauses; intuition congruence.

  (** only the failing member's store and sweep write another thread's cell ([FTIc_ended],
      [FTIc_hit]); every other step is [FTI_upd] and the stepper's own clause *)
  Lemma FTI_step s t s' : FTI s -> FGE s -> fstep n s t s' -> FTI s'.
  Proof.
    destruct s as [st ec en cl stp th tr].
    intros HTI HGE Hs.
    red in Hs. cbn in Hs. pose proof (HTI t) as Ht. cbn in Ht.
    fstep_cases Hs; [> | rewrite H in Ht .. ].
    - (* fs_fin *) exact HTI.
    - (* fs_publish *)
      eapply FTI_upd; [exact HTI|lia|auto using upd_other|auto|]. rewrite upd_same.
      revert Ht. unfold FTIc. cbn. intros (Hf & Hse & Hes & Hn & _ & Her & _ & ->). intuition congruence.
    - (* fs_load_ended: the member is not the failing one, which is sweeping or past it *)
      subst en. assert (He : is_err f = false).
      { destruct f as [|e|]; auto. assert (Htn : t < n) by (apply (FTIc_lt Ht); discriminate).
        destruct Ht as (Hf & _).
        enough (true = false) by discriminate.
        apply (not_ended_yet (s := FS st ec true cl stp th tr) (t := t) (e := e)); auto.
        cbn. now rewrite H. }
      eapply FTI_upd; [exact HTI|lia|auto|auto|].
      revert Ht. unfold FTIc. cbn. intuition congruence.
    - (* fs_load_ok *) fti_frame HTI.
    - (* fs_swap_dispose *) fti_frame HTI.
    - (* fs_publish_old *) fti_frame HTI.
    - (* fs_start_first *) fti_frame HTI.
    - (* fs_next_stopped *) fti_next HTI Ht Ho Hstp.
    - (* fs_next_data *) fti_next HTI Ht Ho Hstp.
    - (* fs_next_term *) fti_next HTI Ht Ho Hstp.
    - (* fs_next_err *) fti_next HTI Ht Ho Hstp.
    - (* fs_next_none *) fti_next HTI Ht Ho Hstp.
    - (* fs_clear *) fti_frame HTI.
    - (* fs_endinc_last: the ending is [FinTerm], so [is_err] computes *)
      assert (f = FinTerm) by apply Ht; subst f. fti_frame HTI.
    - (* fs_endinc_notlast *) assert (f = FinTerm) by apply Ht; subst f. fti_frame HTI.
    - (* fs_ret *)
      destruct Hret; subst pc.
      + assert (f = FinTerm) by apply Ht; subst f. fti_frame HTI.
      + destruct f; [exfalso; destruct Ht as (_ & _ & _ & _ & _ & _ & _ & Hx & _); discriminate Hx| |];
          fti_frame HTI.
    - (* fs_store: the failing member sets [ended] *)
      assert (Htn : t < n) by (apply (FTIc_lt Ht); discriminate). unfold FTIc in Ht; cbn in Ht.
      destruct Ht as (Hf & _ & _ & _ & _ & Hsp & Hcl & -> & -> & Hst).
      rewrite Hsp in Hcl by reflexivity.
      intros j0. cbn. pw j0 t.
      + rewrite Hcl, Hsp by reflexivity. apply (FTIc_goto Hgo); auto.
      + exact (FTIc_ended Hst (HTI j0)).
    - (* fs_sweep_hit: its sweep takes [j]'s talkback and tells [j] to stop *)
      assert (Htn : t < n) by (apply (FTIc_lt Ht); discriminate). unfold FTIc in Ht; cbn in Ht.
      destruct Ht as (Hf & _ & _ & _ & _ & Hsp & -> & -> & -> & Hst & Hjn & Hjt & Hcl).
      specialize (Hsp eq_refl).
      intros j0. cbn. destruct (Nat.eq_dec j0 t) as [->|Hj0].
      { rewrite upd_same, !upd_other by auto. rewrite Hcl, Hsp. apply (FTIc_goto Hgo); auto. }
      rewrite (upd_other th _ Hj0). pw j0 j; [|apply (HTI j0)].
      pose proof (HTI j) as Hj. cbn in Hj. rewrite Hcell in Hj. apply (FTIc_hit Hj).
      destruct Hj as (Hfj & _). destruct (mf_fin (th j)) eqn:Ef; auto.
      exfalso. apply Hjt. apply (amo (e1 := e) (e2 := er)); congruence.
    - (* fs_sweep_miss: its sweep finds [j]'s cell empty *)
      assert (Htn : t < n) by (apply (FTIc_lt Ht); discriminate). unfold FTIc in Ht; cbn in Ht.
      destruct Ht as (Hf & _ & _ & _ & _ & Hsp & -> & -> & -> & Hst & _ & _ & Hcl).
      eapply FTI_upd; [exact HTI|lia|auto|auto|]. rewrite Hcl, Hsp by reflexivity.
      apply (FTIc_goto Hgo); auto.
  Qed.

  Lemma FGE_upd st ec en cl stp th tr t st' ec' cl' stp' thr' tr' :
    FGE (FS st ec en cl stp th tr) ->
    (is_sweeping (mf_pcv (th t)) = true -> is_sweeping (mf_pcv thr') = true) ->
    FGE (FS st' ec' en cl' stp' (upd th t thr') tr').
  Proof.
    intros HGE Hp Hen. destruct (HGE Hen) as (k & e & Hk & He & Hpc). exists k, e. cbn.
    split; [|split]; auto. pw k t; auto.
  Qed.

  Lemma FGE_store st ec en cl stp th tr t e q f pc' tr' :
    FTI (FS st ec en cl stp th tr) -> th t = FT (MfAtEndedStore e) q f -> fgoto n t e 0 tr pc' tr' ->
    FGE (FS st ec true cl stp (upd th t (FT pc' q f)) tr').
  Proof.
    intros HTI H Hgo _. pose proof (HTI t) as Ht. cbn in Ht. rewrite H in Ht.
    exists t, e. cbn. rewrite upd_same.
    split; [apply (FTIc_lt Ht); discriminate|]. split; [|destruct Hgo; reflexivity].
    destruct Ht as (Hf & _ & _ & _ & _ & _ & _ & _ & Hfe & _). cbn in Hf, Hfe. congruence.
  Qed.

  Ltac fge_frame HGE H := eapply FGE_upd; [exact HGE|]; rewrite H; cbn; auto; try discriminate.

  (** the other steps keep [ended]; a sweeping thread goes on sweeping, then to [MfInErr] and [MfFinished] *)
  Lemma FGE_step s t s' : FTI s -> FGE s -> fstep n s t s' -> FGE s'.
  Proof.
    destruct s as [st ec en cl stp th tr].
    intros HTI HGE Hs. red in Hs. cbn in Hs. fstep_cases Hs.
    all: [> exact HGE | fge_frame HGE H .. | eapply FGE_store; [exact HTI | exact H | exact Hgo]
          | fge_frame HGE H | fge_frame HGE H ].
    (* a pc known only through [forigin], or the next one through [fgoto] *)
    all: first [ destruct Ho; discriminate | intros _; destruct Hgo; reflexivity ].
  Qed.

  (** end_count against the members that are done and whose ending is Terminate: a member that is
      told to stop before its first access of the Terminate arm does not count itself, one that is
      told to stop between [source_talkbacks[i].store(None)] and the counter does *)
  Definition fpc_done (pc : mf_pc) : bool :=
    match pc with MfInTerm | MfFinished => true | _ => false end.
  Definition passedc (th : nat -> mf_thread) (j : nat) : bool :=
    fpc_done (mf_pcv (th j)) && fin_term (mf_fin (th j)).
  Definition FGI (s : mf_state) : Prop :=
    mfs_endc s <= cnt (passedc (mfs_th s)) n /\
    (mfs_ended s = false -> mfs_endc s = cnt (passedc (mfs_th s)) n).

  Lemma FGI_init qs : FGI (mf_init true n qs fins).
  Proof.
    assert (H : cnt (passedc (mfs_th (mf_init true n qs fins))) n = 0).
    { apply cnt_none. intros j Hj. unfold passedc. cbn -[Nat.ltb].
      destruct (Nat.ltb_spec j n); [reflexivity|lia]. }
    unfold FGI. rewrite H. cbn. split; auto.
  Qed.

  (** frame: thread [t] moves without touching the counter.  It may become "done with ending
      Terminate" by being told to stop, but only after the output has ended *)
  Lemma FGI_upd st ec en cl stp th tr t st' en' cl' stp' thr' tr' :
    FGI (FS st ec en cl stp th tr) -> (en' = false -> en = false) ->
    (passedc th t = true -> fpc_done (mf_pcv thr') && fin_term (mf_fin thr') = true) ->
    (en' = false -> fpc_done (mf_pcv thr') && fin_term (mf_fin thr') = passedc th t) ->
    FGI (FS st' ec en' cl' stp' (upd th t thr') tr').
  Proof.
    unfold FGI. cbn. intros [HG1 HG2] Hen Hm He. split.
    - etransitivity; [exact HG1|]. apply cnt_mono. intros j _. unfold passedc at 2. pw j t; auto.
    - intros E. rewrite (HG2 (Hen E)). apply cnt_ext. intros j _. unfold passedc at 2. pw j t; auto.
      symmetry. auto.
  Qed.

  Lemma FGI_count st ec en cl stp th tr t st' thr' tr' :
    FGI (FS st ec en cl stp th tr) -> t < n -> passedc th t = false ->
    fpc_done (mf_pcv thr') && fin_term (mf_fin thr') = true ->
    FGI (FS st' (S ec) en cl stp (upd th t thr') tr').
  Proof.
    unfold FGI. cbn. intros [HG1 HG2] Htn H0 H1.
    assert (E : cnt (passedc (upd th t thr')) n = S (cnt (passedc th) n)).
    { apply cnt_flip with (t := t); auto.
      - intros j _ Hj. unfold passedc. now rewrite upd_other.
      - unfold passedc. now rewrite upd_same. }
    rewrite E. split; [lia|]. intros Hen. now rewrite HG2.
  Qed.

  (** [FGI_upd]; what it leaves are steps to [MfFinished], and steps from a program counter known
      only through [forigin] or to one known only through [fgoto] *)
  Ltac fgi_frame HGI H :=
    eapply FGI_upd; [exact HGI | auto; discriminate | unfold passedc; rewrite H; cbn
                    | unfold passedc; rewrite H; cbn; intros Hen0];
    try reflexivity; try discriminate.

  Lemma FGI_step s t s' : FTI s -> FGI s -> fstep n s t s' -> FGI s'.
  Proof.
    destruct s as [st ec en cl stp th tr].
    intros HTI HGI Hs. red in Hs. cbn in Hs. pose proof (HTI t) as Ht. cbn in Ht.
    fstep_cases Hs; [> | rewrite H in Ht .. ].
    - (* fs_fin *) exact HGI.
    - (* fs_publish *) fgi_frame HGI H.
    - (* fs_load_ended *) fgi_frame HGI H.
    - (* fs_load_ok *) fgi_frame HGI H.
    - (* fs_swap_dispose: the member disposes itself, it has read [ended] as true *)
      fgi_frame HGI H. destruct Ht as (_ & _ & _ & _ & _ & _ & _ & He & _). congruence.
    - (* fs_publish_old *) fgi_frame HGI H.
    - (* fs_start_first *) fgi_frame HGI H.
    - (* fs_next_stopped: told to stop, so the output has ended *)
      fgi_frame HGI H; [destruct Ho; discriminate|].
      destruct Ht as (_ & Hse & _). specialize (Hse Hstp). congruence.
    - (* fs_next_data *) fgi_frame HGI H; destruct Ho; first [discriminate | reflexivity].
    - (* fs_next_term *) fgi_frame HGI H; destruct Ho; first [discriminate | reflexivity].
    - (* fs_next_err *) fgi_frame HGI H; destruct Ho; first [discriminate | reflexivity].
    - (* fs_next_none *) fgi_frame HGI H; destruct Ho; first [discriminate | reflexivity].
    - (* fs_clear *) fgi_frame HGI H.
    - (* fs_endinc_last: the member counts itself *)
      eapply FGI_count; [exact HGI|apply (FTIc_lt Ht); discriminate|unfold passedc; now rewrite H|].
      assert (Hf : f = FinTerm) by apply Ht. now rewrite Hf.
    - (* fs_endinc_notlast: likewise *)
      eapply FGI_count; [exact HGI|apply (FTIc_lt Ht); discriminate|unfold passedc; now rewrite H|].
      assert (Hf : f = FinTerm) by apply Ht. now rewrite Hf.
    - (* fs_ret *) fgi_frame HGI H.
      + destruct Hret as [->| ->]; [auto|discriminate].
      + destruct Hret as [->| ->]; [reflexivity|].
        assert (He : is_err f = true) by apply Ht. destruct f; try reflexivity; discriminate.
    - (* fs_store *) fgi_frame HGI H.
    - (* fs_sweep_hit *) fgi_frame HGI H; destruct Hgo; reflexivity.
    - (* fs_sweep_miss *) fgi_frame HGI H; destruct Hgo; reflexivity.
  Qed.

  (** the Dekker argument: the failing member k stores [ended] and then looks at every cell; a
      member i publishes its cell and then looks at [ended].  Once k's sweep has passed i, member
      i is stopped, or has not published yet, or is about to read ended = true and dispose itself,
      or has completed by itself: it begins no further delivery. *)
  Definition sweptb (pc : mf_pc) (i : nat) : bool :=
    match pc with MfAtSweep _ j => i <? j | MfInErr | MfFinished => true | _ => false end.
  Definition sw_ok (pc : mf_pc) (cl : bool) : Prop :=
    match pc with
    | MfAtPublish | MfAtEndedLoad | MfAtSelfSwap | MfAtEndInc | MfInTerm => True
    | MfFinished => cl = false
    | _ => False
    end.
  Definition FSW (s : mf_state) : Prop :=
    forall k i e, k < n -> i < n -> i <> k -> fins k = FinErr e ->
      sweptb (mf_pcv (mfs_th s k)) i = true -> mfs_stopped s i = false ->
      sw_ok (mf_pcv (mfs_th s i)) (mfs_cell s i).

  Lemma FSW_init qs : FSW (mf_init true n qs fins).
  Proof.
    intros k i e Hk Hi Hik Hf. cbn -[Nat.ltb]. destruct (Nat.ltb_spec k n); [|lia]. cbn. discriminate.
  Qed.

  Lemma swept_ended s k i e :
    FTI s -> k < n -> fins k = FinErr e -> sweptb (mf_pcv (mfs_th s k)) i = true -> mfs_ended s = true.
  Proof.
    intros HTI Hk Hf Hsw. destruct (HTI k) as (Hfin & _ & _ & _ & _ & _ & Hpc).
    rewrite Hfin, Hf in Hpc. cbn in Hpc.
    destruct (mf_pcv (mfs_th s k)); try discriminate Hsw; [apply Hpc..|].
    now apply Hpc.
  Qed.

  Lemma fgoto_swept t e j tr pc' tr' i :
    fgoto n t e j tr pc' tr' -> i < n -> i <> t -> sweptb pc' i = true -> i < j.
  Proof.
    intros Hg Hi Hit. destruct Hg as [j' Hj' Hlt|j' Hj' Hge]; cbn; intros Hsw.
    - apply Nat.ltb_lt in Hsw. destruct (Nat.eqb_spec j t); lia.
    - destruct (Nat.eqb_spec j t); lia.
  Qed.

  Lemma upd_tf (f : nat -> bool) k i : upd f k true i = false -> i <> k /\ f i = false.
  Proof. unfold upd. destruct (Nat.eqb_spec i k); [discriminate|auto]. Qed.

  Lemma fstep_frame s t s' : fstep n s t s' ->
    forall i, (mfs_stopped s' i = false ->
               mfs_stopped s i = false /\ (i <> t -> mfs_cell s' i = mfs_cell s i)) /\
              (i <> t -> mfs_th s' i = mfs_th s i).
  Proof.
    destruct s as [st ec en cl stp th tr].
    intros Hs i. red in Hs. cbn in Hs. destruct Hs; cbn; (split; [|intros; now rewrite ?upd_other]).
    all: try (intros [? ?]%upd_tf); intros; split; auto; intros; now rewrite ?upd_other.
  Qed.

  (** the member's side: past its cell store it only goes on to read [ended], to dispose itself,
      or (from the Terminate arm) to the end *)
  Lemma sw_ok_step s t s' :
    FTI s -> fstep n s t s' -> mfs_ended s = true ->
    sw_ok (mf_pcv (mfs_th s t)) (mfs_cell s t) -> mfs_stopped s' t = false ->
    sw_ok (mf_pcv (mfs_th s' t)) (mfs_cell s' t).
  Proof.
    destruct s as [st ec en cl stp th tr].
    intros HTI Hs. pose proof (HTI t) as Ht. revert Ht.
    red in Hs. cbn in Hs.
    fstep_cases Hs; cbn; rewrite ?upd_same; try rewrite H; cbn; auto; try contradiction; try discriminate.
    (* [mf_next] ([Ho]) is entered from [MfAtSelfSwap] only, and then the member has been told to stop *)
    all: try (intros Ht _ Hok Hsp; destruct Ho as [| | |Hc]; try contradiction;
              destruct Ht as (_ & _ & _ & _ & _ & _ & Hx & _); cbn in Hx; rewrite Hc, Hsp in Hx; discriminate).
    - (* fs_load_ok *) intros _ He. congruence.
    - (* fs_endinc_notlast *) intros Ht _ _ _. apply Ht.
    - (* fs_ret *) intros Ht _ Hok _. destruct Hret as [->| ->]; [apply Ht|contradiction].
  Qed.

  (** the sweeper's side: the sibling it newly passes is the one whose cell it has just looked at *)
  Lemma swept_step s t s' e i :
    FTI s -> fstep n s t s' -> fins t = FinErr e -> i < n -> i <> t ->
    sweptb (mf_pcv (mfs_th s' t)) i = true ->
    sweptb (mf_pcv (mfs_th s t)) i = true \/ (mfs_stopped s' i = false -> mfs_cell s i = false).
  Proof.
    destruct s as [st ec en cl stp th tr].
    intros HTI Hs Hf Hi Hit. destruct (HTI t) as (Hfin & _ & _ & _ & _ & Her & Hpc).
    rewrite Hf in Hfin. rewrite Hfin in Her. specialize (Her eq_refl). revert Hfin Her Hpc.
    red in Hs. cbn in Hs.
    fstep_cases Hs; cbn -[Nat.ltb]; rewrite ?upd_same; try rewrite H; cbn -[Nat.ltb]; auto; try discriminate.
    (* the failing member is not told to stop, and its ending is not Terminate *)
    - (* fs_swap_dispose *) intros -> _ (_ & _ & Hx) _. discriminate Hx.
    - (* fs_next_stopped *) intros _ Hs0 _ _. congruence.
    - (* fs_endinc_notlast *) intros -> _ (_ & _ & Hx & _). discriminate Hx.
    - (* fs_ret *)
      intros -> _ Hpc _. destruct Hret as [->| ->]; [destruct Hpc as (_ & _ & Hx & _); discriminate Hx|now left].
    - (* fs_store *) intros _ _ _ Hsw. pose proof (fgoto_swept Hgo Hi Hit Hsw). lia.
    - (* fs_sweep_hit: [i] is newly passed only if it is the sibling [j] just looked at; had the sweep
         found [j]'s talkback, [j] would be stopped now *)
      intros _ _ _ Hsw. pose proof (fgoto_swept Hgo Hi Hit Hsw).
      destruct (Nat.eq_dec i j) as [->|]; [right|left; apply Nat.ltb_lt; lia].
      rewrite upd_same. discriminate.
    - (* fs_sweep_miss *)
      intros _ _ _ Hsw. pose proof (fgoto_swept Hgo Hi Hit Hsw).
      destruct (Nat.eq_dec i j) as [->|]; [right|left; apply Nat.ltb_lt; lia]. auto.
  Qed.

  Lemma sw_ok_empty st en i thr :
    i < n -> FTIc st en i false false thr -> sw_ok (mf_pcv thr) false.
  Proof.
    intros Hi (_ & _ & _ & _ & _ & _ & Hpc). destruct (mf_pcv thr); cbn; auto.
    all: try (destruct Hpc as (Hx & _); discriminate Hx); try discriminate Hpc.
    all: destruct Hpc as (_ & _ & _ & _ & Hx); try discriminate Hx.
    destruct Hx as (_ & _ & Hx). discriminate Hx.
  Qed.

  Lemma FSW_step s t s' : FTI s -> FSW s -> fstep n s t s' -> FSW s'.
  Proof.
    intros HTI HSW Hs k i e Hk Hi Hik Hfk Hsw Hst.
    destruct (fstep_frame Hs i) as (Hst0 & Hthi). destruct (Hst0 Hst) as (Hst1 & Hcl). clear Hst0.
    destruct (Nat.eq_dec k t) as [->|Hkt].
    - rewrite (Hthi Hik), (Hcl Hik).
      destruct (swept_step HTI Hs Hfk Hi Hik Hsw) as [Hold|Hc]; [now apply (HSW t i e)|].
      (* it has just looked at [i]'s cell *)
      pose proof (HTI i) as Hti. rewrite Hst1 in Hti. rewrite (Hc Hst) in Hti |- *. exact (sw_ok_empty Hi Hti).
    - rewrite (proj2 (fstep_frame Hs k) Hkt) in Hsw.
      pose proof (HSW k i e Hk Hi Hik Hfk Hsw Hst1) as Hold.
      destruct (Nat.eq_dec i t) as [->|Hit].
      + apply (sw_ok_step HTI Hs); auto. exact (swept_ended t HTI Hk Hfk Hsw).
      + now rewrite (Hthi Hit), (Hcl Hit).
  Qed.
End FineInv.

Definition f_indata (pc : mf_pc) : bool := match pc with MfInData => true | _ => false end.

Definition errdone (thr : mf_thread) : bool :=
  match mf_pcv thr with MfInErr | MfFinished => is_err (mf_fin thr) | _ => false end.

Section FTraceInv.
  Variable n : nat.
  Variable qs : nat -> list val.

  Record FTR (st ec de : nat) (stp : nat -> bool) (th : nat -> mf_thread) (tr : list tevent)
    : Prop := mkFTR {
    ftr_greet : count is_begin_greet tr = (if st =? 0 then 0 else 1);
    ftr_bgo : before_greet_ok (rev tr) = true;
    ftr_de : count isDE tr = de;
    ftr_dt : count isDT tr = (if ec =? n then 1 else 0);
    ftr_panic : existsb is_panic tr = false;
    ftr_deliv : forall j, delivered_by j (rev tr) ++ mf_q (th j) = qs j;
    ftr_scan : scan_term o0 false (rev tr) = [];
    ftr_open : forall j, scan_open o0 (rev tr) j = f_indata (mf_pcv (th j));
    ftr_seen : scan_seen false (rev tr) = true -> 1 <= de \/ ec = n;
    ftr_ups : forall j, count (is_up_term_of j) tr = (if stp j then 1 else 0) }.

  Definition UPS (stp : nat -> bool) (tr : list tevent) : Prop :=
    forall j, count (is_up_term_of j) tr = (if stp j then 1 else 0).

  Lemma FTR_TS st ec de stp th tr :
    FTR st ec de stp th tr <->
    TS n qs mf_q (fun x => f_indata (mf_pcv x)) st ec de th tr /\ UPS stp tr.
  Proof. split; [intros []; split; [constructor|]; auto|intros [[] ?]; constructor; auto]. Qed.

  Lemma UPS_ev stp e tr : UPS stp tr -> (forall j, is_up_term_of j e = false) -> UPS stp (e :: tr).
  Proof. intros H He j. now rewrite count_cons_t, He, H. Qed.

  Lemma UPS_up stp t j tr : UPS stp tr -> stp j = false -> UPS (upd stp j true) ((t, TUp j UT) :: tr).
  Proof.
    intros H Hj i. rewrite count_cons_t, H. cbn. unfold upd. rewrite (Nat.eqb_sym i j).
    destruct (Nat.eqb_spec j i) as [->|]; [now rewrite Hj|reflexivity].
  Qed.
End FTraceInv.

Section FineTrace.
  Variable n : nat.
  Variable qs : nat -> list val.
  Variable fins : nat -> final.
  Hypothesis amo : forall i j e1 e2, i < n -> j < n -> fins i = FinErr e1 -> fins j = FinErr e2 -> i = j.

  Definition nde (th : nat -> mf_thread) : nat := cnt (fun j => errdone (th j)) n.

  Definition FTRI (s : mf_state) : Prop :=
    FTR n qs (mfs_start s) (mfs_endc s) (nde (mfs_th s)) (mfs_stopped s) (mfs_th s) (mfs_tr s).

  Lemma FTRI_init : 1 <= n -> FTRI (mf_init true n qs fins).
  Proof.
    intros Hn. unfold FTRI.
    assert (H : nde (mfs_th (mf_init true n qs fins)) = 0).
    { apply cnt_none. intros j Hj. unfold errdone. cbn -[Nat.ltb].
      destruct (Nat.ltb_spec j n); [reflexivity|lia]. }
    rewrite H. cbn -[Nat.ltb]. constructor; cbn -[Nat.ltb]; auto.
    - destruct n; [lia|reflexivity].
    - intros j. destruct (j <? n); reflexivity.
    - discriminate.
  Qed.

  Lemma nde_same th t thr' : errdone thr' = errdone (th t) -> nde (upd th t thr') = nde th.
  Proof. intros H. apply cnt_ext. intros j Hj. pw j t; auto. Qed.

  Lemma nde_flip th t thr' :
    t < n -> errdone (th t) = false -> errdone thr' = true -> nde (upd th t thr') = S (nde th).
  Proof.
    intros Ht H0 H1. apply cnt_flip with (t := t); auto.
    - intros j Hj Hne. now rewrite upd_other.
    - now rewrite upd_same.
  Qed.

  (** a member that is about to begin a delivery and has not been told to stop: the Error has not
      begun (this is where the Dekker invariant is used) *)
  Lemma nde_zero s t :
    FTI n fins s -> FSW n fins s -> t < n -> mfs_stopped s t = false ->
    errdone (mfs_th s t) = false -> ~ sw_ok (mf_pcv (mfs_th s t)) (mfs_cell s t) ->
    nde (mfs_th s) = 0.
  Proof.
    intros HTI HSW Ht Hst He Hno.
    destruct (cnt_zero_or (fun j => errdone (mfs_th s j)) n) as [H|(k & Hk & Hek)]; [exact H|].
    exfalso. apply Hno.
    assert (Hkt : t <> k) by (intros ->; congruence).
    destruct (HTI k) as (Hfin & _).
    unfold errdone in Hek.
    destruct (fins k) as [|e|] eqn:Ef; rewrite Hfin in Hek;
      try (destruct (mf_pcv (mfs_th s k)); discriminate).
    apply (HSW k t e); auto.
    destruct (mf_pcv (mfs_th s k)); try discriminate; reflexivity.
  Qed.

  Lemma ec_lt s t : FGI n s -> t < n -> passedc (mfs_th s) t = false -> mfs_endc s < n.
  Proof. intros [HG _] Ht Hp. rewrite cnt_eq in HG. pose proof (cnt_lt _ Ht Hp). lia. Qed.

  Notation FTS := (TS n qs mf_q (fun x => f_indata (mf_pcv x))).

  Lemma FTS_origin st ec de cl th tr t pc q f st' tr0 x :
    FTS st ec de th tr -> th t = FT pc q f -> forigin st cl tr t pc st' tr0 ->
    mf_q x = q -> f_indata (mf_pcv x) = false ->
    FTS st' ec de (upd th t x) tr0.
  Proof.
    intros HT Hth Ho Hq Hp. destruct Ho.
    - apply TS_upd; [now apply TS_st| |]; now rewrite Hth.
    - apply TS_end; auto. now rewrite Hth.
    - apply TS_end; auto. now rewrite Hth.
    - apply TS_upd; auto; now rewrite Hth.
  Qed.

  Lemma FTS_upd st ec th tr t x :
    FTS st ec (nde th) th tr -> mf_q x = mf_q (th t) ->
    f_indata (mf_pcv x) = f_indata (mf_pcv (th t)) -> errdone x = errdone (th t) ->
    FTS st ec (nde (upd th t x)) (upd th t x) tr.
  Proof. intros HT Hq Hp He. rewrite nde_same by exact He. now apply TS_upd. Qed.

  Lemma FTS_goto st ec th tr t pc q f e j pc' tr' :
    FTS st ec (nde th) th tr -> th t = FT pc q f -> f_indata pc = false ->
    errdone (th t) = false -> is_err f = true -> t < n -> 1 <= st ->
    fgoto n t e j tr pc' tr' ->
    FTS st ec (nde (upd th t (FT pc' q f))) (upd th t (FT pc' q f)) tr'.
  Proof.
    intros HT Hth Hp He Hf Ht Hst Hg. destruct Hg.
    - apply FTS_upd; auto; now rewrite Hth.
    - rewrite nde_flip by auto. apply TS_upd; [now apply TS_de| |]; now rewrite Hth.
  Qed.

  Lemma FTS_step s t s' :
    FTI n fins s -> FGI n s -> FSW n fins s ->
    FTS (mfs_start s) (mfs_endc s) (nde (mfs_th s)) (mfs_th s) (mfs_tr s) -> fstep n s t s' ->
    FTS (mfs_start s') (mfs_endc s') (nde (mfs_th s')) (mfs_th s') (mfs_tr s').
  Proof.
    destruct s as [st ec en cl stp th tr].
    intros HTI HGI HSW HT Hs.
    red in Hs. cbn in Hs. pose proof (HTI t) as Ht. cbn in Ht.
    fstep_cases Hs; cbn [mfs_start mfs_endc mfs_ended mfs_stopped mfs_th mfs_tr] in *;
      [> | rewrite H in Ht .. ].
    - (* fs_fin *) exact HT.
    - (* fs_publish: no event, and the thread's queue, "in a data delivery" and "Error begun" stay *)
      apply FTS_upd; auto; now rewrite H.
    - (* fs_load_ended *) apply FTS_upd; auto; now rewrite H.
    - (* fs_load_ok *) apply FTS_upd; auto; now rewrite H.
    - (* fs_swap_dispose *) apply FTS_upd; [now apply TS_up|now rewrite H..|]. rewrite H. apply Ht.
    - (* fs_publish_old *) apply FTS_upd; auto; now rewrite H.
    - (* fs_start_first *) subst st. apply FTS_upd; [now apply TS_dh|now rewrite H..].
    - (* fs_next_stopped: the failing member is never told to stop *)
      rewrite nde_same; [eapply FTS_origin; eauto|]. rewrite H. cbn.
      destruct (is_err f) eqn:E; [|destruct Ho; reflexivity].
      destruct Ht as (_ & _ & _ & _ & _ & Her & _). specialize (Her E). congruence.
    - (* fs_next_data: the member is not stopped and about to deliver, so no Error has begun, and it
         has not counted itself *)
      assert (Htn : t < n) by (apply (FTIc_lt Ht); destruct Ho; discriminate).
      assert (He : errdone (th t) = false) by (rewrite H; destruct Ho; reflexivity).
      rewrite nde_same by now rewrite He.
      pose proof (FTS_origin (FT MfFinished (v :: q) f) HT H Ho eq_refl eq_refl) as HT1.
      assert (Hec : ec < n).
      { apply (ec_lt (s := FS st ec en cl stp th tr) HGI Htn).
        unfold passedc. cbn. rewrite H. destruct Ho; reflexivity. }
      assert (Hde : nde th = 0).
      { apply (nde_zero (s := FS st ec en cl stp th tr) HTI HSW Htn); auto; cbn; rewrite H; cbn.
        destruct Ho as [| | |Hc]; auto. intros _.
        destruct Ht as (_ & _ & _ & _ & _ & _ & Hx & _). cbn in Hx. rewrite Hc, Hstp in Hx. discriminate. }
      rewrite Hde in *. eapply TS_dd; [exact HT1| | | | |].
      + intros j Hj. now rewrite !upd_other.
      + now rewrite !upd_same.
      + now rewrite upd_same.
      + apply (FTIc_origin Ht Ho eq_refl).
      + lia.
    - (* fs_next_term: [mf_next] ends by itself, no Error has begun at this thread before or after *)
      rewrite nde_same by (rewrite H; destruct Ho; reflexivity). eapply FTS_origin; eauto.
    - (* fs_next_err *)
      rewrite nde_same by (rewrite H; destruct Ho; reflexivity). eapply FTS_origin; eauto.
    - (* fs_next_none *)
      rewrite nde_same by (rewrite H; destruct Ho; reflexivity). eapply FTS_origin; eauto.
    - (* fs_clear *) apply FTS_upd; auto; now rewrite H.
    - (* fs_endinc_last: the last member counts itself: completion; all the others are done, so none is inside a
         data delivery *)
      assert (Htn : t < n) by (apply (FTIc_lt Ht); discriminate).
      destruct HGI as [HG1 HG2]. cbn in HG1, HG2. rewrite cnt_eq in HG1.
      assert (Hpt : passedc th t = false) by (unfold passedc; now rewrite H).
      pose proof (cnt_lt _ Htn Hpt) as Hlt.
      apply FTS_upd; [|now rewrite H..]. apply TS_dt; auto; [lia|apply Ht|].
      intros j. destruct (Nat.eq_dec j t) as [->|Hj]; [now rewrite H|].
      destruct (Nat.lt_ge_cases j n) as [Hjn|Hjn].
      + assert (Hc : passedc th j = true) by (apply cnt_but_one with (k := n) (t := t); auto; lia).
        unfold passedc in Hc. destruct (mf_pcv (th j)); cbn in *; auto; discriminate.
      + destruct (HTI j) as (_ & _ & _ & Hfj & _). cbn in Hfj. now rewrite Hfj.
    - (* fs_endinc_notlast *)
      assert (Htn : t < n) by (apply (FTIc_lt Ht); discriminate).
      assert (Hec' : ec < n).
      { apply (ec_lt (s := FS st ec en cl stp th tr) HGI Htn). unfold passedc. cbn. now rewrite H. }
      apply FTS_upd; [now apply TS_ec|now rewrite H..|]. rewrite H. cbn.
      assert (Hf : f = FinTerm) by apply Ht. now rewrite Hf.
    - (* fs_ret *)
      rewrite nde_same; [apply TS_end; auto; now rewrite H|]. rewrite H.
      destruct Hret as [->| ->]; [|reflexivity]. assert (Hf : f = FinTerm) by apply Ht. now rewrite Hf.
    - (* fs_store *)
      assert (Htn : t < n) by (apply (FTIc_lt Ht); discriminate).
      destruct Ht as (_ & _ & _ & _ & _ & _ & _ & _ & Hf & Hst). cbn in Hf.
      eapply FTS_goto; [exact HT|exact H|reflexivity|now rewrite H|now rewrite Hf|exact Htn|exact Hst|exact Hgo].
    - (* fs_sweep_hit *)
      assert (Htn : t < n) by (apply (FTIc_lt Ht); discriminate).
      destruct Ht as (_ & _ & _ & _ & _ & _ & _ & Hf & _ & Hst & _). cbn in Hf.
      eapply FTS_goto; [apply TS_up; exact HT|exact H|reflexivity|now rewrite H|now rewrite Hf|exact Htn|exact Hst|exact Hgo].
    - (* fs_sweep_miss *)
      assert (Htn : t < n) by (apply (FTIc_lt Ht); discriminate).
      destruct Ht as (_ & _ & _ & _ & _ & _ & _ & Hf & _ & Hst & _). cbn in Hf.
      eapply FTS_goto; [exact HT|exact H|reflexivity|now rewrite H|now rewrite Hf|exact Htn|exact Hst|exact Hgo].
  Qed.

  (** the talkback calls: only the two disposing steps make one, each to a member whose talkback
      was still in its cell, hence not yet stopped *)
  Lemma UPS_forigin stp t st cl tr pc st' tr0 :
    UPS stp tr -> forigin st cl tr t pc st' tr0 -> UPS stp tr0.
  Proof. intros HU []; auto using UPS_ev. Qed.

  Lemma UPS_fgoto stp t e j tr pc' tr' : UPS stp tr -> fgoto n t e j tr pc' tr' -> UPS stp tr'.
  Proof. intros HU []; auto using UPS_ev. Qed.

  Lemma FUP_step s t s' :
    FTI n fins s -> UPS (mfs_stopped s) (mfs_tr s) -> fstep n s t s' ->
    UPS (mfs_stopped s') (mfs_tr s').
  Proof.
    destruct s as [st ec en cl stp th tr].
    intros HTI HU Hs.
    assert (Hcs : forall j, cl j = true -> stp j = false) by (intros j; apply (HTI j)).
    red in Hs. cbn in Hs. destruct Hs; cbn in *; eauto using UPS_ev, UPS_up, UPS_forigin, UPS_fgoto.
  Qed.

  Lemma FTRI_step s t s' :
    FTI n fins s -> FGE n fins s -> FGI n s -> FSW n fins s -> FTRI s -> fstep n s t s' -> FTRI s'.
  Proof.
    intros HTI _ HGI HSW [HT HU]%FTR_TS Hs. apply FTR_TS. split.
    - exact (FTS_step HTI HGI HSW HT Hs).
    - exact (FUP_step HTI HU Hs).
  Qed.
End FineTrace.

Section FineTheorems.
  Variable n : nat.
  Variable qs : nat -> list val.
  Variable fins : nat -> final.
  Hypothesis Hn : 1 <= n.
  Hypothesis amo : at_most_one_err n fins.

  Definition FInv (s : mf_state) : Prop :=
    FTI n fins s /\ FGE n fins s /\ FGI n s /\ FSW n fins s /\ FTRI n qs s.

  Lemma freach_inv s : mf_reach n qs fins s -> FInv s.
  Proof.
    pose proof amo as amo'. unfold at_most_one_err in amo'.
    induction 1 as [|s t _ (H1 & H2 & H3 & H4 & H5)].
    - split; [|split; [|split; [|split]]].
      + apply FTI_init.
      + apply FGE_init.
      + apply FGI_init.
      + apply FSW_init.
      + now apply FTRI_init.
    - pose proof (fstep_of n s t) as Hs. split; [|split; [|split; [|split]]].
      + eapply FTI_step; eauto.
      + eapply FGE_step; eauto.
      + eapply FGI_step; eauto.
      + eapply FSW_step; eauto.
      + eapply FTRI_step; eauto.
  Qed.

  Lemma errdone_err s k : FInv s -> errdone (mfs_th s k) = true -> is_err (fins k) = true.
  Proof.
    intros (H1 & _) He. destruct (H1 k) as (Hfin & _). rewrite <- Hfin.
    unfold errdone in He. destruct (mf_pcv (mfs_th s k)); try discriminate; exact He.
  Qed.

  Lemma nde_le_one s : FInv s -> nde n (mfs_th s) <= 1.
  Proof.
    intros HI. apply cnt_le_one. intros i j Hi Hj Hei Hej.
    pose proof (errdone_err _ HI Hei) as Hi'. pose proof (errdone_err _ HI Hej) as Hj'.
    destruct (fins i) eqn:Ei; try discriminate. destruct (fins j) eqn:Ej; try discriminate.
    eapply amo; eauto.
  Qed.

  Lemma nde_pos_lt s : FInv s -> 1 <= nde n (mfs_th s) -> mfs_endc s < n.
  Proof.
    intros HI Hp.
    destruct (cnt_zero_or (fun j => errdone (mfs_th s j)) n) as [H|(k & Hk & Hek)];
      [unfold nde in Hp; rewrite cnt_eq in Hp; lia|].
    pose proof (errdone_err _ HI Hek) as He. destruct HI as (H1 & _ & H3 & _).
    apply (ec_lt H3 Hk). unfold passedc. destruct (H1 k) as (Hfin & _). rewrite Hfin.
    destruct (fins k); try discriminate. cbn. apply andb_false_r.
  Qed.

  Lemma fendc_le s : FInv s -> mfs_endc s <= n.
  Proof. intros (_ & _ & [H3 _] & _). rewrite cnt_eq in H3. pose proof (cnt_le (passedc (mfs_th s)) n). lia. Qed.

  (** the sink is greeted at most once, nothing is delivered before the greeting begins *)
  Theorem fine_greet_once s :
    mf_reach n qs fins s ->
    count is_begin_greet (mfs_tr s) <= 1 /\ before_greet_ok (rev (mfs_tr s)) = true.
  Proof.
    intros Hr. destruct (freach_inv Hr) as (_ & _ & _ & _ & []). split; auto.
    rewrite ftr_greet0. destruct (mfs_start s =? 0); lia.
  Qed.

  (** each member's deliveries followed by what it still holds are its queue: its own order,
      nothing forged, nothing twice *)
  Theorem fine_delivered s :
    mf_reach n qs fins s -> forall t, delivered_by t (rev (mfs_tr s)) ++ mf_q (mfs_th s t) = qs t.
  Proof. intros Hr. destruct (freach_inv Hr) as (_ & _ & _ & _ & []). assumption. Qed.

  (** at most one terminal message begins at the sink *)
  Theorem fine_one_terminal s :
    mf_reach n qs fins s -> count is_begin_term (mfs_tr s) <= 1.
  Proof.
    intros Hr. pose proof (freach_inv Hr) as HI.
    pose proof (nde_le_one HI) as Hle. pose proof (nde_pos_lt HI) as Hlt.
    destruct HI as (_ & _ & _ & _ & [HT _]%FTR_TS). rewrite (TS_one_terminal HT).
    destruct (Nat.eqb_spec (mfs_endc s) n); lia.
  Qed.

  (** no completion while a data delivery is in progress, no delivery begins after a terminal
      message began *)
  Theorem fine_no_data_after_end s :
    mf_reach n qs fins s -> scan_term (fun _ => false) false (rev (mfs_tr s)) = [].
  Proof. intros Hr. destruct (freach_inv Hr) as (_ & _ & _ & _ & []). assumption. Qed.

  Theorem fine_no_panic s : mf_reach n qs fins s -> existsb is_panic (mfs_tr s) = false.
  Proof. intros Hr. destruct (freach_inv Hr) as (_ & _ & _ & _ & []). assumption. Qed.

  (** every member's talkback is told to stop at most once, whoever does it *)
  Theorem fine_disposed_at_most_once s :
    mf_reach n qs fins s -> forall j, count (is_up_term_of j) (mfs_tr s) <= 1.
  Proof.
    intros Hr j. destruct (freach_inv Hr) as (_ & _ & _ & _ & []).
    rewrite ftr_ups0. destruct (mfs_stopped s j); lia.
  Qed.

  Lemma mf_finished_pc s t : mf_finished s t = true -> mf_pcv (mfs_th s t) = MfFinished.
  Proof. unfold mf_finished. destruct (mf_pcv (mfs_th s t)); congruence. Qed.

  Lemma fine_finished_ge s t : mf_reach n qs fins s -> n <= t -> mf_finished s t = true.
  Proof.
    intros Hr Ht. destruct (freach_inv Hr) as (H1 & _). destruct (H1 t) as (_ & _ & _ & H & _).
    unfold mf_finished. now rewrite (H Ht).
  Qed.

  (** once the output has ended and everything is quiet, every other member has been told to
      stop exactly once, or had completed by itself *)
  Theorem fine_disposed_exactly_once s :
    mf_reach n qs fins s ->
    (forall t, t < n -> mf_finished s t = true) -> mfs_ended s = true ->
    forall j, j < n -> (forall e, fins j <> FinErr e) ->
      count (is_up_term_of j) (mfs_tr s) = 1
      \/ (mf_q (mfs_th s j) = [] /\ fins j = FinTerm /\ mfs_stopped s j = false).
  Proof.
    intros Hr Hfin Hen j Hj Hne. destruct (freach_inv Hr) as (H1 & H2 & _ & H4 & []).
    rewrite ftr_ups0. destruct (mfs_stopped s j) eqn:Es; [now left|right].
    destruct (H2 Hen) as (k & e & Hk & Hfk & _).
    assert (Hpc : forall t, t < n -> mf_pcv (mfs_th s t) = MfFinished)
      by (intros t Ht; apply mf_finished_pc; auto).
    assert (Hjk : j <> k) by (intros ->; eapply Hne; eauto).
    pose proof (H4 k j e Hk Hj Hjk Hfk) as Hsw. rewrite (Hpc k Hk), (Hpc j Hj) in Hsw.
    specialize (Hsw eq_refl Es). cbn in Hsw.
    pose proof (H1 j) as Hjj. unfold FTIc in Hjj. rewrite (Hpc j Hj), Es, Hsw in Hjj.
    destruct Hjj as (Hf & _ & _ & _ & _ & _ & Hp). destruct (Hp Hj) as (_ & _ & _ & Hd).
    destruct (Hd eq_refl) as [(Ha & Hb & _)|(_ & Hc)]; [|discriminate].
    repeat split; auto. congruence.
  Qed.

  (** the full C18 check, with the talkback cells as scheduling points, on every final state *)
  Theorem fine_final s :
    mf_reach n qs fins s ->
    (forall t, t < n -> mf_finished s t = true) -> merge_check_fine n qs fins (rev (mfs_tr s)) = [].
  Proof.
    intros Hr Hfin. pose proof (freach_inv Hr) as HI.
    pose proof (nde_le_one HI) as Hle. pose proof (nde_pos_lt HI) as Hlt.
    assert (Hpc : forall t, mf_pcv (mfs_th s t) = MfFinished)
      by (intros t; apply mf_finished_pc; destruct (Nat.lt_ge_cases t n); auto using fine_finished_ge).
    destruct HI as (H1 & H2 & H3 & H4 & [HT HU]%FTR_TS).
    assert (HF : forall t, t < n ->
              mf_fin (mfs_th s t) = fins t /\ 1 <= mfs_start s /\
              (mfs_ended s = false -> mf_q (mfs_th s t) = [])).
    { intros t Ht. pose proof (H1 t) as H. unfold FTIc in H. rewrite (Hpc t) in H.
      destruct H as (Ha & _ & _ & _ & _ & _ & Hc). destruct (Hc Ht) as (Hd & He & _). auto. }
    unfold merge_check_fine. rewrite flat_map_nil.
    2:{ intros j _. rewrite count_rev, HU. destruct (mfs_stopped s j); reflexivity. }
    rewrite app_nil_r. apply (TS_check fins HT).
    - apply (HF 0 Hn).
    - destruct (Nat.eqb_spec (mfs_endc s) n); lia.
    - (* a member fails: exactly one Error, no Terminate *)
      intros (f & e & Hf & Ef)%any_err_elim.
      assert (Hp : 1 <= nde n (mfs_th s)).
      { apply cnt_pos with (t := f); auto. unfold errdone. rewrite (Hpc f).
        destruct (HF f Hf) as (-> & _). now rewrite Ef. }
      specialize (Hlt Hp). lia.
    - (* nobody fails: everything delivered; all Terminate => exactly one completion *)
      intros Eany.
      assert (Hen : mfs_ended s = false).
      { destruct (mfs_ended s) eqn:E; auto. destruct (H2 E) as (f & e & Hf & He & _).
        now rewrite (any_err_intro fins Hf He) in Eany. }
      split; [intros t Ht; now apply (HF t Ht)|]. intros Eall.
      destruct H3 as [_ H3]. rewrite (H3 Hen). apply cnt_all. intros t Ht.
      unfold passedc. rewrite (Hpc t). destruct (HF t Ht) as (-> & _).
      now rewrite (all_term_elim fins Eall Ht).
  Qed.
End FineTheorems.

Lemma fine_run_full_reach n qs fins nth sch fuel :
  mf_reach n qs fins (run_full (mf_step true n) mf_finished nth sch fuel (mf_init true n qs fins)).
Proof. apply run_full_inv; [intros s t; apply mfrS|apply mfr0]. Qed.

Corollary fine_driver_final n qs fins nth sch fuel :
  1 <= n -> at_most_one_err n fins ->
  let s := run_full (mf_step true n) mf_finished nth sch fuel (mf_init true n qs fins) in
  (forall t, t < n -> mf_finished s t = true) -> merge_check_fine n qs fins (rev (mfs_tr s)) = [].
Proof. intros Hn Ha s Hf. apply fine_final; auto. apply fine_run_full_reach. Qed.

(** the code before the repair, on the witness schedule of ThreadsFine.v: member 0 passes its
    [ended.load()], member 1 stores the flag and walks the cells (cell 0 still empty), member 0
    publishes its talkback too late and goes on: data reaches the sink after the Error *)
Theorem fine_unfixed_refuted :
  let s := run_full (mf_step false 2) mf_finished 2 h10_sched 400 (mf_init false 2 h10_qs h10_fins) in
  (forall t, t < 2 -> mf_finished s t = true) /\
  In TvAfterTerminal (merge_check_fine 2 h10_qs h10_fins (rev (mfs_tr s))).
Proof.
  split.
  - intros t Ht. destruct t as [|[|t]]; [vm_compute; reflexivity|vm_compute; reflexivity|lia].
  - vm_compute. auto.
Qed.

(** and the same schedule on the repaired code is accepted (non-vacuity): member 1's sweep finds
    member 0's talkback and disposes it *)
Example fine_fixed_h10_ok :
  let s := run_full (mf_step true 2) mf_finished 2 h10_sched 400 (mf_init true 2 h10_qs h10_fins) in
  (forall t, t < 2 -> mf_finished s t = true) /\ merge_check_fine 2 h10_qs h10_fins (rev (mfs_tr s)) = []
  /\ In (1, TUp 0 UT) (mfs_tr s).
Proof.
  split; [|split].
  - intros t Ht. destruct t as [|[|t]]; [vm_compute; reflexivity|vm_compute; reflexivity|lia].
  - vm_compute. reflexivity.
  - vm_compute. auto 10.
Qed.

Print Assumptions fine_greet_once.
Print Assumptions fine_delivered.
Print Assumptions fine_one_terminal.
Print Assumptions fine_no_data_after_end.
Print Assumptions fine_no_panic.
Print Assumptions fine_disposed_at_most_once.
Print Assumptions fine_disposed_exactly_once.
Print Assumptions fine_final.
Print Assumptions fine_run_full_reach.
Print Assumptions fine_driver_final.
Print Assumptions fine_unfixed_refuted.
Print Assumptions fine_fixed_h10_ok.
