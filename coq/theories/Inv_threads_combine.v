(** * Inv_threads_combine: C18 for the repaired combine!, over ALL schedules.

    The interleaving model of Threads.v (section CombineThreads, [fixed = true])
    is shown to satisfy, in every state reachable under any schedule whatever:
    no panic, at most one greeting that precedes every other delivery, only
    complete tuples made of values that were actually sent, at most one
    completion that begins while no data delivery is in progress; and, once all
    member threads have finished, the whole monitor [combine_check] is silent.
    The unrepaired code ([fixed = false]) is refuted by computation. *)

From CB Require Import Threads ThreadSpec Inv_threads_merge ThreadFacts.

Set Implicit Arguments.

Lemma sent_by_in qs t v : In v (qs t) -> sent_by qs t v = true.
Proof.
  intros H. unfold sent_by. apply existsb_exists. exists v. split; [assumption|apply val_eqb_refl].
Qed.

Lemma tuple_ok_snoc qs l : forall k v,
  tuple_ok qs k (l ++ [v]) = tuple_ok qs k l && sent_by qs (k + length l) v.
Proof.
  induction l as [|a l IH]; intros k v; simpl.
  - rewrite Nat.add_0_r, andb_true_r. reflexivity.
  - rewrite IH. rewrite <- Nat.add_succ_comm. rewrite andb_assoc. reflexivity.
Qed.

Lemma cb_tuple_all qs vals k :
  (forall j, j < k -> exists v, vals j = Some v /\ In v (qs j)) ->
  exists l, cb_tuple vals k = Some l /\ length l = k /\ tuple_ok qs 0 l = true.
Proof.
  induction k as [|k IH]; intros H.
  - exists []. repeat split.
  - destruct IH as (l & Hl & Hlen & Hok); [intros; apply H; lia|].
    destruct (H k ltac:(lia)) as (v & Hv & Hin).
    exists (l ++ [v]). simpl. rewrite Hl, Hv. split; [reflexivity|]. split.
    + rewrite app_length. simpl. lia.
    + rewrite tuple_ok_snoc, Hok, Hlen. simpl. apply sent_by_in. assumption.
Qed.

Definition isnone {A} (o : option A) : bool := match o with None => true | Some _ => false end.

Definition atstartb (th : cb_thread) : bool :=
  match cb_pcv th with CbAtStartDec => true | _ => false end.
(** the member has not yet performed its first [n_data.fetch_sub] *)
Definition undecb (th : cb_thread) (vo : option val) : bool :=
  match cb_pcv th with CbAtDataDec _ => true | _ => isnone vo end.
(** the member has not (and, if it stops without ending, will never have) performed [n_end.fetch_sub] *)
Definition notendedb (th : cb_thread) : bool :=
  match cb_pcv th with
  | CbInTerm => false
  | CbFinished => match cb_fin th with FinNone => true | _ => false end
  | _ => true
  end.
Definition indatab (th : cb_thread) : bool :=
  match cb_pcv th with CbInData => true | _ => false end.

Definition next_th (th : cb_thread) : cb_thread :=
  match cb_q th with
  | v :: q' => th <| cb_pcv := CbAtValsLoad v |> <| cb_q := q' |>
  | [] => match cb_fin th with
          | FinNone => th <| cb_pcv := CbFinished |>
          | _ => th <| cb_pcv := CbAtEndDec |>
          end
  end.

Lemma cb_next_eq s t th : cbs_stopped s t = false -> cb_next s t th = cb_set s t (next_th th).
Proof.
  intros H. unfold cb_next, next_th. rewrite H.
  destruct (cb_q th); [|reflexivity]. destruct (cb_fin th); reflexivity.
Qed.

Lemma next_th_atstart th : atstartb (next_th th) = false.
Proof. unfold next_th, atstartb. destruct (cb_q th); [|reflexivity]. destruct (cb_fin th); reflexivity. Qed.
Lemma next_th_undec th vo : undecb (next_th th) vo = isnone vo.
Proof. unfold next_th, undecb. destruct (cb_q th); [|reflexivity]. destruct (cb_fin th); reflexivity. Qed.
Lemma next_th_notended th : notendedb (next_th th) = true.
Proof.
  unfold next_th, notendedb. destruct (cb_q th); [|reflexivity].
  destruct (cb_fin th) eqn:E; cbn; rewrite ?E; reflexivity.
Qed.
Lemma next_th_indata th : indatab (next_th th) = false.
Proof. unfold next_th, indatab. destruct (cb_q th); [|reflexivity]. destruct (cb_fin th); reflexivity. Qed.

(** what the shared cells say about a thread at [p]: [nd] the count of members without a value,
    [vo] the thread's own slot *)
Definition pc_ok (qt : list val) (ft : final) (nd : nat) (vo : option val) (p : cb_pc) : Prop :=
  match p with
  | CbAtStartDec => isnone vo = true
  | CbAtValsLoad v => In v qt
  | CbAtDataDec _ => isnone vo = false
  | CbAtRcuLoad v o wn | CbAtRcuCas v o wn _ => In v qt /\ o = None /\ wn = isnone vo
  | CbAtEmitLoad => nd = 0
  | CbAtEndDec | CbInTerm => ft <> FinNone
  | _ => True
  end.

Definition thr_ok (qt : list val) (ft : final) (nd : nat) (th : cb_thread) (vo : option val) : Prop :=
  cb_fin th = ft /\ incl (cb_q th) qt /\ (forall v, vo = Some v -> In v qt)
  /\ pc_ok qt ft nd vo (cb_pcv th).

Lemma thr_ok_set qt ft nd nd' th vo vo' p :
  thr_ok qt ft nd th vo -> (forall v, vo' = Some v -> In v qt) -> pc_ok qt ft nd' vo' p ->
  thr_ok qt ft nd' (th <| cb_pcv := p |>) vo'.
Proof. intros (A & B & _) C D. now repeat split. Qed.

Lemma thr_ok_next qt ft nd nd' th vo : thr_ok qt ft nd th vo -> thr_ok qt ft nd' (next_th th) vo.
Proof.
  intros (Hf & Hq & Hv & _). unfold thr_ok, next_th.
  destruct (cb_q th) as [|v q'] eqn:Eq.
  - destruct (cb_fin th) eqn:Ef; cbn; rewrite ?Eq, ?Ef; repeat split; auto; congruence.
  - cbn. repeat split; auto.
    + intros x Hx. apply Hq. right. exact Hx.
    + apply Hq. left. reflexivity.
Qed.

Lemma thr_ok_mono qt ft nd nd' th vo : thr_ok qt ft nd th vo -> nd' <= nd -> thr_ok qt ft nd' th vo.
Proof.
  unfold thr_ok. intros (A & B & C & D) H. repeat split; auto.
  destruct (cb_pcv th); auto. cbn in *. lia.
Qed.

Section Combine.
  Variable n : nat.
  Variable qs : nat -> list val.
  Variable fins : nat -> final.

  Inductive cb_reach : cb_state -> Prop :=
  | cbr0 : cb_reach (cb_init n qs fins)
  | cbrS s t : cb_reach s -> cb_reach (cb_step true n s t).

  Record Inv (s : cb_state) : Prop := {
    inv_stopped : forall t, cbs_stopped s t = false;
    inv_panicked : cbs_panicked s = false;
    inv_out : forall t, n <= t -> cb_pcv (cbs_th s t) = CbFinished;
    inv_thr : forall t, thr_ok (qs t) (fins t) (cbs_ndata s) (cbs_th s t) (cbs_vals s t);
    inv_nstart : cbs_nstart s = cnt (fun x => atstartb (cbs_th s x)) n;
    inv_ndata : cbs_ndata s = cnt (fun x => undecb (cbs_th s x) (cbs_vals s x)) n;
    inv_nend : cbs_nend s = cnt (fun x => notendedb (cbs_th s x)) n }.

  Lemma inv_init : Inv (cb_init n qs fins).
  Proof.
    assert (Hlt : forall j, j < n -> (j <? n) = true) by (intros j Hj; now apply Nat.ltb_lt).
    split; cbn -[Nat.ltb]; try reflexivity.
    - intros t Ht. destruct (Nat.ltb_spec t n); [lia|reflexivity].
    - intros t. unfold thr_ok. cbn -[Nat.ltb]. repeat split; try (apply incl_refl); try discriminate.
      destruct (t <? n); cbn; auto.
    - symmetry. apply cnt_all. intros j Hj. unfold atstartb. cbn -[Nat.ltb]. now rewrite Hlt.
    - symmetry. apply cnt_all. intros j Hj. unfold undecb. cbn -[Nat.ltb]. now destruct (j <? n).
    - symmetry. apply cnt_all. intros j Hj. unfold notendedb. cbn -[Nat.ltb]. now rewrite Hlt.
  Qed.

  Lemma inv_set s s1 t x :
    Inv s -> t < n ->
    cbs_th s1 = cbs_th s -> cbs_stopped s1 = cbs_stopped s -> cbs_panicked s1 = cbs_panicked s ->
    (forall j, j <> t -> cbs_vals s1 j = cbs_vals s j) ->
    thr_ok (qs t) (fins t) (cbs_ndata s1) x (cbs_vals s1 t) ->
    cbs_ndata s1 <= cbs_ndata s ->
    cbs_nstart s1 + b2n (atstartb (cbs_th s t)) = cbs_nstart s + b2n (atstartb x) ->
    cbs_ndata s1 + b2n (undecb (cbs_th s t) (cbs_vals s t))
      = cbs_ndata s + b2n (undecb x (cbs_vals s1 t)) ->
    cbs_nend s1 + b2n (notendedb (cbs_th s t)) = cbs_nend s + b2n (notendedb x) ->
    Inv (cb_set s1 t x).
  Proof.
    intros I Ht Hth Hst Hpa Hvals Hok Hnd H1 H2 H3.
    split; cbn.
    - rewrite Hst. apply I.
    - rewrite Hpa. apply I.
    - intros j Hj. rewrite upd_other, Hth by lia. now apply I.
    - intros j. destruct (Nat.eq_dec j t) as [->|Hj].
      + now rewrite upd_same.
      + rewrite upd_other, Hth, Hvals by exact Hj. eapply thr_ok_mono; [apply I|exact Hnd].
    - eapply cnt_moved; [exact Ht | | exact (inv_nstart I) | cbn; rewrite upd_same; exact H1].
      intros j Hj. cbn. now rewrite upd_other, Hth.
    - eapply cnt_moved; [exact Ht | | exact (inv_ndata I) | cbn; rewrite upd_same; exact H2].
      intros j Hj. cbn. now rewrite upd_other, Hth, Hvals.
    - eapply cnt_moved; [exact Ht | | exact (inv_nend I) | cbn; rewrite upd_same; exact H3].
      intros j Hj. cbn. now rewrite upd_other, Hth.
  Qed.

  Lemma inv_all_set s : Inv s -> cbs_ndata s = 0 ->
    forall j, j < n -> exists v, cbs_vals s j = Some v /\ In v (qs j).
  Proof.
    intros I H j Hj. rewrite (inv_ndata I) in H. pose proof (cnt_zero _ H Hj) as Z. cbv beta in Z.
    destruct (inv_thr I j) as (_ & _ & Hv & _).
    unfold undecb in Z. destruct (cbs_vals s j) as [v|] eqn:E.
    - exists v. auto.
    - destruct (cb_pcv (cbs_th s j)); discriminate.
  Qed.

  Lemma inv_tuple s : Inv s -> cbs_ndata s = 0 ->
    exists l, cb_tuple (cbs_vals s) n = Some l /\ length l = n /\ tuple_ok qs 0 l = true.
  Proof. intros I H. apply cb_tuple_all. apply inv_all_set; assumption. Qed.

  Lemma inv_nstart0 s : Inv s -> cbs_ndata s = 0 -> cbs_nstart s = 0.
  Proof.
    intros I H. rewrite (inv_nstart I). apply cnt_none. intros x Hx.
    destruct (inv_all_set I H Hx) as (v & Hv & _). destruct (inv_thr I x) as (_ & _ & _ & P).
    unfold atstartb. destruct (cb_pcv (cbs_th s x)); try reflexivity. cbn in P. now rewrite Hv in P.
  Qed.

  Lemma inv_step s t : Inv s -> Inv (cb_step true n s t).
  Proof.
    intros I. destruct (le_lt_dec n t) as [Hge|Ht].
    { unfold cb_step. rewrite (inv_out I Hge). exact I. }
    pose proof (inv_thr I t) as Hok. pose proof Hok as (Hfin & _ & Hv & Hpc).
    pose proof (cnt_ge (fun x => atstartb (cbs_th s x)) Ht) as G1.
    pose proof (cnt_ge (fun x => undecb (cbs_th s x) (cbs_vals s x)) Ht) as G2.
    pose proof (cnt_ge (fun x => notendedb (cbs_th s x)) Ht) as G3.
    rewrite <- (inv_nstart I) in G1. rewrite <- (inv_ndata I) in G2. rewrite <- (inv_nend I) in G3.
    unfold cb_step, cb_after_count. rewrite !cb_next_eq by apply I.
    unfold atstartb, undecb, notendedb in G1, G2, G3.
    destruct (cb_pcv (cbs_th s t)) eqn:E; cbn [pc_ok] in Hpc; cbn [b2n] in G1, G2, G3.
    all: [> | | | | | (* CbAtRcuLoad *) destruct Hpc as (Hin & -> & ->)
          | (* CbAtRcuCas *) destruct Hpc as (Hin & -> & ->)
          | (* CbAtEmitLoad *) destruct (inv_tuple I Hpc) as (l & -> & _) | | |
          | (* CbFinished *) exact I ].
    all: repeat match goal with |- Inv (if ?a =? ?b then _ else _) => destruct (Nat.eqb_spec a b) end.
    (* every branch is [cb_set s1 t x]; what is left are the facts particular to a pc *)
    all: apply inv_set with (s := s);
      [ exact I | exact Ht | reflexivity | reflexivity | reflexivity
      | intros j Hj; cbn; now rewrite ?upd_other
      | first [ eapply thr_ok_next; exact Hok | eapply thr_ok_set; [exact Hok | cbn; try exact Hv ..] ]
      | cbn; lia
      | rewrite ?next_th_atstart; unfold atstartb; cbn; rewrite ?E; cbn; try lia
      | rewrite ?next_th_undec; unfold undecb; cbn; rewrite ?E, ?upd_same; cbn; try lia
      | rewrite ?next_th_notended; unfold notendedb; cbn; rewrite ?E; cbn; try lia ];
      try solve [auto].
    - (* CbAtDataDec: this member's first decrement *)
      rewrite Hpc. cbn. lia.
    - rewrite Hpc. cbn. lia.
    - (* CbAtRcuCas succeeds: the slot is filled, the member counted as before *)
      rewrite upd_same. intros v0 [= <-]. exact Hin.
    - rewrite upd_same. now destruct (cbs_vals s t).
    - destruct (isnone (cbs_vals s t)); reflexivity.
    - destruct (isnone (cbs_vals s t)); reflexivity.
    - destruct (isnone (cbs_vals s t)); reflexivity.
    - (* CbAtEndDec, CbInTerm: the member's ending is one that is counted *)
      rewrite Hfin. destruct (fins t); cbn; (lia || congruence).
    - rewrite Hfin. destruct (fins t); cbn; (lia || congruence).
  Qed.

  Definition tuple_good (e : tevent) : Prop :=
    match snd e with
    | TBegin (DD x) => exists l, x = VT l /\ length l = n /\ tuple_ok qs 0 l = true
    | _ => True
    end.

  (** what the trace looks like, given the two counters that release the greeting and the completion
      and the set of threads inside a data delivery *)
  Record TR (ns ne : nat) (ind : nat -> bool) (tr : list tevent) : Prop := {
    ti_panic : existsb is_panic tr = false;
    ti_greet : count is_begin_greet tr = b2n (ns =? 0);
    ti_bgo : before_greet_ok (rev tr) = true;
    ti_term : count is_begin_term tr = b2n (ne =? 0);
    ti_dt : count isDT tr = b2n (ne =? 0);
    ti_scan : scan_term o0 false (rev tr) = [];
    ti_open : forall x, scan_open o0 (rev tr) x = ind x;
    ti_seen : scan_seen false (rev tr) = (ne =? 0);
    ti_tuples : Forall tuple_good tr }.

  Definition TInv (s : cb_state) : Prop :=
    TR (cbs_nstart s) (cbs_nend s) (fun x => indatab (cbs_th s x)) (cbs_tr s).

  Lemma eqb0_iff a b : (a = 0 <-> b = 0) -> (a =? 0) = (b =? 0).
  Proof.
    intros H. destruct (Nat.eqb_spec a 0), (Nat.eqb_spec b 0); try reflexivity; exfalso; tauto.
  Qed.

  Lemma TR_ext ns ne ind ns' ne' ind' tr :
    TR ns ne ind tr -> (ns' = 0 <-> ns = 0) -> (ne' = 0 <-> ne = 0) -> (forall x, ind' x = ind x) ->
    TR ns' ne' ind' tr.
  Proof.
    intros [] H1 H2 H3. apply eqb0_iff in H1, H2. split; rewrite ?H1, ?H2; auto.
    intros x. now rewrite H3.
  Qed.

  Lemma TR_end ns ne ind tr t : TR ns ne ind tr -> TR ns ne (upd ind t false) ((t, TEnd) :: tr).
  Proof.
    intros []. split; rewrite ?count_cons_t; cbn [rev]; auto.
    - apply bgo_snoc; auto. now right.
    - now rewrite scan_term_app, ti_scan0.
    - intros x. rewrite scan_open_app. cbn. unfold upd. now rewrite ti_open0.
    - now rewrite scan_seen_app.
    - now constructor.
  Qed.

  Lemma TR_greet ns ne ind tr t : ns <> 0 -> TR ns ne ind tr -> TR 0 ne ind ((t, TBegin DH) :: tr).
  Proof.
    intros H0 []. apply Nat.eqb_neq in H0.
    split; rewrite ?count_cons_t; cbn [rev]; auto.
    - now rewrite ti_greet0, H0.
    - apply bgo_snoc; auto. now right.
    - now rewrite scan_term_app, ti_scan0.
    - intros x. rewrite scan_open_app. apply ti_open0.
    - now rewrite scan_seen_app.
    - now constructor.
  Qed.

  Lemma greeted ne ind tr : TR 0 ne ind tr -> 1 <= count is_begin_greet (rev tr).
  Proof. intros []. rewrite count_rev, ti_greet0. reflexivity. Qed.

  Lemma TR_data ne ind tr t l :
    ne <> 0 -> length l = n -> tuple_ok qs 0 l = true -> TR 0 ne ind tr ->
    TR 0 ne (upd ind t true) ((t, TBegin (DD (VT l))) :: tr).
  Proof.
    intros H2 Hl Hok T. pose proof (greeted T) as G. destruct T. apply Nat.eqb_neq in H2.
    split; rewrite ?count_cons_t; cbn [rev]; auto.
    - apply bgo_snoc; auto.
    - now rewrite scan_term_app, ti_scan0, ti_seen0, H2.
    - intros x. rewrite scan_open_app. cbn. unfold upd. now rewrite ti_open0.
    - now rewrite scan_seen_app.
    - constructor; [|assumption]. exists l. auto.
  Qed.

  Lemma TR_dt ne ind tr t :
    ne <> 0 -> (forall x, ind x = false) -> TR 0 ne ind tr -> TR 0 0 ind ((t, TBegin DT) :: tr).
  Proof.
    intros H2 H3 T. pose proof (greeted T) as G. destruct T. apply Nat.eqb_neq in H2.
    split; rewrite ?count_cons_t; cbn [rev]; auto.
    - apply bgo_snoc; auto.
    - now rewrite ti_term0, H2.
    - now rewrite ti_dt0, H2.
    - rewrite scan_term_app, ti_scan0. cbn [app scan_term].
      rewrite existsb_false; [reflexivity|]. intros x. now rewrite ti_open0.
    - intros x. rewrite scan_open_app. apply ti_open0.
    - now rewrite scan_seen_app.
    - now constructor.
  Qed.

  Hypothesis Hn : 1 <= n.

  Lemma tinv_init : TInv (cb_init n qs fins).
  Proof.
    assert (E : (n =? 0) = false) by (apply Nat.eqb_neq; lia).
    split; cbn -[Nat.ltb Nat.eqb]; rewrite ?E; try reflexivity.
    - intros x. unfold indatab. cbn -[Nat.ltb]. destruct (x <? n); reflexivity.
    - constructor.
  Qed.

  Lemma all_ended s : Inv s -> cbs_nend s = 0 ->
    forall x, atstartb (cbs_th s x) = false /\ indatab (cbs_th s x) = false /\
              (cb_pcv (cbs_th s x) = CbInTerm \/ cb_pcv (cbs_th s x) = CbFinished).
  Proof.
    intros I H x. destruct (le_lt_dec n x) as [Hge|Hx].
    - pose proof (inv_out I Hge) as F. unfold atstartb, indatab. rewrite F. auto.
    - rewrite (inv_nend I) in H. pose proof (cnt_zero _ H Hx) as Z. cbv beta in Z.
      unfold notendedb in Z. unfold atstartb, indatab.
      destruct (cb_pcv (cbs_th s x)); try discriminate; auto.
  Qed.

  Lemma indata_upd th t x b j :
    indatab x = b -> indatab (upd th t x j) = upd (fun j => indatab (th j)) t b j.
  Proof. intros <-. unfold upd. now destruct (j =? t). Qed.

  Lemma indata_same th t x j :
    indatab x = indatab (th t) -> indatab (upd th t x j) = indatab (th j).
  Proof. intros H. unfold upd. now destruct (Nat.eqb_spec j t) as [->|]. Qed.

  Lemma tinv_step s t : Inv s -> TInv s -> TInv (cb_step true n s t).
  Proof.
    intros I T. pose proof (inv_step t I) as I'.
    destruct (le_lt_dec n t) as [Hge|Ht].
    { unfold cb_step. rewrite (inv_out I Hge). exact T. }
    pose proof (inv_thr I t) as (_ & _ & _ & Hpc).
    pose proof (cnt_ge (fun x => atstartb (cbs_th s x)) Ht) as G1.
    pose proof (cnt_ge (fun x => notendedb (cbs_th s x)) Ht) as G3.
    rewrite <- (inv_nstart I) in G1. rewrite <- (inv_nend I) in G3.
    revert I'. unfold cb_step, cb_after_count. rewrite !cb_next_eq by apply I.
    unfold atstartb, notendedb in G1, G3.
    destruct (cb_pcv (cbs_th s t)) eqn:E; cbn [pc_ok] in Hpc; cbn [b2n] in G1, G3.
    all: [> | | | | | | (* CbAtRcuCas *) destruct Hpc as (_ & -> & _)
          | (* CbAtEmitLoad *) destruct (inv_tuple I Hpc) as (l & -> & Hlen & Htup) | | |
          | (* CbFinished *) intros _; exact T ].
    all: repeat match goal with |- _ -> TInv (if ?a =? ?b then _ else _) => destruct (Nat.eqb_spec a b) end.
    all: intros I'; unfold TInv in *; cbn.
    (* by what the step emits: nothing, the return of a delivery, ... *)
    all: try match goal with
         | |- TR _ _ _ (cbs_tr _) => eapply TR_ext; [exact T | lia | lia | intros j; apply indata_same]
         | |- TR _ _ _ ((_, TEnd) :: _) =>
             eapply TR_ext; [apply TR_end, T | lia | lia | intros j; apply indata_upd]
         end; rewrite ?next_th_indata; unfold indatab; cbn; rewrite ?E; try reflexivity.
    - (* ... the greeting, by the last member to start *)
      eapply TR_ext; [eapply TR_greet; [|exact T] | lia.. | intros j; apply indata_same]; [lia|].
      unfold indatab. cbn. now rewrite E.
    - now destruct wasnone.
    - (* a tuple: every slot is filled, so every member has started *)
      rewrite (inv_nstart0 I Hpc) in *.
      eapply TR_ext; [eapply TR_data; [| exact Hlen | exact Htup | exact T] | lia.. | intros j; now apply indata_upd].
      lia.
    - (* the completion, by the last member to end: nobody is inside a delivery *)
      pose proof (all_ended I' e) as A. cbn in A.
      assert (B : forall x, atstartb (cbs_th s x) = false /\ indatab (cbs_th s x) = false).
      { intros x. destruct (Nat.eq_dec x t) as [->|Hx].
        - unfold atstartb, indatab. rewrite E. auto.
        - specialize (A x). rewrite upd_other in A by exact Hx. tauto. }
      assert (S0 : cbs_nstart s = 0).
      { rewrite (inv_nstart I). apply cnt_none. intros x _. apply B. }
      rewrite S0 in *.
      eapply TR_ext; [eapply TR_dt; [| | exact T] | lia.. | intros j; apply indata_same];
        [lia | intros x; apply B |]. unfold indatab. cbn. now rewrite E.
  Qed.

  Lemma reach_inv s : cb_reach s -> Inv s /\ TInv s.
  Proof.
    induction 1 as [|s t R [I T]].
    - split; [apply inv_init|apply tinv_init].
    - split; [apply inv_step|apply tinv_step]; assumption.
  Qed.

  Theorem combine_threads_no_panic s :
    cb_reach s ->
    cbs_panicked s = false /\ existsb is_panic (cbs_tr s) = false /\
    forall t, ~ In (t, TPanic) (cbs_tr s).
  Proof.
    intros R. destruct (reach_inv R) as [I T]. split; [apply I|]. split; [apply T|].
    intros t Hin. pose proof (ti_panic T) as P.
    assert (Q : existsb is_panic (cbs_tr s) = true)
      by (apply existsb_exists; exists (t, TPanic); split; [exact Hin|reflexivity]).
    congruence.
  Qed.

  (** the next statement is written with these: [ThreadFacts.cnt], summed the other way round *)
  Definition b2n (b : bool) : nat := if b then 1 else 0.

  Fixpoint cnt (f : nat -> bool) (k : nat) : nat :=
    match k with
    | 0 => 0
    | S k' => cnt f k' + b2n (f k')
    end.

  Lemma cnt_eq f k : cnt f k = ThreadFacts.cnt f k.
  Proof. induction k as [|k IH]; cbn; [reflexivity|]. rewrite IH. apply Nat.add_comm. Qed.

  (** the counters count what they are meant to count, and the slots only hold sent values *)
  Theorem combine_threads_counts s :
    cb_reach s ->
    cbs_nstart s = cnt (fun x => atstartb (cbs_th s x)) n /\
    cbs_ndata s = cnt (fun x => undecb (cbs_th s x) (cbs_vals s x)) n /\
    cbs_nend s = cnt (fun x => notendedb (cbs_th s x)) n /\
    (forall t, cbs_stopped s t = false) /\
    (forall t, cb_pcv (cbs_th s t) = CbAtEmitLoad -> forall j, j < n -> cbs_vals s j <> None).
  Proof.
    intros R. destruct (reach_inv R) as [I T]. rewrite !cnt_eq.
    split; [apply I|]. split; [apply I|]. split; [apply I|]. split; [apply I|].
    intros t E j Hj. destruct (inv_thr I t) as (_ & _ & _ & P). rewrite E in P.
    destruct (inv_all_set I P Hj) as (v & Hv & _). congruence.
  Qed.

  Theorem combine_threads_vals_sent s :
    cb_reach s -> forall j v, cbs_vals s j = Some v -> In v (qs j).
  Proof.
    intros R j v H. destruct (reach_inv R) as [I T].
    destruct (inv_thr I j) as (_ & _ & P & _). apply P. exact H.
  Qed.

  (** at most one greeting, and it begins before every other delivery *)
  Theorem combine_threads_greet_once s :
    cb_reach s ->
    count is_begin_greet (cbs_tr s) <= 1 /\ before_greet_ok (rev (cbs_tr s)) = true.
  Proof.
    intros R. destruct (reach_inv R) as [I T]. split; [|apply T].
    rewrite (ti_greet T). destruct (cbs_nstart s =? 0); cbn; lia.
  Qed.

  (** every emitted tuple is complete and made of values that were sent *)
  Theorem combine_threads_tuples s :
    cb_reach s ->
    forall t x, In (t, TBegin (DD x)) (cbs_tr s) ->
    exists l, x = VT l /\ length l = n /\ tuple_ok qs 0 l = true.
  Proof.
    intros R t x Hin. destruct (reach_inv R) as [I T].
    exact (proj1 (Forall_forall _ _) (ti_tuples T) _ Hin).
  Qed.

  (** at most one terminal message, begun while no data delivery is in progress *)
  Theorem combine_threads_one_terminal s :
    cb_reach s ->
    count is_begin_term (cbs_tr s) <= 1 /\
    (cbs_nend s = 0 -> forall t, t < n ->
       cb_pcv (cbs_th s t) = CbInTerm \/ cb_pcv (cbs_th s t) = CbFinished) /\
    scan_term (fun _ => false) false (rev (cbs_tr s)) = [] /\
    ~ In TvTermDuringData (scan_term (fun _ => false) false (rev (cbs_tr s))) /\
    ~ In TvAfterTerminal (scan_term (fun _ => false) false (rev (cbs_tr s))).
  Proof.
    intros R. destruct (reach_inv R) as [I T].
    pose proof (ti_scan T) as Sc. unfold o0 in Sc.
    split; [rewrite (ti_term T); destruct (cbs_nend s =? 0); cbn; lia|].
    split; [intros H t _; apply (all_ended I H)|].
    split; [exact Sc|]. rewrite Sc. split; intros [].
  Qed.

  (** once every member thread has finished, the whole C18 monitor is silent *)
  Theorem combine_threads_final s :
    cb_reach s -> (forall t, t < n -> cb_finished s t = true) ->
    combine_check n qs fins (rev (cbs_tr s)) = [].
  Proof.
    intros R F. destruct (reach_inv R) as [I T].
    assert (S0 : cbs_nstart s = 0).
    { rewrite (inv_nstart I). apply cnt_none. intros x Hx. specialize (F x Hx).
      unfold cb_finished in F. unfold atstartb.
      destruct (cb_pcv (cbs_th s x)); try discriminate; reflexivity. }
    assert (P1 : count is_begin_greet (rev (cbs_tr s)) = 1)
      by (rewrite count_rev, (ti_greet T), S0; reflexivity).
    assert (P3 : (count is_begin_term (rev (cbs_tr s)) <=? 1) = true)
      by (apply Nat.leb_le; rewrite count_rev, (ti_term T); destruct (cbs_nend s =? 0); cbn; lia).
    assert (P4 : existsb is_panic (rev (cbs_tr s)) = false) by (rewrite existsb_rev; apply T).
    pose proof (ti_scan T) as P5. unfold o0 in P5.
    assert (P7 : forallb (fun t => match fins t with FinNone => false | _ => true end) (seq 0 n) = true ->
                 count isDT (rev (cbs_tr s)) = 1).
    { intros A. rewrite count_rev, (ti_dt T).
      assert (E0 : cbs_nend s = 0); [|rewrite E0; reflexivity].
      rewrite (inv_nend I). apply cnt_none. intros x Hx. specialize (F x Hx).
      unfold cb_finished in F. unfold notendedb.
      destruct (cb_pcv (cbs_th s x)); try discriminate.
      destruct (inv_thr I x) as (Hf & _). rewrite Hf.
      pose proof (proj1 (forallb_forall _ _) A x) as B. cbv beta in B.
      specialize (B ltac:(apply in_seq; lia)). destruct (fins x); [reflexivity|reflexivity|discriminate]. }
    unfold combine_check.
    rewrite P1, (ti_bgo T), P3, P4, P5. cbn [Nat.eqb flagt negb app].
    rewrite flat_map_nil.
    2:{ intros e He. apply in_rev in He.
        pose proof (proj1 (Forall_forall _ _) (ti_tuples T) e He) as G. unfold tuple_good in G.
        destruct (snd e) as [m| | |]; try reflexivity. destruct m as [|x|e'|]; try reflexivity.
        destruct G as (l & -> & Hl & Hok). rewrite Hl, Hok, Nat.eqb_refl. reflexivity. }
    cbn [app].
    destruct (forallb _ (seq 0 n)) eqn:A; [|reflexivity].
    match goal with |- context [@count ?A ?f (rev (cbs_tr s))] =>
      change (@count A f (rev (cbs_tr s))) with (@count tevent isDT (rev (cbs_tr s))) end.
    rewrite (P7 eq_refl). reflexivity.
  Qed.

End Combine.

Lemma run_full_reach n qs fins nth sch fuel :
  cb_reach n qs fins (run_full (cb_step true n) cb_finished nth sch fuel (cb_init n qs fins)).
Proof. apply run_full_inv; [intros s t; apply cbrS | apply cbr0]. Qed.

Corollary combine_threads_run_full_check n qs fins nth sch fuel :
  1 <= n ->
  let s := run_full (cb_step true n) cb_finished nth sch fuel (cb_init n qs fins) in
  cbs_panicked s = false /\
  ((forall t, t < n -> cb_finished s t = true) -> combine_check n qs fins (rev (cbs_tr s)) = []).
Proof.
  intros Hn s. pose proof (run_full_reach n qs fins nth sch fuel) as R. fold s in R. split.
  - apply (combine_threads_no_panic Hn R).
  - apply (combine_threads_final Hn R).
Qed.

Definition refute_qs : nat -> list val := fun t => match t with 0 => [VN 1] | 1 => [VN 2] | _ => [] end.
Definition refute_fins : nat -> final := fun _ => FinTerm.
Definition refute_sch : list nat := [0;0;0;0;1;1;1;1;1;1;0;0;1;0;0].
Definition refute_final : cb_state :=
  run_full (cb_step false 2) cb_finished 2 refute_sch 100 (cb_init 2 refute_qs refute_fins).

Lemma combine_threads_unfixed_refuted :
  cbs_panicked refute_final = true /\
  In (1, TPanic) (cbs_tr refute_final) /\
  In TvPanic (combine_check 2 refute_qs refute_fins (rev (cbs_tr refute_final))).
Proof. vm_compute. split; [reflexivity|]. split; tauto. Qed.

(** the same schedule on the repaired code is fine (sanity check of the model) *)
Lemma combine_threads_fixed_same_schedule :
  let s := run_full (cb_step true 2) cb_finished 2 refute_sch 100 (cb_init 2 refute_qs refute_fins) in
  cbs_panicked s = false /\ combine_check 2 refute_qs refute_fins (rev (cbs_tr s)) = [] /\
  forallb (cb_finished s) (seq 0 2) = true.
Proof. vm_compute. repeat split. Qed.

Check combine_threads_no_panic.
Check combine_threads_greet_once.
Check combine_threads_tuples.
Check combine_threads_one_terminal.
Check combine_threads_final.
Print Assumptions combine_threads_no_panic.
Print Assumptions combine_threads_counts.
Print Assumptions combine_threads_vals_sent.
Print Assumptions combine_threads_greet_once.
Print Assumptions combine_threads_tuples.
Print Assumptions combine_threads_one_terminal.
Print Assumptions combine_threads_final.
Print Assumptions run_full_reach.
Print Assumptions combine_threads_run_full_check.
Print Assumptions combine_threads_unfixed_refuted.
Print Assumptions combine_threads_fixed_same_schedule.
