(** * Chain: linear pipelines of components, and the composition theorem.

    The per-component theorems (Inv_*.v) are about ONE operator between environment puppets.
    A program of the crate wires operators to each other: [pipe!(source, op1, .., opk, sink)].
    Here a pipeline is a list of component configurations; node [i]'s upstream port 0 is wired
    to node [i-1]'s sink 0, node 0's port 0 and every other port are external, the last node's
    sink is external.  When a node's handler makes a call on a wired port, the neighbour's
    handler runs (an internal step, [NTau]) - its input is the translation of the call - and when
    a handler returns, control goes back to whoever called it.  Nothing but the components' own
    [step] functions is used: a net step is a [step] of exactly one node.

    The environment of the net is the conformant environment of Machine.v at the external ports,
    with local reaction at net level: while an external call is pending only that peer acts.

    [chain_sound]: if every node is safe in its regime (the per-component theorems), then in
    every reachable net every node's configuration is REACHABLE IN ITS OWN CONFORMANT
    ENVIRONMENT - each neighbour is, towards the node, a conformant peer (assume-guarantee, by
    induction on the run; the guarantee of one node at step k discharges the assumption of its
    neighbour at step k+1).  Hence every per-component theorem holds for every node of every
    pipeline, of any length, in any external environment.

    The first half of the file does not know how the nodes are wired: what one step does to the
    fields a link reads ([step_sum], [nstep_sum]), the two transfers ([xfer_up_k], [xfer_dn_k]), and,
    over a list of nodes and an edge relation, the stack discipline ([gstacks]) and the links
    ([glinks]) of the invariant and the wires ([gwire]) of the data theorem.  Tree.v uses the same
    lemmas for operator trees; the second half of this file instantiates them for the edges
    [i -> i+1]. *)

From CB Require Import ProofLib Spec MonitorSound MonitorFacts.

Set Implicit Arguments.

Record node : Type := mk_node {
  nop : op;
  npar : mparams;
  ngrd : mstate -> input -> bool;
  ncfg : cfg nop;
}.

Definition nstep (n : node) (m : move) : node :=
  mk_node (npar n) (ngrd n) (step (npar n) (ncfg n) m).

Definition nms (n : node) : mstate := ms (ncfg n).
Definition nlast (n : node) : option event := hd_error (rtrace (ncfg n)).
Definition ntrace (n : node) : list event := trace (ncfg n).
Definition nenabled (n : node) (m : move) : bool := enabled (npar n) (ngrd n) (ncfg n) m.
Definition nreach (n : node) : Prop := reach (npar n) (ngrd n) (ncfg n).
Definition ninit (n : node) : Prop := ncfg n = cfg0 (nop n).

(** what a node is, as opposed to where it is in its run *)
Definition nsig (n : node) : op * mparams * (mstate -> input -> bool) := (nop n, npar n, ngrd n).

Definition safe_sig (s : op * mparams * (mstate -> input -> bool)) : Prop :=
  let '(o, p, g) := s in
  forall c : cfg o, reach p g c -> viols (ms c) = [] /\ dead c = false.

Lemma nsig_nstep n m : nsig (nstep n m) = nsig n.
Proof. reflexivity. Qed.

Lemma nms_init n : ninit n -> nms n = ms0.
Proof. unfold ninit, nms. now intros ->. Qed.

(** who answers a pending call: the environment, the upstream neighbour (node [i-1], called through
    the talkback) or the downstream neighbour (node [i+1], called as the sink) *)
Inductive gkind : Type := KExt | KUp | KDn.

Inductive pending : Type :=
| PIdle                              (* the environment's turn *)
| PTo (i : nat) (inp : input)        (* a node called its neighbour [i]: [i] runs [inp] next *)
| PRet (j : nat).                    (* the activation [j] called has returned: [j] resumes next *)

Record net : Type := mk_net {
  nodes : list node;
  gst : list (nat * gkind);          (* pending calls of all nodes, innermost first *)
  pend : pending;
}.

Fixpoint set_nth (A : Type) (i : nat) (x : A) (l : list A) : list A :=
  match l, i with
  | [], _ => []
  | _ :: l', 0 => x :: l'
  | y :: l', S i' => y :: set_nth i' x l'
  end.

Definition route (len i : nat) (c : call) : gkind :=
  match c with
  | CSub 0 | CUp 0 _ => if 0 <? i then KUp else KExt
  | CDn 0 _ => if S i <? len then KDn else KExt
  | _ => KExt
  end.

Definition xlate (c : call) : input :=
  match c with
  | CSub _ => ISub 0 0
  | CUp _ u => IUp 0 u
  | CDn _ d => IDn 0 d
  end.

(** the node whose handler runs while the call [e] is pending *)
Definition owner_above (e : nat * gkind) : nat :=
  match e with
  | (j, KExt) => j
  | (j, KUp) => pred j
  | (j, KDn) => S j
  end.

(** node [i] has just made a step and is now [n']: where does control go? *)
Definition after_step (N : net) (i : nat) (n' : node) : net :=
  let nodes' := set_nth i n' (nodes N) in
  match nlast n' with
  | Some (ECall c) =>
      match route (length (nodes N)) i c with
      | KExt => mk_net nodes' ((i, KExt) :: gst N) PIdle
      | KUp => mk_net nodes' ((i, KUp) :: gst N) (PTo (pred i) (xlate c))
      | KDn => mk_net nodes' ((i, KDn) :: gst N) (PTo (S i) (xlate c))
      end
  | Some EDone =>
      match gst N with
      | (j, KUp) :: _ | (j, KDn) :: _ => mk_net nodes' (gst N) (PRet j)
      | _ => mk_net nodes' (gst N) PIdle
      end
  | _ => mk_net nodes' (gst N) PIdle
  end.

Inductive nmove : Type :=
| NEnv (i : nat) (m : move)          (* the environment acts on node [i] *)
| NTau.                              (* the pending internal transfer happens *)

Definition net_step (N : net) (mv : nmove) : net :=
  match mv, pend N with
  | NEnv i m, PIdle =>
      match nth_error (nodes N) i with
      | Some n =>
          let N1 := match m with
                    | MRet => mk_net (nodes N) (tl (gst N)) PIdle
                    | MIn _ => N
                    end in
          after_step N1 i (nstep n m)
      | None => N
      end
  | NTau, PTo i inp =>
      match nth_error (nodes N) i with
      | Some n => after_step N i (nstep n (MIn inp))
      | None => N
      end
  | NTau, PRet j =>
      match nth_error (nodes N) j with
      | Some n => after_step (mk_net (nodes N) (tl (gst N)) PIdle) j (nstep n MRet)
      | None => N
      end
  | _, _ => N
  end.

Definition ext_input_ok (len i : nat) (inp : input) : bool :=
  match inp with
  | ISub _ _ | IUp _ _ => S i =? len
  | IDn 0 _ => i =? 0
  | IDn (S _) _ => true
  | ITick _ => true
  end.

(** the conformant environment of the net: the node-level conformance of Machine.v at the
    external port, and local reaction at net level *)
Definition net_enabled (N : net) (mv : nmove) : bool :=
  match mv, pend N with
  | NTau, PIdle => false
  | NTau, _ => true
  | NEnv i m, PIdle =>
      match nth_error (nodes N) i with
      | None => false
      | Some n =>
          nenabled n m &&
          match m with
          | MRet => match gst N with (j, KExt) :: _ => j =? i | _ => false end
          | MIn inp =>
              ext_input_ok (length (nodes N)) i inp &&
              match gst N with
              | [] => true
              | (j, KExt) :: _ => j =? i
              | _ => false
              end
          end
      end
  | NEnv _ _, _ => false
  end.

Inductive net_reach (N0 : net) : net -> Prop :=
| nreach0 : net_reach N0 N0
| nreachS N mv : net_reach N0 N -> net_enabled N mv = true -> net_reach N0 (net_step N mv).

(** ** Facts about one node step, in terms of the monitor state only *)

Section OneNode.
  Variable p : mparams.
  Variable o : op.
  Variable g : mstate -> input -> bool.

  (* convertible with [MachineFacts.mon_move], which this name hides from here on; the lemmas of
     MachineFacts.v and MonitorFacts.v about a step apply up to that conversion *)
  Definition mon_move (m0 : mstate) (m : move) : mstate :=
    match m with
    | MIn i => mon_input p m0 i
    | MRet => mon_event p m0 ERet
    end.

  (** the fields the links between neighbours talk about *)
  Definition same_core (a b : mstate) : Prop :=
    subd a = subd b /\ sk a = sk b /\ us a = us b /\ refused a = refused b
    /\ cstack a = cstack b.

  Lemma same_core_refl a : same_core a a.
  Proof. repeat split. Qed.

  Lemma same_core_trans a b c : same_core a b -> same_core b c -> same_core a c.
  Proof. unfold same_core. intuition congruence. Qed.

  Lemma obs_core os m0 : same_core (fold_left (mon_event p) (map EObs os) m0) m0.
  Proof.
    destruct (obs_frame p os m0) as [t ->]. repeat split.
  Qed.

  Lemma done_core m0 : same_core (mon_event p m0 EDone) m0.
  Proof.
    cbn. destruct (cstack m0); [|apply same_core_refl].
    rewrite add_viols_eq. repeat split.
  Qed.

  (** summary of one enabled step that ends without violation and without panic *)
  Inductive step_sum (c : cfg o) (m : move) : Prop :=
  | sum_call (m1 : mstate) (cl : call) :
      same_core m1 (mon_move (ms c) m) ->
      hd_error (rtrace (step p c m)) = Some (ECall cl) ->
      check_call p m1 cl = [] ->
      same_core (ms (step p c m)) (set_cstack (mon_call_upd m1 cl) (cl :: cstack m1)) ->
      step_sum c m
  | sum_done :
      hd_error (rtrace (step p c m)) = Some EDone ->
      same_core (ms (step p c m)) (mon_move (ms c) m) ->
      step_sum c m.

  Lemma settle_sum (m0 : mstate) os (a : act (Fr o)) :
    viols (ms_settle p o m0 os a) = [] ->
    (exists m1 cl k, a = ACall cl k /\ same_core m1 m0 /\ check_call p m1 cl = [] /\
                     same_core (ms_settle p o m0 os a)
                               (set_cstack (mon_call_upd m1 cl) (cl :: cstack m1)))
    \/ (a = ARet /\ same_core (ms_settle p o m0 os a) m0)
    \/ a = APanic.
  Proof.
    intros Hv. unfold ms_settle in *.
    set (m1 := fold_left (mon_event p) (map EObs os) m0) in *.
    assert (H1 : same_core m1 m0) by apply obs_core.
    destruct a as [| |cl k].
    - right. left. split; [reflexivity|].
      eapply same_core_trans; [apply done_core | exact H1].
    - right. right. reflexivity.
    - left. exists m1, cl, k. split; [reflexivity|]. split; [exact H1|].
      cbn [mon_event] in *. split; [now apply viols_add_nil in Hv|].
      rewrite add_viols_eq, mon_call_upd_cstack. repeat split.
  Qed.

  Lemma step_summary (c : cfg o) (m : move) :
    enabled p g c m = true ->
    viols (ms (step p c m)) = [] -> dead (step p c m) = false ->
    step_sum c m.
  Proof.
    intros He Hv Hd. destruct (en_step He) as [_ _ Hm Hdd Hr]. apply (f_equal (@hd_error _)) in Hr.
    destruct (result c m) as [[s' os] a]. cbn [fst snd hd_error] in *.
    change (ms (step p c m) = ms_settle p o (mon_move (ms c) m) os a) in Hm. rewrite Hm in Hv.
    destruct (settle_sum _ _ _ Hv) as [(m1 & cl & k & -> & H1 & H2 & H3)|[[-> H1]| ->]].
    - apply sum_call with m1 cl; [exact H1 | exact Hr | exact H2 | now rewrite Hm].
    - apply sum_done; [exact Hr | now rewrite Hm].
    - rewrite Hdd in Hd. discriminate.
  Qed.

End OneNode.

Lemma set_nth_length A i (x : A) l : length (set_nth i x l) = length l.
Proof. revert i. induction l as [|y l IH]; intros [|i]; cbn; auto. Qed.

Lemma nth_set_same A i (x y : A) l : nth_error l i = Some y -> nth_error (set_nth i x l) i = Some x.
Proof. revert i. induction l as [|z l IH]; intros [|i]; cbn; intros H; try discriminate; auto. Qed.

Lemma nth_set_other A i j (x : A) l : i <> j -> nth_error (set_nth i x l) j = nth_error l j.
Proof.
  revert i j. induction l as [|z l IH]; intros [|i] [|j] H; cbn; auto; try congruence.
Qed.

Lemma nth_set_inv A i (x y : A) l j z :
  nth_error l i = Some y -> nth_error (set_nth i x l) j = Some z ->
  exists z0, nth_error l j = Some z0 /\ z = if j =? i then x else z0.
Proof.
  intros Hi Hj. destruct (Nat.eqb_spec j i) as [->|Hji].
  - rewrite (nth_set_same _ x _ Hi) in Hj. exists y. split; [exact Hi|congruence].
  - rewrite nth_set_other in Hj by congruence. now exists z.
Qed.
Arguments nth_set_inv [A i x y l j z] _ _.

Lemma map_set_nth A B (f : A -> B) i x y l :
  nth_error l i = Some y -> f x = f y -> map f (set_nth i x l) = map f l.
Proof.
  revert i. induction l as [|z l IH]; intros [|i]; cbn; intros H E; try discriminate; auto.
  - inversion H; subst. now rewrite E.
  - now rewrite (IH i H E).
Qed.

Lemma nth_error_lt A (l : list A) i x : nth_error l i = Some x -> i < length l.
Proof. intros H. apply nth_error_Some. congruence. Qed.

Lemma list_sum_cons a l : list_sum (a :: l) = a + list_sum l.
Proof. reflexivity. Qed.

Lemma list_sum_bound A (f : A -> nat) (l : list A) B :
  (forall x, In x l -> f x <= B) -> list_sum (map f l) <= length l * B.
Proof.
  induction l as [|x l IH]; intros H; cbn [map length]; [apply Nat.le_0_l|].
  specialize (IH (fun y Hy => H y (or_intror Hy))). specialize (H x (or_introl eq_refl)).
  rewrite list_sum_cons, Nat.mul_succ_l, Nat.add_comm. now apply Nat.add_le_mono.
Qed.

Lemma list_sum_set_nth A (f : A -> nat) i x y (l : list A) :
  nth_error l i = Some y ->
  list_sum (map f (set_nth i x l)) + f y = list_sum (map f l) + f x.
Proof.
  revert i. induction l as [|z l IH]; intros [|i] H; cbn [nth_error] in H; try discriminate;
    cbn [set_nth map]; rewrite !list_sum_cons.
  - inversion H; subst. lia.
  - specialize (IH i H). lia.
Qed.

Lemma list_sum_le A (f g : A -> nat) (l : list A) :
  (forall x, In x l -> f x <= g x) -> list_sum (map f l) <= list_sum (map g l).
Proof.
  induction l as [|x l IH]; intros H; cbn [map]; [apply Nat.le_refl|].
  specialize (IH (fun y Hy => H y (or_intror Hy))). specialize (H x (or_introl eq_refl)).
  rewrite !list_sum_cons. lia.
Qed.

Lemma nth_error_app_len A (l : list A) x r : nth_error (l ++ x :: r) (length l) = Some x.
Proof. induction l as [|y l IH]; cbn; auto. Qed.

Lemma nth_error_pred A (l : list A) i x :
  nth_error l (S i) = Some x -> exists y, nth_error l i = Some y.
Proof.
  intros H. apply nth_error_lt in H.
  destruct (nth_error l i) as [y|] eqn:E; [now exists y|].
  apply nth_error_None in E. lia.
Qed.

Lemma nth_error_below A (l : list A) i : i < length l -> exists y, nth_error l i = Some y.
Proof.
  intros H. destruct (nth_error l i) as [y|] eqn:E; [now exists y|].
  apply nth_error_None in E. lia.
Qed.

Lemma set_nth_nth A i j (x : A) l :
  nth_error (set_nth i x l) j =
  if Nat.eqb j i then (match nth_error l j with Some _ => Some x | None => None end)
  else nth_error l j.
Proof.
  revert i j. induction l as [|y l IH]; intros i j.
  - destruct i, j; cbn; try reflexivity; destruct (Nat.eqb j i); reflexivity.
  - destruct i as [|i], j as [|j]; cbn; try reflexivity. apply IH.
Qed.

(** ** Entries of a stack of pending calls, node by node *)

Definition kinds (K : Type) (i : nat) (G : list (nat * K)) : list K :=
  map snd (filter (fun e => fst e =? i) G).

Lemma kinds_cons_same K i (k : K) G : kinds i ((i, k) :: G) = k :: kinds i G.
Proof. unfold kinds. cbn. now rewrite Nat.eqb_refl. Qed.

Lemma kinds_cons_other K i j (k : K) G : j <> i -> kinds i ((j, k) :: G) = kinds i G.
Proof. intros H. unfold kinds. cbn. destruct (Nat.eqb_spec j i); [contradiction|reflexivity]. Qed.

(** ** Links: what the two ends of a wire know of each other.  In [linkk k u d] sink 0 of [u] is
       wired to port [k] of [d]; [link] is the wire of a pipeline, into port 0. *)

Definition linkk (k : nat) (u d : mstate) : Prop :=
  match us d k with
  | UNone => subd u 0 = false
  | USubd => subd u 0 = true /\ sk u 0 = SNone
  | ULive => subd u 0 = true /\ sk u 0 = SLive
  | UEnded => subd u 0 = true /\ sk u 0 = SFinished
  | UStopped => subd u 0 = true /\ sk u 0 = SDisposed
  end.

Definition link (u d : mstate) : Prop :=
  match us d 0 with
  | UNone => subd u 0 = false
  | USubd => subd u 0 = true /\ sk u 0 = SNone
  | ULive => subd u 0 = true /\ sk u 0 = SLive
  | UEnded => subd u 0 = true /\ sk u 0 = SFinished
  | UStopped => subd u 0 = true /\ sk u 0 = SDisposed
  end.

Lemma linkk_ext k u d u' d' :
  subd u' 0 = subd u 0 -> sk u' 0 = sk u 0 -> us d' k = us d k -> linkk k u d -> linkk k u' d'.
Proof. unfold linkk. intros -> -> ->. auto. Qed.

Lemma linkk_us k u d :
  linkk k u d -> subd u 0 = true ->
  us d k = match sk u 0 with
           | SNone => USubd | SLive => ULive | SFinished => UEnded | SDisposed => UStopped
           end.
Proof.
  unfold linkk. destruct (us d k); intros H Hs; [congruence|..]; destruct H as [_ ->]; reflexivity.
Qed.

Lemma same_core_linkk k u u' d d' :
  same_core u' u -> same_core d' d -> linkk k u d -> linkk k u' d'.
Proof. intros (A & B & _) (_ & _ & C & _). apply linkk_ext; now rewrite ?A, ?B, ?C. Qed.
Arguments same_core_linkk [k u u' d d'] _ _ _.

Lemma same_core_link_l u u' d : same_core u' u -> link u d -> link u' d.
Proof. intros H. exact (same_core_linkk H (same_core_refl d)). Qed.

Lemma same_core_link_r u d d' : same_core d' d -> link u d -> link u d'.
Proof. exact (same_core_linkk (same_core_refl u)). Qed.

(** ** Which of the fields a link reads a call or an input can change *)

Definition upk (k : nat) (cl : call) : Prop := cl = CSub k \/ exists u, cl = CUp k u.
Definition dn0 (cl : call) : Prop := exists d, cl = CDn 0 d.
Definition is_dnk (k : nat) (inp : input) : Prop := exists d, inp = IDn k d.
Definition is_sink_input (inp : input) : Prop :=
  match inp with ISub _ _ | IUp _ _ => True | _ => False end.

Lemma upk_inj k k' cl : upk k cl -> upk k' cl -> k = k'.
Proof. intros [->|[u ->]] [E|[u' E]]; congruence. Qed.

Lemma callupd_subd m cl : subd (mon_call_upd m cl) = subd m.
Proof. apply call_upd_status. Qed.

Lemma callupd_refused m cl : refused (mon_call_upd m cl) = refused m.
Proof. apply call_upd_status. Qed.

Lemma callupd_usk k m cl : ~ upk k cl -> us (mon_call_upd m cl) k = us m k.
Proof.
  intros H. destruct (call_upd_status m cl) as (_ & B & _). rewrite B.
  destruct cl as [i|i u|s d]; cbn; [| |reflexivity];
    (destruct (Nat.eqb_spec k i) as [->|]; [exfalso; apply H|reflexivity]);
    [now left | right; now exists u].
Qed.

Lemma callupd_sk0 m cl : ~ dn0 cl -> sk (mon_call_upd m cl) 0 = sk m 0.
Proof.
  intros H. destruct (call_upd_status m cl) as (A & _). rewrite A.
  destruct cl as [i|i u|[|s] d]; try reflexivity. exfalso. apply H. now exists d.
Qed.

Lemma input_usk p k m inp : ~ is_dnk k inp -> us (mon_input p m inp) k = us m k.
Proof.
  intros H. destruct (input_status p m inp) as (_ & B & _). rewrite B.
  destruct inp as [s a|s u|i d|s]; try reflexivity. cbn.
  destruct (Nat.eqb_spec k i) as [->|]; [exfalso; apply H; now exists d | reflexivity].
Qed.

Lemma input_sk0 p m inp :
  ~ is_sink_input inp -> sk (mon_input p m inp) 0 = sk m 0 /\ subd (mon_input p m inp) 0 = subd m 0.
Proof.
  intros H. destruct inp as [s aux|s u|i d|s]; cbn in H; try (exfalso; exact (H I)).
  - destruct d; cbn; split; reflexivity.
  - cbn. split; reflexivity.
Qed.

(** ** The two transfers: a guarantee of the caller is the assumption of the callee *)

Section Transfer.
  Variable p : mparams.                   (* the callee's regime *)
  Variable o : op.
  Variable g : mstate -> input -> bool.
  Variable c : cfg o.                     (* the callee *)
  Hypothesis Hg : forall m inp, g m inp = g_std m inp.
  Hypothesis Hlive : dead c = false.

  Lemma top_peer_of_cstack q :
    cstack (ms c) = map snd (stack c) ->
    match cstack (ms c) with [] => True | cl :: _ => peer_of cl = q end ->
    top_peer_is c q = true.
  Proof.
    unfold top_peer_is. intros E H. destruct (stack c) as [|[k cl] rest]; [reflexivity|].
    rewrite E in H. cbn in H. rewrite H. destruct q; cbn; apply Nat.eqb_refl.
  Qed.

  (** the caller (regime [pd], state [m1] just before the call) subscribes to, or uses the talkback
      of, the callee, which is wired to its port [k] *)
  Lemma xfer_up_k (pd : mparams) (m1 : mstate) (k : nat) (cl : call) :
    resub pd = false -> nsinks p = 1 -> one_pull p = false ->
    upk k cl ->
    check_call pd m1 cl = [] ->
    linkk k (ms c) m1 ->
    (subd (ms c) 0 = false -> c = cfg0 o) ->
    top_peer_is c (PSink 0) = true ->
    enabled p g c (MIn (xlate cl)) = true /\
    linkk k (mon_input p (ms c) (xlate cl)) (mon_call_upd m1 cl).
  Proof.
    intros Hrs Hns Hop Hcl Hchk Hlink Hinit Htop. unfold linkk in Hlink.
    destruct Hcl as [->|[u ->]]; cbn [xlate].
    - rewrite (check_sub _ _ _ Hrs Hchk) in Hlink. rewrite (Hinit Hlink).
      split.
      + unfold enabled. cbn. rewrite Hg, Hns. reflexivity.
      + unfold linkk. cbn. rewrite ?upd_same; cbn; rewrite ?upd_same; auto.
    - pose proof (check_up _ _ _ _ Hchk) as Hus. rewrite Hus in Hlink. destruct Hlink as [Hsd Hsk].
      split.
      + unfold enabled. rewrite Hlive, Hg, Htop, Hsk, Hop. cbn. destruct u; reflexivity.
      + unfold linkk. destruct u as [|e|]; cbn; rewrite ?Hus, ?upd_same; cbn; auto.
  Qed.

  (** the caller (regime [pu], state [m1] just before the call) delivers to the callee, to whose
      port [k] its sink is wired *)
  Lemma xfer_dn_k (pu : mparams) (m1 : mstate) (k : nat) (d : dmsg) :
    pullable p = false ->
    (d = DH -> late_ok p = true \/ exists f rest, stack c = (f, CSub k) :: rest) ->
    check_call pu m1 (CDn 0 d) = [] ->
    linkk k m1 (ms c) ->
    subd m1 0 = true -> refused m1 0 = None ->
    top_peer_is c (PUp k) = true ->
    enabled p g c (MIn (IDn k d)) = true /\
    linkk k (mon_call_upd m1 (CDn 0 d)) (mon_input p (ms c) (IDn k d)).
  Proof.
    intros Hpl Hlate Hchk Hlink Hsd Hrf Htop.
    pose proof (check_dn_sk _ _ _ _ Hchk Hrf) as Hsk.
    pose proof (linkk_us _ _ _ Hlink Hsd) as Hus. rewrite Hsk in Hus.
    split.
    - unfold enabled. rewrite Hlive, Hg, Htop.
      destruct d; rewrite Hus, ?Hpl; try reflexivity.
      destruct (Hlate eq_refl) as [->|(f & rest & ->)]; [reflexivity|].
      now rewrite Nat.eqb_refl, orb_true_r.
    - destruct (call_upd_status m1 (CDn 0 d)) as (A & _ & _ & _ & S).
      destruct (input_status p (ms c) (IDn k d)) as (_ & B & _).
      unfold linkk. rewrite A, B, S, Hus, Hsk, Hsd. cbn. rewrite Nat.eqb_refl.
      destruct d; cbn; auto.
  Qed.

  Lemma xfer_up (pd : mparams) (m1 : mstate) (cl : call) :
    resub pd = false -> nsinks p = 1 -> one_pull p = false ->
    (cl = CSub 0 \/ exists u, cl = CUp 0 u) ->
    check_call pd m1 cl = [] ->
    link (ms c) m1 ->
    (subd (ms c) 0 = false -> c = cfg0 o) ->
    top_peer_is c (PSink 0) = true ->
    enabled p g c (MIn (xlate cl)) = true /\
    link (mon_input p (ms c) (xlate cl)) (mon_call_upd m1 cl).
  Proof. exact (@xfer_up_k pd m1 0 cl). Qed.

  Lemma xfer_dn (pu : mparams) (m1 : mstate) (d : dmsg) :
    late_ok p = true -> pullable p = false ->
    check_call pu m1 (CDn 0 d) = [] ->
    link m1 (ms c) ->
    subd m1 0 = true -> refused m1 0 = None ->
    top_peer_is c (PUp 0) = true ->
    enabled p g c (MIn (IDn 0 d)) = true /\
    link (mon_call_upd m1 (CDn 0 d)) (mon_input p (ms c) (IDn 0 d)).
  Proof. intros Hlate Hpl. apply (@xfer_dn_k pu m1 0 d Hpl). intros _. now left. Qed.
End Transfer.
Arguments xfer_up_k [p o g c] Hg Hlive [pd m1 k cl] _ _ _ _ _ _ _ _.
Arguments xfer_dn_k [p o g c] Hg Hlive [pu m1 k d] _ _ _ _ _ _ _.

(** ** Views: the state of every node as the links and the stack discipline see it *)

(** at a pending transfer the callee is seen in the state its input leaves *)
Definition eff (pd : pending) (i : nat) (n : node) : mstate :=
  match pd with
  | PTo k inp => if k =? i then mon_input (npar n) (nms n) inp else nms n
  | _ => nms n
  end.

Definition effx (x : nat) (m : move) (i : nat) (n : node) : mstate :=
  if i =? x then mon_move (npar n) (nms n) m else nms n.

Lemma eff_to t inp j n : eff (PTo t inp) j n = effx t (MIn inp) j n.
Proof. unfold eff, effx. now rewrite Nat.eqb_sym. Qed.

Definition step_from (extok : input -> bool) (pd : pending) (x : nat) (m : move) : Prop :=
  match pd with
  | PTo t inp => t = x /\ m = MIn inp
  | _ => match m with MIn inp => extok inp = true | MRet => True end
  end.

(** ** The stack discipline: the pending calls of node [i], routed, are its entries of the global
       stack *)

Section Stacks.
  Variable K : Type.
  Variable route : nat -> call -> K.

  Definition gstacks (ns : list node) (f : nat -> node -> mstate) (G : list (nat * K)) : Prop :=
    forall i n, nth_error ns i = Some n -> map (route i) (cstack (f i n)) = kinds i G.

  Lemma gstacks_input ns x inp G :
    gstacks ns (fun _ => nms) G -> gstacks ns (effx x (MIn inp)) G.
  Proof.
    intros H i n Hn. unfold effx. destruct (i =? x); [cbn [mon_move]; rewrite mon_input_cstack|];
      now apply H.
  Qed.

  Lemma gstacks_ret ns x k n G :
    gstacks ns (fun _ => nms) ((x, k) :: G) -> nth_error ns x = Some n ->
    gstacks ns (effx x MRet) G /\ exists cl rest, cstack (nms n) = cl :: rest /\ route x cl = k.
  Proof.
    intros H Hn. pose proof (H x n Hn) as Hx. rewrite kinds_cons_same in Hx.
    destruct (cstack (nms n)) as [|cl rest] eqn:E; [discriminate|]. injection Hx as Hk Hx.
    split; [|now exists cl, rest].
    intros i ni Hi. unfold effx. destruct (Nat.eqb_spec i x) as [->|Hix].
    - assert (ni = n) by congruence. subst ni. cbn. now rewrite E.
    - rewrite (H i ni Hi). apply kinds_cons_other. congruence.
  Qed.

  Lemma gstacks0 ns : (forall n, In n ns -> ninit n) -> gstacks ns (fun _ => nms) [].
  Proof. intros Hi i n Hn. now rewrite (nms_init (Hi n (nth_error_In _ _ Hn))). Qed.

  Lemma gstacks_done ns x m n n' G :
    gstacks ns (effx x m) G -> nth_error ns x = Some n ->
    cstack (nms n') = cstack (mon_move (npar n) (nms n) m) ->
    gstacks (set_nth x n' ns) (fun _ => nms) G.
  Proof.
    intros H Hn Hcs i ni Hi. destruct (nth_set_inv Hn Hi) as (n0 & Hi0 & ->).
    specialize (H i n0 Hi0). unfold effx in H. destruct (Nat.eqb_spec i x) as [->|Hix]; [|exact H].
    assert (n0 = n) by congruence. subst n0. now rewrite Hcs.
  Qed.

  Lemma gstacks_call ns x m n n' G cl :
    gstacks ns (effx x m) G -> nth_error ns x = Some n ->
    cstack (nms n') = cl :: cstack (mon_move (npar n) (nms n) m) ->
    gstacks (set_nth x n' ns) (fun _ => nms) ((x, route x cl) :: G).
  Proof.
    intros H Hn Hcs i ni Hi. destruct (nth_set_inv Hn Hi) as (n0 & Hi0 & ->).
    specialize (H i n0 Hi0). unfold effx in H. destruct (Nat.eqb_spec i x) as [->|Hix].
    - assert (n0 = n) by congruence. subst n0. now rewrite Hcs, kinds_cons_same, <- H.
    - rewrite kinds_cons_other by congruence. exact H.
  Qed.
End Stacks.

(** ** Links along the edges [E c P k] (sink 0 of node [c] is wired to port [k] of node [P]) *)

Section Links.
  Variable E : nat -> nat -> nat -> Prop.

  Definition glinks (ns : list node) (f : nat -> node -> mstate) : Prop :=
    forall c P k U D, E c P k -> nth_error ns c = Some U -> nth_error ns P = Some D ->
      linkk k (f c U) (f P D).

  Lemma glinks_set ns x n n' (f f' : nat -> node -> mstate) :
    nth_error ns x = Some n -> glinks ns f ->
    (forall c P k U D, E c P k -> nth_error ns c = Some U -> nth_error ns P = Some D ->
       linkk k (f c U) (f P D) ->
       linkk k (f' c (if c =? x then n' else U)) (f' P (if P =? x then n' else D))) ->
    glinks (set_nth x n' ns) f'.
  Proof.
    intros Hn Hlk H c P k U' D' He HU HD.
    destruct (nth_set_inv Hn HU) as (U & HU0 & ->).
    destruct (nth_set_inv Hn HD) as (D & HD0 & ->). apply H; auto.
  Qed.

  Lemma glinks0 ns : (forall n, In n ns -> ninit n) -> glinks ns (eff PIdle).
  Proof.
    intros Hi c P k U D _ HU HD. cbn [eff]. unfold linkk.
    now rewrite (nms_init (Hi U (nth_error_In _ _ HU))), (nms_init (Hi D (nth_error_In _ _ HD))).
  Qed.

  Lemma glinks_to ns t inp : glinks ns (eff (PTo t inp)) -> glinks ns (effx t (MIn inp)).
  Proof. intros H c P k U D He HU HD. rewrite <- !eff_to. now apply H. Qed.

  Hypothesis E_lt : forall c P k, E c P k -> c < P.
  Hypothesis E_par : forall c P k P' k', E c P k -> E c P' k' -> P = P' /\ k = k'.
  Hypothesis E_kid : forall c c' P k, E c P k -> E c' P k -> c = c'.

  Lemma glinks_move ns pd x m :
    glinks ns (eff pd) -> (forall j nn, eff pd j nn = nms nn) ->
    (forall n, nth_error ns x = Some n ->
       ((exists P k, E x P k) ->
          subd (mon_move (npar n) (nms n) m) 0 = subd (nms n) 0 /\
          sk (mon_move (npar n) (nms n) m) 0 = sk (nms n) 0) /\
       (forall c k, E c x k -> us (mon_move (npar n) (nms n) m) k = us (nms n) k)) ->
    glinks ns (effx x m).
  Proof.
    intros Hlk Hpd Hcore c P k U D He HU HD. specialize (Hlk c P k U D He HU HD).
    rewrite !Hpd in Hlk. pose proof (E_lt He) as Hlt. unfold effx.
    destruct (Nat.eqb_spec c x) as [->|Hcx]; destruct (Nat.eqb_spec P x) as [->|HPx]; try lia.
    - destruct (Hcore U HU) as [H1 _]. destruct H1 as [Ha Hb]; [now exists P, k|].
      eapply linkk_ext; [exact Ha | exact Hb | reflexivity | exact Hlk].
    - destruct (Hcore D HD) as [_ H2].
      eapply linkk_ext; [reflexivity | reflexivity | exact (H2 c k He) | exact Hlk].
    - exact Hlk.
  Qed.

  Lemma glinks_ret ns pd x :
    glinks ns (eff pd) -> (forall j nn, eff pd j nn = nms nn) -> glinks ns (effx x MRet).
  Proof. intros H Hpd. apply (glinks_move MRet H Hpd). intros n _. cbn. auto. Qed.

  Variables (ns : list node) (x : nat) (n n' : node) (m : move).
  Hypothesis Hn : nth_error ns x = Some n.
  Hypothesis Hlk : glinks ns (effx x m).
  Let pre := mon_move (npar n) (nms n) m.

  Lemma glinks_child c k U : E c x k -> nth_error ns c = Some U -> linkk k (nms U) pre.
  Proof.
    intros He HU. pose proof (E_lt He). pose proof (Hlk He HU Hn) as L. unfold effx in L.
    rewrite Nat.eqb_refl in L. destruct (Nat.eqb_spec c x); [lia|exact L].
  Qed.

  Lemma glinks_parent P k D : E x P k -> nth_error ns P = Some D -> linkk k pre (nms D).
  Proof.
    intros He HD. pose proof (E_lt He). pose proof (Hlk He Hn HD) as L. unfold effx in L.
    rewrite Nat.eqb_refl in L. destruct (Nat.eqb_spec P x); [lia|exact L].
  Qed.

  Lemma glinks_keep pd :
    (forall j nn, eff pd j nn = nms nn) ->
    (forall P k, E x P k -> subd (nms n') 0 = subd pre 0 /\ sk (nms n') 0 = sk pre 0) ->
    (forall c k, E c x k -> us (nms n') k = us pre k) ->
    glinks (set_nth x n' ns) (eff pd).
  Proof.
    intros Hpd Hc Hp. eapply glinks_set; [exact Hn | exact Hlk |].
    intros c P k U D He HU HD L. rewrite !Hpd.
    pose proof (E_lt He) as Hlt. unfold effx in L.
    destruct (Nat.eqb_spec c x) as [->|Hcx]; destruct (Nat.eqb_spec P x) as [->|HPx]; try lia.
    - assert (U = n) by congruence. subst U. destruct (Hc P k He) as [A B].
      eapply linkk_ext; [exact A | exact B | reflexivity | exact L].
    - assert (D = n) by congruence. subst D.
      eapply linkk_ext; [reflexivity | reflexivity | exact (Hp c k He) | exact L].
    - exact L.
  Qed.

  Lemma glinks_up c0 k0 nu inp :
    E c0 x k0 -> nth_error ns c0 = Some nu -> (forall k, ~ is_dnk k inp) ->
    (forall P k, E x P k -> subd (nms n') 0 = subd pre 0 /\ sk (nms n') 0 = sk pre 0) ->
    (forall k, k <> k0 -> us (nms n') k = us pre k) ->
    linkk k0 (mon_input (npar nu) (nms nu) inp) (nms n') ->
    glinks (set_nth x n' ns) (eff (PTo c0 inp)).
  Proof.
    intros E0 Hnu Hinp Hc Hp L0. eapply glinks_set; [exact Hn | exact Hlk |].
    intros c P k U D He HU HD L.
    pose proof (E_lt He). pose proof (E_lt E0). unfold eff. unfold effx in L.
    destruct (Nat.eqb_spec c x) as [->|Hcx]; destruct (Nat.eqb_spec P x) as [->|HPx]; try lia.
    - assert (U = n) by congruence. subst U. destruct (Hc P k He) as [A B].
      destruct (Nat.eqb_spec c0 x); [lia|]. destruct (Nat.eqb_spec c0 P); [lia|].
      eapply linkk_ext; [exact A | exact B | reflexivity | exact L].
    - assert (D = n) by congruence. subst D. destruct (Nat.eqb_spec c0 x); [lia|].
      destruct (Nat.eqb_spec c0 c) as [<-|Hcc].
      + destruct (E_par He E0) as [_ ->]. assert (U = nu) by congruence. subst U. exact L0.
      + eapply linkk_ext; [reflexivity | reflexivity | | exact L]. apply Hp.
        intros ->. apply Hcc. exact (E_kid E0 He).
    - destruct (Nat.eqb_spec c0 c) as [<-|Hcc]; [destruct (E_par He E0); congruence|].
      destruct (Nat.eqb_spec c0 P) as [<-|HcP]; [|exact L].
      assert (D = nu) by congruence. subst D.
      eapply linkk_ext; [reflexivity | reflexivity | apply input_usk, Hinp | exact L].
  Qed.

  Lemma glinks_dn P0 k0 nd d :
    E x P0 k0 -> nth_error ns P0 = Some nd ->
    (forall k, us (nms n') k = us pre k) ->
    linkk k0 (nms n') (mon_input (npar nd) (nms nd) (IDn k0 d)) ->
    glinks (set_nth x n' ns) (eff (PTo P0 (IDn k0 d))).
  Proof.
    intros E0 Hnd Hp L0. eapply glinks_set; [exact Hn | exact Hlk |].
    intros c P k U D He HU HD L.
    pose proof (E_lt He). pose proof (E_lt E0). unfold eff. unfold effx in L.
    destruct (Nat.eqb_spec c x) as [->|Hcx]; destruct (Nat.eqb_spec P x) as [->|HPx]; try lia.
    - destruct (E_par He E0) as [-> ->]. destruct (Nat.eqb_spec P0 x); [lia|].
      rewrite Nat.eqb_refl. assert (D = nd) by congruence. subst D. exact L0.
    - assert (D = n) by congruence. subst D.
      destruct (Nat.eqb_spec P0 c); [lia|]. destruct (Nat.eqb_spec P0 x); [lia|].
      eapply linkk_ext; [reflexivity | reflexivity | apply Hp | exact L].
    - destruct (Nat.eqb_spec P0 c) as [<-|HPc]; destruct (Nat.eqb_spec P0 P) as [<-|HPP]; try lia.
      + assert (U = nd) by congruence. subst U.
        destruct (@input_sk0 (npar nd) (nms nd) (IDn k0 d)) as [A B]; [intros H'; exact H'|].
        eapply linkk_ext; [exact B | exact A | reflexivity | exact L].
      + assert (D = nd) by congruence. subst D.
        eapply linkk_ext; [reflexivity | reflexivity | | exact L].
        apply input_usk. intros [d' [= -> _]]. apply Hcx. exact (E_kid He E0).
      + exact L.
  Qed.
End Links.
Arguments glinks_child [E] E_lt [ns x n m] Hn Hlk [c k U] _ _.
Arguments glinks_parent [E] E_lt [ns x n m] Hn Hlk [P k D] _ _.
Arguments glinks_up [E] E_lt E_par E_kid [ns x n] n' [m] Hn Hlk [c0 k0 nu inp] _ _ _ _ _ _.
Arguments glinks_dn [E] E_lt E_par E_kid [ns x n] n' [m] Hn Hlk [P0 k0 nd d] _ _ _ _.
Arguments glinks_move [E] E_lt [ns pd] x m _ _ _.
Arguments glinks_ret [E] E_lt [ns pd] x _ _.

(** ** One node of a list makes a step *)

Lemma sum_core p o (c : cfg o) m :
  step_sum p c m ->
  subd (ms (step p c m)) = subd (mon_move p (ms c) m) /\
  refused (ms (step p c m)) = refused (mon_move p (ms c) m).
Proof.
  intros [m1 cl (A1 & _ & _ & R1 & _) _ _ (A3 & _ & _ & R3 & _)|_ (A3 & _ & _ & R3 & _)].
  - rewrite A3, R3. cbn. rewrite callupd_subd, callupd_refused. split; congruence.
  - split; assumption.
Qed.

Lemma subd_after_move n m :
  nsinks (npar n) = 1 ->
  (subd (nms n) 0 = false -> ninit n) ->
  nenabled n m = true ->
  subd (mon_move (npar n) (nms n) m) 0 = true.
Proof.
  intros Hns Hi He. refine (eq_trans (fld_move (subd_field _) (nms n) m 0) _).
  destruct (subd (nms n) 0); [apply subd_next_mono|].
  unfold nenabled in He. rewrite (Hi eq_refl) in He.
  now destruct (enabled_cfg0 _ _ _ _ Hns He) as [aux ->].
Qed.

Definition nodes_ok (sigs : list (op * mparams * (mstate -> input -> bool))) (ns : list node)
  : Prop :=
  map nsig ns = sigs /\
  forall i n, nth_error ns i = Some n -> nreach n /\ (subd (nms n) 0 = false -> ninit n).

Lemma nodes_ok0 sigs ns :
  map nsig ns = sigs -> (forall n, In n ns -> ninit n) -> nodes_ok sigs ns.
Proof.
  intros Hsig Hinit. split; [exact Hsig|]. intros i n Hn.
  pose proof (Hinit n (nth_error_In _ _ Hn)) as Hi. split; [|intros _; exact Hi].
  unfold nreach. rewrite Hi. constructor.
Qed.

Section NodeStep.
  Variables (n : node) (m : move).
  Hypothesis Hsafe :
    forall c : cfg (nop n), reach (npar n) (ngrd n) c -> viols (ms c) = [] /\ dead c = false.
  Hypothesis Hg : forall m inp, ngrd n m inp = g_std m inp.
  Hypothesis Hns : nsinks (npar n) = 1.
  Hypothesis Hr : nreach n.
  Hypothesis Hinit : subd (nms n) 0 = false -> ninit n.
  Hypothesis He : nenabled n m = true.

  Let n' := nstep n m.
  Let pre := mon_move (npar n) (nms n) m.

  (** [step_sum] in terms of the node, with what the links read of the new state: the step ends in
      a call [cl], made in a state [m1] that a link cannot tell from the state [pre] after the
      move, or in a return *)
  Inductive nstep_sum : Prop :=
  | nsum_call m1 cl :
      nlast n' = Some (ECall cl) ->
      check_call (npar n) m1 cl = [] ->
      same_core m1 pre -> subd m1 0 = true -> refused m1 0 = None ->
      same_core (nms n') (set_cstack (mon_call_upd m1 cl) (cl :: cstack pre)) ->
      cstack (nms n') = cl :: cstack pre ->
      (~ dn0 cl -> subd (nms n') 0 = subd pre 0 /\ sk (nms n') 0 = sk pre 0) ->
      (forall k, ~ upk k cl -> us (nms n') k = us pre k) ->
      nstep_sum
  | nsum_done :
      nlast n' = Some EDone -> same_core (nms n') pre -> nstep_sum.

  Lemma nstep_summary : nreach n' /\ subd (nms n') 0 = true /\ nstep_sum.
  Proof.
    assert (Hr' : nreach n') by exact (reachS m Hr He).
    destruct (Hsafe Hr') as [Hv Hd].
    pose proof (step_summary _ _ _ _ He Hv Hd) as Hsum.
    pose proof (subd_after_move m Hns Hinit He) as Hsubd.
    destruct (sum_core Hsum) as [Hsd _].
    split; [exact Hr'|]. split; [exact (eq_trans (f_equal (fun f => f 0) Hsd) Hsubd)|].
    destruct Hsum as [m1 cl H1 Hl Hchk H3|Hl H3]; [|now apply nsum_done].
    pose proof H1 as (A1 & B1 & C1 & R1 & S1). pose proof H3 as (A3 & B3 & C3 & _).
    cbn in A3, B3, C3. unfold n', pre in *.
    change (ms (step (npar n) (ncfg n) m)) with (nms (nstep n m)) in *.
    change (ms (ncfg n)) with (nms n) in *.
    apply nsum_call with m1 cl; unfold n', pre; try assumption.
    - now rewrite A1.
    - rewrite R1. exact (eq_trans (f_equal (fun f => f 0) (move_refused Hg He)) (reach_refused Hg Hr 0)).
    - now rewrite <- S1.
    - rewrite <- S1. apply H3.
    - intros Hnd. now rewrite A3, B3, callupd_subd, (callupd_sk0 m1 Hnd), A1, B1.
    - intros k Hnu. now rewrite C3, (callupd_usk m1 Hnu), C1.
  Qed.
End NodeStep.

Lemma nodes_ok_step sigs ns x n n' :
  nodes_ok sigs ns -> nth_error ns x = Some n -> nsig n' = nsig n ->
  nreach n' -> subd (nms n') 0 = true -> nodes_ok sigs (set_nth x n' ns).
Proof.
  intros [Hsig Hnd] Hn Es Hr' Hs'. split.
  - now rewrite (map_set_nth nsig x n' ns Hn Es).
  - intros i ni Hi. destruct (nth_set_inv Hn Hi) as (n0 & Hi0 & ->).
    destruct (i =? x); [|exact (Hnd i n0 Hi0)]. split; [exact Hr'|congruence].
Qed.

(* likewise [MachineFacts.move_event] *)
Definition move_event (m : move) : event := match m with MIn i => EIn i | MRet => ERet end.

(** Along every edge [R s r k] (what [s] sends arrives at port [k] of [r]): what [r] has received
    ([fi k]) and what is in flight are what [s] has sent ([fo]). *)
Section Wires.
  Variable A : Type.
  Variable fo : list event -> list A.
  Variable fi : nat -> list event -> list A.
  Hypothesis fo_app : forall a b, fo (a ++ b) = fo a ++ fo b.
  Hypothesis fi_app : forall k a b, fi k (a ++ b) = fi k a ++ fi k b.
  Hypothesis fo_obs : forall os, fo (map EObs os) = [].
  Hypothesis fi_obs : forall k os, fi k (map EObs os) = [].
  Hypothesis fo_move : forall m, fo [move_event m] = [].
  Hypothesis fi_fin : forall k fin, (forall i, fin <> EIn i) -> fi k [fin] = [].
  Variable R : nat -> nat -> nat -> Prop.
  Hypothesis R_irr : forall s r k, R s r k -> s <> r.
  Variable infl : pending -> nat -> nat -> nat -> list A.

  Definition gwire (ns : list node) (pd : pending) : Prop :=
    forall s r k U D, R s r k -> nth_error ns s = Some U -> nth_error ns r = Some D ->
      fo (ntrace U) = fi k (ntrace D) ++ infl pd s r k.

  Hypothesis infl_to : forall pd s r k, R s r k ->
    infl pd s r k = match pd with PTo t inp => if r =? t then fi k [EIn inp] else [] | _ => [] end.

  Lemma gwire0 ns : (forall n, In n ns -> ninit n) -> gwire ns PIdle.
  Proof.
    intros Hi s r k U D HR HU HD. unfold ntrace.
    rewrite (Hi U (nth_error_In _ _ HU)), (Hi D (nth_error_In _ _ HD)), (infl_to PIdle HR), app_nil_r.
    exact (eq_trans (fo_obs []) (eq_sym (fi_obs k []))).
  Qed.

  Lemma gwire_step ns pd pd' x n m extok :
    nth_error ns x = Some n -> nenabled n m = true -> gwire ns pd ->
    step_from extok pd x m ->
    (forall s k inp, R s x k -> extok inp = true -> fi k [EIn inp] = []) ->
    (forall fin s r k, nlast (nstep n m) = Some fin -> R s r k ->
       infl pd' s r k = if s =? x then fo [fin] else []) ->
    gwire (set_nth x (nstep n m) ns) pd'.
  Proof.
    intros Hn He Hw Hfrom Hext Hnew s r k U' D' HR HU HD.
    pose proof (en_step He) as Hst. pose proof (stepped_trace Hst) as Htr.
    pose proof (f_equal (@hd_error _) (st_rtrace Hst)) as Hl.
    destruct (result (ncfg n) m) as [[s' os] a]. cbn [fst snd hd_error] in Htr, Hl. clear Hst.
    set (fin := act_event (nop n) a) in *.
    assert (Hfin : forall i, fin <> EIn i) by (intros i; unfold fin; destruct a; discriminate).
    change (ntrace (nstep n m) = ntrace n ++ [move_event m] ++ map EObs os ++ [fin]) in Htr.
    assert (Eo : fo (ntrace (nstep n m)) = fo (ntrace n) ++ fo [fin])
      by now rewrite Htr, !fo_app, fo_move, fo_obs.
    assert (Ei : fi k (ntrace (nstep n m)) = fi k (ntrace n) ++ fi k [move_event m])
      by now rewrite Htr, !fi_app, fi_obs, (fi_fin k Hfin), app_nil_r.
    assert (Hold : infl pd s r k = if r =? x then fi k [move_event m] else []).
    { rewrite (infl_to pd HR). unfold step_from in Hfrom.
      destruct pd as [|t inp|j]; [|destruct Hfrom as [-> ->]; reflexivity|];
        (destruct (Nat.eqb_spec r x) as [->|]; [|reflexivity]);
        (destruct m as [inp|]; [symmetry; exact (Hext s k inp HR Hfrom)|]);
        symmetry; apply fi_fin; discriminate. }
    destruct (nth_set_inv Hn HU) as (U & HU0 & ->). destruct (nth_set_inv Hn HD) as (D & HD0 & ->).
    specialize (Hw s r k U D HR HU0 HD0). rewrite Hold in Hw.
    rewrite (Hnew fin _ _ _ Hl HR). pose proof (R_irr HR).
    destruct (Nat.eqb_spec s x) as [->|Hsx]; destruct (Nat.eqb_spec r x) as [->|Hrx]; try congruence.
    - assert (U = n) by congruence. subst U. now rewrite Eo, Hw, app_nil_r.
    - assert (D = n) by congruence. subst D. now rewrite Ei, app_nil_r.
  Qed.
End Wires.

Lemma data_out_obs s os : data_out s (map EObs os) = [].
Proof. induction os as [|ob os IH]; cbn; auto. Qed.
Lemma data_in_obs i os : data_in i (map EObs os) = [].
Proof. induction os as [|ob os IH]; cbn; auto. Qed.
Lemma data_out_move s m : data_out s [move_event m] = [].
Proof. destruct m as [[]|]; reflexivity. Qed.
Lemma data_in_fin k fin : (forall i, fin <> EIn i) -> data_in k [fin] = [].
Proof. intros H. destruct fin as [j| | | | |]; try reflexivity. now destruct (H j). Qed.

(** ** The global stack of pending calls of a pipeline *)

Definition kinds_of (i : nat) (G : list (nat * gkind)) : list gkind :=
  map snd (filter (fun e => fst e =? i) G).

Lemma kinds_of_cons_same i k G : kinds_of i ((i, k) :: G) = k :: kinds_of i G.
Proof. apply kinds_cons_same. Qed.

Lemma kinds_of_cons_other i j k G : j <> i -> kinds_of i ((j, k) :: G) = kinds_of i G.
Proof. apply kinds_cons_other. Qed.

Definition kind_ok (len : nat) (e : nat * gkind) : Prop :=
  match e with
  | (j, KExt) => j < len
  | (j, KUp) => 0 < j /\ j < len
  | (j, KDn) => S j < len
  end.

(** every entry names existing nodes, and the caller of each entry is the node that runs while the
    entry below it is pending ([owner_above]): the pending calls form one path of activations *)
Fixpoint wfG (len : nat) (G : list (nat * gkind)) : Prop :=
  match G with
  | [] => True
  | e :: G' => kind_ok len e /\ wfG len G' /\
               match G' with [] => True | e' :: _ => fst e = owner_above e' end
  end.

(** the node whose handler is running (or, at an idle point, may be entered) *)
Definition runner_ok (x : nat) (G : list (nat * gkind)) : Prop :=
  match G with [] => True | e :: _ => owner_above e = x end.

Lemma wfG_tl len e G : wfG len (e :: G) -> wfG len G /\ runner_ok (fst e) G.
Proof. cbn. intros (_ & H & H'). split; [exact H|]. destruct G; cbn; auto. Qed.

(** the innermost pending call of a node other than the running one is a call
    towards the running one *)
Lemma first_kind len G : forall x, wfG len G -> runner_ok x G ->
  forall i, (i < x -> match kinds_of i G with [] => True | k :: _ => k = KDn end) /\
            (x < i -> match kinds_of i G with [] => True | k :: _ => k = KUp end).
Proof.
  induction G as [|[j k] G IH]; intros x Hwf Hrun i; [split; intros; exact I|].
  destruct (wfG_tl Hwf) as [Hwf' Hrun']. cbn [fst] in Hrun'.
  destruct Hwf as (Hk & _ & _). cbn in Hrun. specialize (IH j Hwf' Hrun' i).
  destruct k; cbn in Hrun, Hk.
  - subst x. split; intros Hi; rewrite kinds_of_cons_other by lia; apply IH; exact Hi.
  - split; intros Hi.
    + rewrite kinds_of_cons_other by lia. apply IH. lia.
    + destruct (Nat.eq_dec j i) as [->|Hne]; [now rewrite kinds_of_cons_same|].
      rewrite kinds_of_cons_other by exact Hne. apply IH. lia.
  - split; intros Hi.
    + destruct (Nat.eq_dec j i) as [->|Hne]; [now rewrite kinds_of_cons_same|].
      rewrite kinds_of_cons_other by exact Hne. apply IH. lia.
    + rewrite kinds_of_cons_other by lia. apply IH. lia.
Qed.

Lemma route_dn len i c : route len i c = KDn -> exists d, c = CDn 0 d /\ S i < len.
Proof.
  destruct c as [[|j]|[|j] u|[|s] d]; unfold route;
    try (destruct (0 <? i)); try (destruct (S i <? len) eqn:E); intros H; try discriminate H.
  all: exists d; split; [reflexivity|]; apply Nat.ltb_lt in E; exact E.
Qed.

Lemma route_up len i c :
  route len i c = KUp -> (c = CSub 0 \/ exists u, c = CUp 0 u) /\ 0 < i.
Proof.
  destruct c as [[|j]|[|j] u|[|s] d]; unfold route; try (intros H; discriminate H).
  - destruct (0 <? i) eqn:E; intros H; [|discriminate H]. apply Nat.ltb_lt in E. auto.
  - destruct (0 <? i) eqn:E; intros H; [|discriminate H]. apply Nat.ltb_lt in E.
    split; [right; now exists u|exact E].
  - destruct (S i <? len); intros H; discriminate H.
Qed.

Lemma after_step_nodes N x n' : nodes (after_step N x n') = set_nth x n' (nodes N).
Proof.
  unfold after_step. destruct (nlast n') as [[i|c| | |ob|]|]; try reflexivity.
  - destruct (route _ _ _); reflexivity.
  - destruct (gst N) as [|[j [| |]] G]; reflexivity.
Qed.

(** ** The invariant of a reachable net *)

(** the wires of a pipeline of [len] nodes *)
Definition cedge (len c P k : nat) : Prop := P = S c /\ k = 0 /\ P < len.

Lemma cedge_lt len c P k : cedge len c P k -> c < P.
Proof. unfold cedge. lia. Qed.
Lemma cedge_par len c P k P' k' : cedge len c P k -> cedge len c P' k' -> P = P' /\ k = k'.
Proof. unfold cedge. lia. Qed.
Lemma cedge_kid len c c' P k : cedge len c P k -> cedge len c' P k -> c = c'.
Proof. unfold cedge. lia. Qed.

Lemma cedge_forall ns (Q : nat -> nat -> nat -> node -> node -> Prop) :
  (forall i U D, nth_error ns i = Some U -> nth_error ns (S i) = Some D -> Q i (S i) 0 U D) <->
  (forall c P k U D, cedge (length ns) c P k -> nth_error ns c = Some U -> nth_error ns P = Some D ->
     Q c P k U D).
Proof.
  split.
  - intros H c P k U D (-> & -> & _). apply H.
  - intros H i U D HU HD. apply H; auto. repeat split. eapply nth_error_lt; eauto.
Qed.

Lemma clinks_glinks ns f :
  (forall i U D, nth_error ns i = Some U -> nth_error ns (S i) = Some D -> link (f i U) (f (S i) D))
  <-> glinks (cedge (length ns)) ns f.
Proof. exact (cedge_forall ns (fun c P k U D => linkk k (f c U) (f P D))). Qed.

Lemma route_ext len i cl :
  route len i cl = KExt -> (S i < len -> ~ dn0 cl) /\ (0 < i -> ~ upk 0 cl).
Proof.
  intros Er. split; intros Hi H; apply Nat.ltb_lt in Hi; unfold route in Er.
  - destruct H as [d ->]. rewrite Hi in Er. discriminate.
  - destruct H as [->|[u ->]]; rewrite Hi in Er; discriminate.
Qed.

Section ChainSound.
  Variable sigs : list (op * mparams * (mstate -> input -> bool)).
  Hypothesis Hsafe : forall s, In s sigs -> safe_sig s.

  Definition regime_ok (i : nat) (s : op * mparams * (mstate -> input -> bool)) : Prop :=
    let '(o, p, g) := s in
    nsinks p = 1 /\ resub p = false /\ pullable p = false /\ one_pull p = false /\
    (0 < i -> late_ok p = true) /\ (forall m inp, g m inp = g_std m inp).
  Hypothesis Hreg : forall i s, nth_error sigs i = Some s -> regime_ok i s.

  Definition stacks_ok (ns : list node) (G : list (nat * gkind)) : Prop :=
    forall i n, nth_error ns i = Some n ->
      map (route (length ns) i) (cstack (nms n)) = kinds_of i G.

  Definition links_ok (ns : list node) (pd : pending) : Prop :=
    forall i U D, nth_error ns i = Some U -> nth_error ns (S i) = Some D ->
      link (eff pd i U) (eff pd (S i) D).

  (** [pend] agrees with the innermost pending call: between steps of the environment that call, if
      any, is external; a transfer into [i] is the innermost call, made to [i], and [i] accepts it;
      a return goes to the caller of the innermost call, which is internal *)
  Definition pend_ok (ns : list node) (G : list (nat * gkind)) (pd : pending) : Prop :=
    match pd with
    | PIdle => match G with [] => True | (_, KExt) :: _ => True | _ => False end
    | PTo i inp =>
        (exists j k, hd_error G = Some (j, k) /\ k <> KExt /\ owner_above (j, k) = i) /\
        exists n, nth_error ns i = Some n /\ nenabled n (MIn inp) = true
    | PRet j => exists k, hd_error G = Some (j, k) /\ k <> KExt
    end.

  (** The links are stated of [eff (pend N)]: at a pending transfer the callee is seen in the state
      its input leaves, since that is the state the caller has guaranteed; a step of node [x] is
      analysed from [effx x m], the same for the move [m] that [x] makes.  In [nodes_ok], a node
      that has not been subscribed is still initial: that is what [xfer_up_k] needs of the callee
      of a subscription. *)
  Definition Inv (N : net) : Prop :=
    nodes_ok sigs (nodes N) /\ stacks_ok (nodes N) (gst N) /\ wfG (length (nodes N)) (gst N) /\
    pend_ok (nodes N) (gst N) (pend N) /\ links_ok (nodes N) (pend N).

  Lemma inv_intro ns G pd :
    nodes_ok sigs ns -> gstacks (route (length ns)) ns (fun _ => nms) G -> wfG (length ns) G ->
    pend_ok ns G pd -> glinks (cedge (length ns)) ns (eff pd) -> Inv (mk_net ns G pd).
  Proof.
    intros A B C D F. split; [exact A|]. split; [exact B|]. split; [exact C|]. split; [exact D|].
    exact (proj2 (clinks_glinks ns (eff pd)) F).
  Qed.

  Lemma node_facts ns i n :
    map nsig ns = sigs -> nth_error ns i = Some n ->
    (forall c : cfg (nop n), reach (npar n) (ngrd n) c -> viols (ms c) = [] /\ dead c = false) /\
    nsinks (npar n) = 1 /\ resub (npar n) = false /\ pullable (npar n) = false /\
    one_pull (npar n) = false /\ (0 < i -> late_ok (npar n) = true) /\
    (forall m inp, ngrd n m inp = g_std m inp).
  Proof.
    intros Hs Hn.
    assert (H : nth_error sigs i = Some (nsig n)).
    { rewrite <- Hs. now apply map_nth_error. }
    split.
    - exact (Hsafe (nsig n) (nth_error_In _ _ H)).
    - exact (Hreg i H).
  Qed.

  (** the innermost pending call of a node other than the running node [x] is a call towards [x]:
      so the node can be entered from that side *)
  Lemma neighbour_top ns G x m j nj :
    gstacks (route (length ns)) ns (effx x m) G -> wfG (length ns) G -> runner_ok x G ->
    nth_error ns j = Some nj -> nreach nj -> j <> x ->
    top_peer_is (ncfg nj) (if j <? x then PSink 0 else PUp 0) = true.
  Proof.
    intros Hst Hwf Hrun Hj Hr Hjx. apply top_peer_of_cstack; [exact (reach_cstack Hr)|].
    specialize (Hst j nj Hj). unfold effx in Hst. destruct (Nat.eqb_spec j x); [contradiction|].
    change (ms (ncfg nj)) with (nms nj). destruct (cstack (nms nj)) as [|cl rest]; [exact I|].
    cbn [map] in Hst. destruct (first_kind _ G x Hwf Hrun j) as [Hlo Hhi].
    change (kinds_of j G) with (kinds j G) in Hlo, Hhi. rewrite <- Hst in Hlo, Hhi.
    destruct (Nat.ltb_spec j x) as [Hlt|Hge].
    - destruct (route_dn _ _ _ (Hlo Hlt)) as (d & -> & _). reflexivity.
    - destruct (route_up _ _ _ (Hhi ltac:(lia))) as [[->|[u ->]] _]; reflexivity.
  Qed.

  Lemma after_step_inv (ns : list node) (G1 : list (nat * gkind)) (pd0 : pending) x n m :
    nodes_ok sigs ns -> nth_error ns x = Some n -> nenabled n m = true ->
    wfG (length ns) G1 -> runner_ok x G1 ->
    gstacks (route (length ns)) ns (effx x m) G1 ->
    glinks (cedge (length ns)) ns (effx x m) ->
    Inv (after_step (mk_net ns G1 pd0) x (nstep n m)).
  Proof.
    intros Hok Hn He Hwf Hrun Hst Hlk. pose proof Hok as [Hsig Hnodes].
    destruct (node_facts ns x Hsig Hn) as (Hsafe_n & Hns & Hrs & Hpl & Hop & Hlate & Hg).
    destruct (Hnodes x n Hn) as [Hr Hinit].
    destruct (nstep_summary m Hsafe_n Hg Hns Hr Hinit He) as (Hr' & Hsd' & Hsum).
    pose proof (nodes_ok_step x Hok Hn (nsig_nstep n m) Hr' Hsd') as Hok'.
    assert (Hlen : length (set_nth x (nstep n m) ns) = length ns) by apply set_nth_length.
    assert (Hxlt : x < length ns) by (eapply nth_error_lt; eauto).
    unfold after_step. cbn [nodes gst].
    destruct Hsum as [m1 cl Hl Hchk H1 Hsd1 Hrf1 H3 Hcs Hcf Hpf|Hl H3]; rewrite Hl;
      set (n' := nstep n m) in *; set (ns' := set_nth x n' ns) in *;
      set (pre := mon_move (npar n) (nms n) m) in *.
    - (* the step ended in a call *)
      pose proof (gstacks_call n' Hst Hn Hcs) as Hstk. fold ns' in Hstk.
      assert (Hwfp : kind_ok (length ns) (x, route (length ns) x cl) ->
                     wfG (length ns) ((x, route (length ns) x cl) :: G1)).
      { intros HK. cbn. split; [exact HK|]. split; [exact Hwf|].
        destruct G1 as [|e' G1']; [exact I|]. cbn in Hrun. cbn. congruence. }
      revert Hstk Hwfp. destruct (route (length ns) x cl) eqn:Er; intros Hstk Hwfp.
      + (* external call *)
        destruct (route_ext _ _ _ Er) as [Hnd Hnu].
        apply inv_intro; rewrite ?Hlen; [exact Hok' | exact Hstk | exact (Hwfp Hxlt) | exact I |].
        apply (glinks_keep (@cedge_lt _) n' Hn Hlk); [reflexivity| |].
        * intros P k (-> & _ & HP). apply Hcf, Hnd, HP.
        * intros c k (-> & -> & _). apply Hpf, Hnu. lia.
      + (* call up into node x-1 *)
        destruct (route_up _ _ _ Er) as [Hup Hx0].
        assert (E0 : cedge (length ns) (pred x) x 0) by (unfold cedge; lia).
        destruct (nth_error ns (pred x)) as [nu|] eqn:Hnu; [|apply nth_error_None in Hnu; lia].
        destruct (node_facts ns (pred x) Hsig Hnu) as (Hsafe_u & Hns_u & _ & _ & Hop_u & _ & Hg_u).
        destruct (Hnodes _ _ Hnu) as [Hr_u Hinit_u]. destruct (Hsafe_u _ Hr_u) as [_ Hd_u].
        pose proof (neighbour_top Hst Hwf Hrun Hnu Hr_u ltac:(lia)) as Htop.
        replace (pred x <? x) with true in Htop by (symmetry; apply Nat.ltb_lt; lia).
        assert (Hlk0 : linkk 0 (nms nu) m1).
        { apply (same_core_linkk (same_core_refl _) H1).
          exact (glinks_child (@cedge_lt _) Hn Hlk E0 Hnu). }
        destruct (xfer_up_k Hg_u Hd_u Hrs Hns_u Hop_u Hup Hchk Hlk0 Hinit_u Htop) as [Hen Hlk1].
        apply inv_intro; rewrite ?Hlen; [exact Hok' | exact Hstk | apply Hwfp; cbn; lia | |].
        * split; [exists x, KUp; cbn; repeat split; congruence|].
          exists nu. split; [|exact Hen]. unfold ns'. rewrite nth_set_other by lia. exact Hnu.
        * apply (glinks_up (@cedge_lt _) (@cedge_par _) (@cedge_kid _) n' Hn Hlk E0 Hnu).
          -- intros k [d Hd0]. destruct Hup as [->|[u ->]]; discriminate.
          -- intros P k _. apply Hcf. intros [d ->]. destruct Hup as [H|[u H]]; discriminate.
          -- intros k Hk. apply Hpf. intros Hu. exact (Hk (upk_inj Hu Hup)).
          -- exact (same_core_linkk (same_core_refl _) H3 Hlk1).
      + (* call down into node x+1 *)
        destruct (route_dn _ _ _ Er) as (d & -> & Hsx).
        assert (E0 : cedge (length ns) x (S x) 0) by (unfold cedge; lia).
        destruct (nth_error ns (S x)) as [nd|] eqn:Hnd; [|apply nth_error_None in Hnd; lia].
        destruct (node_facts ns (S x) Hsig Hnd) as (Hsafe_d & _ & _ & Hpl_d & _ & Hlate_d & Hg_d).
        destruct (Hnodes _ _ Hnd) as [Hr_d _]. destruct (Hsafe_d _ Hr_d) as [_ Hd_d].
        pose proof (neighbour_top Hst Hwf Hrun Hnd Hr_d ltac:(lia)) as Htop.
        replace (S x <? x) with false in Htop by (symmetry; apply Nat.ltb_ge; lia).
        assert (Hlk0 : linkk 0 m1 (nms nd)).
        { apply (same_core_linkk H1 (same_core_refl _)).
          exact (glinks_parent (@cedge_lt _) Hn Hlk E0 Hnd). }
        destruct (xfer_dn_k Hg_d Hd_d Hpl_d (fun _ => or_introl (Hlate_d ltac:(lia)))
                    Hchk Hlk0 Hsd1 Hrf1 Htop) as [Hen Hlk1].
        apply inv_intro; rewrite ?Hlen; [exact Hok' | exact Hstk | apply Hwfp; cbn; lia | |].
        * split; [exists x, KDn; cbn; repeat split; congruence|].
          exists nd. split; [|exact Hen]. unfold ns'. rewrite nth_set_other by lia. exact Hnd.
        * apply (glinks_dn (@cedge_lt _) (@cedge_par _) (@cedge_kid _) n' Hn Hlk E0 Hnd).
          -- intros k. apply Hpf. intros [H|[u H]]; discriminate.
          -- exact (same_core_linkk H3 (same_core_refl _) Hlk1).
    - (* the step ended with a return *)
      destruct H3 as (A3 & B3 & C3 & _ & S3).
      pose proof (gstacks_done n' Hst Hn S3) as Hstk.
      assert (Hlinks : forall pd, (forall j nn, eff pd j nn = nms nn) ->
                glinks (cedge (length ns)) ns' (eff pd)).
      { intros pd Hpd. apply (glinks_keep (@cedge_lt _) n' Hn Hlk pd Hpd); intros;
          now rewrite ?A3, ?B3, ?C3. }
      destruct G1 as [|[j [| |]] G1']; apply inv_intro; rewrite ?Hlen; try assumption;
        try exact I; try (apply Hlinks; reflexivity).
      + exists KUp. split; [reflexivity|discriminate].
      + exists KDn. split; [reflexivity|discriminate].
  Qed.

  Lemma ret_enabled ns G' j k n :
    nodes_ok sigs ns -> stacks_ok ns ((j, k) :: G') -> k <> KExt -> nth_error ns j = Some n ->
    nenabled n MRet = true.
  Proof.
    intros [Hsig Hnd] Hst Hk Hn.
    destruct (gstacks_ret (route := route (length ns)) Hst Hn) as (_ & cl & rest & Hcs & Hrt).
    destruct (Hnd j n Hn) as [Hr _].
    destruct (node_facts ns j Hsig Hn) as (Hsafe_n & _ & _ & _ & _ & Hlate & _).
    destruct (Hsafe_n _ Hr) as [_ Hd].
    unfold nenabled, enabled. rewrite Hd. cbn [negb andb].
    pose proof (reach_cstack Hr) as Hc. change (ms (ncfg n)) with (nms n) in Hc.
    rewrite Hcs in Hc. destruct (stack (ncfg n)) as [|[f c0] st']; [discriminate|].
    cbn in Hc. inversion Hc; subst c0.
    destruct cl as [i0|i0 u0|s0 d0]; try reflexivity.
    destruct k; [congruence| |].
    - destruct (route_up _ _ _ Hrt) as [_ Hj0]. rewrite (Hlate Hj0). reflexivity.
    - destruct (route_dn _ _ _ Hrt) as (d & Hc0 & _). discriminate.
  Qed.

  Definition move_of (N : net) (mv : nmove) (x : nat) (m : move) : Prop :=
    match mv with
    | NEnv i m' => pend N = PIdle /\ x = i /\ m = m'
    | NTau => match pend N with
              | PTo t inp => x = t /\ m = MIn inp
              | PRet j => x = j /\ m = MRet
              | PIdle => False
              end
    end.

  (** an enabled net step is a step of one node [x]: its move, the stack and the view of the
      others it starts from *)
  Inductive net_view (N : net) (mv : nmove) : Prop :=
  | nview x n m G1 :
      net_step N mv = after_step (mk_net (nodes N) G1 PIdle) x (nstep n m) ->
      move_of N mv x m ->
      nth_error (nodes N) x = Some n -> nenabled n m = true ->
      step_from (ext_input_ok (length (nodes N)) x) (pend N) x m ->
      wfG (length (nodes N)) G1 -> runner_ok x G1 ->
      gstacks (route (length (nodes N))) (nodes N) (effx x m) G1 ->
      glinks (cedge (length (nodes N))) (nodes N) (effx x m) ->
      net_view N mv.

  Lemma net_step_view N mv : Inv N -> net_enabled N mv = true -> net_view N mv.
  Proof.
    destruct N as [ns G pd]. intros (Hnodes & Hst & Hwf & Hpend & Hlk) He.
    cbn [nodes gst pend] in *. unfold net_enabled in He. cbn [nodes gst pend] in He.
    change (gstacks (route (length ns)) ns (fun _ => nms) G) in Hst.
    apply (proj1 (clinks_glinks ns (eff pd))) in Hlk.
    destruct mv as [x m|]; destruct pd as [|t inp|j]; try discriminate.
    - (* the environment acts on node x *)
      destruct (nth_error ns x) as [n|] eqn:Hn; [|discriminate].
      apply andb_prop in He. destruct He as [Hen He].
      destruct m as [inp|].
      + apply andb_prop in He. destruct He as [Hext HG].
        apply nview with x n (MIn inp) G; cbn [nodes pend]; try assumption.
        * unfold net_step. cbn [nodes gst pend]. now rewrite Hn.
        * now repeat split.
        * destruct G as [|[j [| |]] G']; try discriminate; [exact I|].
          apply Nat.eqb_eq in HG. exact HG.
        * now apply gstacks_input.
        * apply (glinks_move (@cedge_lt _) x (MIn inp) Hlk); [reflexivity|].
          intros n0 Hn0. cbn [mon_move]. split.
          -- intros (P & k & -> & _ & HP).
             destruct (@input_sk0 (npar n0) (nms n0) inp) as [Ha Hb]; [|split; assumption].
             intros Hs. destruct inp as [s0 aux|s0 u|i0 d|s0]; cbn in Hs; try contradiction;
               unfold ext_input_ok in Hext; apply Nat.eqb_eq in Hext; lia.
          -- intros c k (-> & -> & _). apply input_usk. intros [d ->].
             unfold ext_input_ok in Hext. apply Nat.eqb_eq in Hext. lia.
      + destruct G as [|[j [| |]] G']; try discriminate.
        apply Nat.eqb_eq in He. subst j.
        destruct (wfG_tl Hwf) as [Hwf' Hrun']. cbn [fst] in Hrun'.
        destruct (gstacks_ret Hst Hn) as (Hs1 & _).
        apply nview with x n MRet G'; cbn [nodes pend]; try assumption; try exact I.
        * unfold net_step. cbn [nodes gst pend]. now rewrite Hn.
        * now repeat split.
        * now apply (glinks_ret (@cedge_lt _) x Hlk).
    - (* the pending internal transfer into node t *)
      destruct Hpend as [(j & k & Hhd & Hk & Hown) (n & Hn & Hen)].
      apply nview with t n (MIn inp) G; cbn [nodes pend]; try assumption.
      + unfold net_step. cbn [nodes gst pend]. now rewrite Hn.
      + now split.
      + now split.
      + destruct G as [|e G']; [discriminate|]. cbn in Hhd. inversion Hhd; subst e. exact Hown.
      + now apply gstacks_input.
      + now apply glinks_to.
    - (* the return to node j *)
      destruct Hpend as (k & Hhd & Hk).
      destruct G as [|e G']; [discriminate|]. cbn in Hhd. inversion Hhd; subst e.
      destruct (wfG_tl Hwf) as [Hwf' Hrun']. cbn [fst] in Hrun'.
      assert (Hj : j < length ns).
      { destruct Hwf as (Hko & _). destruct k; cbn in Hko; lia. }
      destruct (nth_error ns j) as [n|] eqn:Hn; [|apply nth_error_None in Hn; lia].
      destruct (gstacks_ret Hst Hn) as (Hs1 & _).
      apply nview with j n MRet G'; cbn [nodes pend]; try assumption; try exact I.
      + unfold net_step. cbn [nodes gst pend]. now rewrite Hn.
      + now split.
      + exact (ret_enabled Hnodes Hst Hk Hn).
      + now apply (glinks_ret (@cedge_lt _) j Hlk).
  Qed.

  Lemma net_step_inv N mv : Inv N -> net_enabled N mv = true -> Inv (net_step N mv).
  Proof.
    intros HI He. destruct (net_step_view _ HI He) as [x n m G1 -> _ Hn Hen _ Hwf Hrun Hst Hlk].
    apply after_step_inv; try assumption. apply HI.
  Qed.

  (** ** The composition theorem *)

  Definition net0 (ns : list node) : net := mk_net ns [] PIdle.

  Lemma inv0 ns :
    map nsig ns = sigs -> (forall n, In n ns -> ninit n) -> Inv (net0 ns).
  Proof.
    intros Hsig Hinit.
    apply inv_intro; [now apply nodes_ok0 | now apply gstacks0 | exact I | exact I | now apply glinks0].
  Qed.

  Theorem chain_inv ns N :
    map nsig ns = sigs -> (forall n, In n ns -> ninit n) ->
    net_reach (net0 ns) N -> Inv N.
  Proof.
    intros Hsig Hinit Hr. induction Hr as [|N mv Hr IH He]; [now apply inv0|].
    now apply net_step_inv.
  Qed.

  (** every node of every reachable net is reachable in its own conformant environment; so
      every theorem about the component holds of it *)
  Theorem chain_sound ns N :
    map nsig ns = sigs -> (forall n, In n ns -> ninit n) ->
    net_reach (net0 ns) N ->
    forall i n, nth_error (nodes N) i = Some n ->
      nsig n = nth i sigs (nsig n) /\ nreach n /\ viols (nms n) = [] /\ dead (ncfg n) = false.
  Proof.
    intros Hsig Hinit Hr i n Hn.
    destruct (chain_inv Hsig Hinit Hr) as ([Hs Hnd] & _).
    destruct (Hnd i n Hn) as [Hre _].
    destruct (@node_facts (nodes N) i n Hs Hn) as (Hsafe_n & _).
    split; [|split; [exact Hre | exact (Hsafe_n _ Hre)]].
    rewrite <- Hs. symmetry. apply nth_error_nth. now apply map_nth_error.
  Qed.
End ChainSound.

Print Assumptions chain_sound.

(** ** The wires carry data unchanged: what a node receives on port 0 is what its upstream
       neighbour sent to its sink, in order (one datum may be in flight) *)

Definition inflight (pd : pending) (t : nat) : list val :=
  match pd with
  | PTo k (IDn 0 (DD v)) => if k =? t then [v] else []
  | _ => []
  end.

Definition wire_ok (ns : list node) (pd : pending) : Prop :=
  forall i U D, nth_error ns i = Some U -> nth_error ns (S i) = Some D ->
    data_out 0 (ntrace U) = data_in 0 (ntrace D) ++ inflight pd (S i).

Lemma wire_gwire ns pd :
  wire_ok ns pd <->
  gwire (data_out 0) data_in (cedge (length ns)) (fun pd _ r _ => inflight pd r) ns pd.
Proof. exact (cedge_forall ns (fun c P k U D => _ = data_in k _ ++ _)). Qed.

Lemma inflight_to len pd s r k :
  cedge len s r k ->
  inflight pd r = match pd with PTo t inp => if r =? t then data_in k [EIn inp] else [] | _ => [] end.
Proof.
  intros (_ & -> & _). destruct pd as [|t [| |[|i] [|v| |]|]|]; cbn; try reflexivity;
    try (now destruct (r =? t)). now rewrite Nat.eqb_sym.
Qed.

Lemma after_step_wire (ns : list node) G1 pd pd0 x n m :
  nth_error ns x = Some n ->
  nenabled n m = true ->
  wire_ok ns pd ->
  step_from (ext_input_ok (length ns) x) pd x m ->
  let N' := after_step (mk_net ns G1 pd0) x (nstep n m) in
  wire_ok (nodes N') (pend N').
Proof.
  intros Hn He Hw Hfrom N'. unfold N'. rewrite after_step_nodes. cbn [nodes].
  apply wire_gwire. rewrite set_nth_length.
  apply (gwire_step (data_out_app 0) data_in_app (data_out_obs 0) data_in_obs (data_out_move 0)
           data_in_fin (fun s r k H => Nat.lt_neq _ _ (cedge_lt H)) (@inflight_to _))
    with (pd := pd) (extok := ext_input_ok (length ns) x);
    [exact Hn | exact He | now apply wire_gwire | exact Hfrom | |].
  - intros s k inp (-> & -> & _) Hext. destruct inp as [s0 a|s0 u|[|i] [|v| |]|s0]; try reflexivity.
    apply Nat.eqb_eq in Hext. discriminate.
  - intros fin s r k Hl (-> & -> & Hlt). unfold after_step. cbn [nodes gst]. rewrite Hl.
    destruct fin as [i|cl| | |ob|]; cbn [pend inflight]; try (now destruct (s =? x)).
    + destruct (route (length ns) x cl) eqn:Er; cbn [pend inflight].
      * destruct (Nat.eqb_spec s x) as [->|]; [|reflexivity].
        destruct cl as [j|j u|[|s'] [|v| |]]; try reflexivity.
        destruct (proj1 (route_ext _ _ _ Er) Hlt). now exists (DD v).
      * destruct (route_up _ _ _ Er) as [[->|[u ->]] _]; now destruct (s =? x).
      * destruct (route_dn _ _ _ Er) as (d & -> & _). cbn [xlate].
        destruct d as [|v| |]; try (now destruct (s =? x)). cbn. now rewrite (Nat.eqb_sym s x).
    + destruct G1 as [|[j [| |]] G1']; cbn; now destruct (s =? x).
Qed.

Section ChainWire.
  Variable sigs : list (op * mparams * (mstate -> input -> bool)).
  Hypothesis Hsafe : forall s, In s sigs -> safe_sig s.
  Hypothesis Hreg : forall i s, nth_error sigs i = Some s -> regime_ok i s.

  Lemma net_step_wire N mv :
    Inv sigs N -> net_enabled N mv = true ->
    wire_ok (nodes N) (pend N) -> wire_ok (nodes (net_step N mv)) (pend (net_step N mv)).
  Proof.
    intros HI He Hw. destruct (net_step_view Hsafe Hreg _ HI He) as [x n m G1 -> _ Hn Hen Hfrom _ _ _ _].
    now apply after_step_wire with (pd := pend N).
  Qed.

  Theorem chain_wire ns N :
    map nsig ns = sigs -> (forall n, In n ns -> ninit n) ->
    net_reach (net0 ns) N -> wire_ok (nodes N) (pend N).
  Proof.
    intros Hsig Hinit Hr. induction Hr as [|N mv Hr IH He].
    - apply wire_gwire.
      apply gwire0; [exact (data_out_obs 0) | exact data_in_obs | exact (@inflight_to _) | exact Hinit].
    - apply net_step_wire; [|exact He|exact IH].
      exact (chain_inv Hsafe Hreg Hsig Hinit Hr).
  Qed.
End ChainWire.

Print Assumptions chain_wire.
