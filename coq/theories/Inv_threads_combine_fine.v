(** * Inv_threads_combine_fine: C18 for combine! at the granularity of every shared-state access

    On its racing paths combine! touches a talkback cell once: a greeting member stores its talkback
    before it decrements [n_start].  The cell is read by the sink's talkback only, so at the finer
    granularity the member thread makes one more step that nothing else can see: the stuttering
    extension [stut_step (cb_step true n)] of ThreadsFine.v (what the driver runs for a combine script
    with free=1, compared with the crate step by step).  Every state it reaches projects to a state the
    model of Threads.v reaches; every theorem of Inv_threads_combine.v about all reachable states
    therefore holds at the finer granularity, for every schedule. *)
From CB Require Import Threads ThreadSpec ThreadsFine ThreadFacts Inv_threads_combine.

Set Implicit Arguments.

Definition cbf_reach (n : nat) (qs : nat -> list val) (fins : nat -> final) (s : stut cb_state) : Prop :=
  stut_reach (cb_step true n) (cb_init n qs fins) s.

Lemma base_reach_cb n qs fins s :
  base_reach (cb_step true n) (cb_init n qs fins) s -> cb_reach n qs fins s.
Proof. induction 1; now constructor. Qed.

(** the transfer: whatever holds of every state reachable in the model of Threads.v holds of the
    projection of every state reachable at the finer granularity *)
Theorem combine_fine_transfer n qs fins (P : cb_state -> Prop) :
  (forall s, cb_reach n qs fins s -> P s) ->
  forall s, cbf_reach n qs fins s -> P (st_base s).
Proof. intros H s Hr. apply H, base_reach_cb, (stut_refines Hr). Qed.

Theorem combine_fine_no_panic n qs fins : 1 <= n -> forall s, cbf_reach n qs fins s ->
  cbs_panicked (st_base s) = false /\ existsb is_panic (cbs_tr (st_base s)) = false.
Proof.
  intros Hn. apply (@combine_fine_transfer n qs fins (fun b => cbs_panicked b = false /\ existsb is_panic (cbs_tr b) = false)).
  intros b Hb. destruct (combine_threads_no_panic Hn Hb) as (H1 & H2 & _). now split.
Qed.

Theorem combine_fine_greet_once n qs fins : 1 <= n -> forall s, cbf_reach n qs fins s ->
  count is_begin_greet (cbs_tr (st_base s)) <= 1 /\ before_greet_ok (rev (cbs_tr (st_base s))) = true.
Proof.
  intros Hn. apply (@combine_fine_transfer n qs fins
    (fun b => count is_begin_greet (cbs_tr b) <= 1 /\ before_greet_ok (rev (cbs_tr b)) = true)).
  intros b Hb. exact (combine_threads_greet_once Hn Hb).
Qed.

Theorem combine_fine_tuples n qs fins : 1 <= n -> forall s, cbf_reach n qs fins s ->
  forall t x, In (t, TBegin (DD x)) (cbs_tr (st_base s)) ->
  exists l, x = VT l /\ length l = n /\ tuple_ok qs 0 l = true.
Proof.
  intros Hn. apply (@combine_fine_transfer n qs fins
    (fun b => forall t x, In (t, TBegin (DD x)) (cbs_tr b) ->
                   exists l, x = VT l /\ length l = n /\ tuple_ok qs 0 l = true)).
  intros b Hb. exact (combine_threads_tuples Hn Hb).
Qed.

Theorem combine_fine_one_terminal n qs fins : 1 <= n -> forall s, cbf_reach n qs fins s ->
  count is_begin_term (cbs_tr (st_base s)) <= 1 /\
  scan_term (fun _ => false) false (rev (cbs_tr (st_base s))) = [].
Proof.
  intros Hn. apply (@combine_fine_transfer n qs fins
    (fun b => count is_begin_term (cbs_tr b) <= 1 /\
                   scan_term (fun _ => false) false (rev (cbs_tr b)) = [])).
  intros b Hb. destruct (combine_threads_one_terminal Hn Hb) as (H1 & _ & H3 & _). now split.
Qed.

Theorem combine_fine_final n qs fins : 1 <= n -> forall s, cbf_reach n qs fins s ->
  (forall t, t < n -> stut_finished cb_finished s t = true) ->
  combine_check n qs fins (rev (cbs_tr (st_base s))) = [].
Proof.
  intros Hn s Hr Hf. unfold stut_finished in Hf.
  exact (combine_threads_final Hn (base_reach_cb (stut_refines Hr)) Hf).
Qed.

(** what the driver runs for a combine script with free=1 *)
Theorem combine_fine_driver_run n qs fins nth sch fuel : 1 <= n ->
  let s := run_full (stut_step (cb_step true n)) (stut_finished cb_finished) nth sch fuel
             (stut_init (cb_init n qs fins)) in
  cbs_panicked (st_base s) = false /\
  ((forall t, t < n -> stut_finished cb_finished s t = true) ->
   combine_check n qs fins (rev (cbs_tr (st_base s))) = []).
Proof.
  intros Hn s.
  assert (Hr : cbf_reach n qs fins s).
  { apply run_full_inv; [intros b t; apply srS | apply sr0]. }
  split; [exact (proj1 (combine_fine_no_panic Hn Hr)) | exact (combine_fine_final Hn Hr)].
Qed.

(** non-vacuity: a two-member run with interleaved publishing steps ends with one complete tuple *)
Example combine_fine_example :
  let qs := fun t => match t with 0 => [VN 1] | 1 => [VN 2] | _ => [] end in
  let fins := fun _ : nat => FinTerm in
  let s := run_full (stut_step (cb_step true 2)) (stut_finished cb_finished) 2 [0;1;1;0;0;1] 200
             (stut_init (cb_init 2 qs fins)) in
  (forall t, t < 2 -> stut_finished cb_finished s t = true) /\
  count is_begin_data (cbs_tr (st_base s)) = 1 /\ count is_begin_term (cbs_tr (st_base s)) = 1.
Proof. vm_compute. repeat split; intros [|[|t]] H; try reflexivity; exfalso; lia. Qed.

Print Assumptions combine_fine_transfer.
Print Assumptions combine_fine_no_panic.
Print Assumptions combine_fine_greet_once.
Print Assumptions combine_fine_tuples.
Print Assumptions combine_fine_one_terminal.
Print Assumptions combine_fine_final.
Print Assumptions combine_fine_driver_run.
