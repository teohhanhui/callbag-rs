(** * Inv_take_end: when the end of the source can arrive, take's [end] flag is unset

    /repo/src/take.rs (commit 7f77d2f) guards the source-side Terminate and
    Error arms with [if !end.swap(true) { forward to the sink }], and so does the
    sequential model [take_handle] (Ops.v, arms [IDn 0 (DE e)] and [IDn 0 DT]).
    The guard matters under threads (ThreadsTakeMerge.v) and for peers that break
    the protocol (a source that ends twice); in the conformant sequential
    environment it is invisible: whenever the environment may deliver
    Terminate/Error from upstream 0, [tk_end] is false, so the guard takes the
    forwarding branch and the end of the source always reaches the sink.

    There is no intermediate configuration with [tk_end = true] and the
    upstream still live: the state update and the [ACall (CUp 0 _)] that stops
    the upstream are settled by one [step] (Machine.v, [settle]: the [ECall]
    event reaches the monitor in the same step), so no "at rest" side condition
    is needed beyond [enabled] itself. *)
From CB Require Import Unary Inv_take.

Set Implicit Arguments.

(** the monitor has upstream 0 live: the flag is unset *)
Theorem take_live_end_unset p :
  nsinks p = 1 -> resub p = false -> no_nest p = false -> c14 p = false ->
  forall max, 1 <= max ->
  forall c : cfg (take_op max),
  reach p g_std c -> us (ms c) 0 = ULive -> tk_end (cst c) = false.
Proof.
  intros H1 H2 H3 H4 max Hmax c Hr Hus.
  pose proof (i_phase (inv_reach Hmax H1 H2 H3 H4 Hr)) as HP. rewrite Hus in HP.
  destruct (sk (ms c) 0); cbn in HP; tauto.
Qed.
Print Assumptions take_live_end_unset.

(** which is what [enabled] says when the environment may deliver the end of the source *)
Theorem take_end_unset_when_source_ends p :
  nsinks p = 1 -> resub p = false -> no_nest p = false -> c14 p = false ->
  forall max, 1 <= max ->
  forall (c : cfg (take_op max)) (m : dmsg),
  reach p g_std c ->
  (m = DT \/ exists e, m = DE e) ->
  enabled p g_std c (MIn (IDn 0 m)) = true ->
  tk_end (cst c) = false.
Proof.
  intros H1 H2 H3 H4 max Hmax c m Hr Hm He. apply (take_live_end_unset H1 H2 H3 H4 Hmax Hr).
  apply (@en_dn p _ g_std c 0 m); [|exact He]. destruct Hm as [-> | [e ->]]; discriminate.
Qed.
Print Assumptions take_end_unset_when_source_ends.

(** non-vacuity: conformant scripts of take(2) that end in configurations
    where the environment may deliver Terminate (and Error) from upstream 0 -
    at rest after the greeting, and nested inside the first data delivery while
    the sink is pulling (the upstream is in control, the stack is not empty) -
    and there the flag is indeed unset.  The last example shows why the premise
    is needed: once the second (= max-th) delivery has returned, the flag is
    set and the monitor no longer lets the upstream end. *)
Module TakeEndSanity.
  Definition p0 : mparams :=
    {| nsinks := 1; late_ok := false; pullable := false; one_pull := false;
       resub := false; no_nest := false; c14 := false |}.

  Definition at_rest : list move :=
    [MIn (ISub 0 0); MIn (IDn 0 DH); MRet; MRet].
  Example at_rest_enabled : all_enabled p0 g_std (cfg0 (take_op 2)) at_rest = true.
  Proof. vm_compute. reflexivity. Qed.
  Example at_rest_reach : reach p0 g_std (run p0 (take_op 2) at_rest).
  Proof. apply reach_run. exact at_rest_enabled. Qed.
  Example at_rest_premise :
    let c := run p0 (take_op 2) at_rest in
    stack c = [] /\
    enabled p0 g_std c (MIn (IDn 0 DT)) = true /\
    enabled p0 g_std c (MIn (IDn 0 (DE 100))) = true /\
    tk_end (cst c) = false.
  Proof. vm_compute. repeat split; reflexivity. Qed.

  Definition nested : list move :=
    [MIn (ISub 0 0); MIn (IDn 0 DH); MIn (IUp 0 UP); MIn (IDn 0 (DD (VN 1)));
     MIn (IUp 0 UP)].
  Example nested_enabled : all_enabled p0 g_std (cfg0 (take_op 2)) nested = true.
  Proof. vm_compute. reflexivity. Qed.
  Example nested_premise :
    let c := run p0 (take_op 2) nested in
    length (stack c) = 5 /\
    enabled p0 g_std c (MIn (IDn 0 DT)) = true /\
    enabled p0 g_std c (MIn (IDn 0 (DE 100))) = true /\
    tk_end (cst c) = false.
  Proof. vm_compute. repeat split; reflexivity. Qed.

  Example at_rest_instance : tk_end (cst (run p0 (take_op 2) at_rest)) = false.
  Proof.
    apply (@take_end_unset_when_source_ends p0 eq_refl eq_refl eq_refl eq_refl 2
             (le_S _ _ (le_n 1)) _ DT at_rest_reach (or_introl eq_refl)).
    vm_compute. reflexivity.
  Qed.

  (** the max-th delivery returned, take is stopping the upstream: the flag is
      set, and the upstream may not end any more *)
  Definition stopping : list move :=
    [MIn (ISub 0 0); MIn (IDn 0 DH); MRet; MRet;
     MIn (IDn 0 (DD (VN 1))); MRet; MIn (IDn 0 (DD (VN 2))); MRet].
  Example stopping_enabled : all_enabled p0 g_std (cfg0 (take_op 2)) stopping = true.
  Proof. vm_compute. reflexivity. Qed.
  Example stopping_end_set :
    let c := run p0 (take_op 2) stopping in
    tk_end (cst c) = true /\ us (ms c) 0 = UStopped /\
    enabled p0 g_std c (MIn (IDn 0 DT)) = false /\
    enabled p0 g_std c (MIn (IDn 0 (DE 100))) = false.
  Proof. vm_compute. repeat split; reflexivity. Qed.
End TakeEndSanity.
