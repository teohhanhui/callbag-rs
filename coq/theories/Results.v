(** * Results: per-component bundles of readable, monitor-free protocol
      statements, derived from the invariant theorems (Inv_*.v) through the
      generic bridge MonitorSound.v.  Properties/Cnn.v only restates these. *)

From CB Require Import ProofLib Spec MonitorSound.
From CB Require Import Inv_relay Inv_take Inv_from_iter Inv_for_each
  Inv_interval Inv_merge Inv_concat Inv_combine Inv_share Inv_flatten.

Set Implicit Arguments.

(** ** Parameter regimes (which sub-relation of the conformant environment) *)
Definition std (p : mparams) : Prop :=
  nsinks p = 1 /\ resub p = false /\ no_nest p = false /\ c14 p = false /\ late_ok p = false.
(** merge: members may greet late *)
Definition std_late (p : mparams) : Prop :=
  nsinks p = 1 /\ resub p = false /\ no_nest p = false /\ c14 p = false /\ late_ok p = true.
(** from_iter: the monitor also rejects nested deliveries (C15) *)
Definition std_nonest (p : mparams) : Prop :=
  nsinks p = 1 /\ resub p = false /\ no_nest p = true /\ c14 p = false.
(** share: any number of sinks, the upstream may be re-subscribed *)
Definition share_regime (p : mparams) : Prop :=
  resub p = true /\ no_nest p = false /\ c14 p = false /\ late_ok p = false.
(** C14: pullable upstreams, one Pull per message received *)
Definition pull_regime (p : mparams) : Prop :=
  nsinks p = 1 /\ resub p = false /\ no_nest p = false /\ c14 p = true /\ pullable p = true
  /\ one_pull p = true.

(** ** What "obeys the protocol" means for a trace, without any monitor *)
Record protocol_ok (tr : list event) : Prop := {
  pk_c17 : no_panic tr;
  pk_c01 : forall s, greet_once s tr /\ greet_first s tr;
  pk_c02 : forall s, term_final s tr;
  pk_c03 : forall s, dispose_respected s tr;
  pk_c04 : forall i, sub_once i tr /\ talkback_only_live i tr /\ stop_once i tr
                     /\ no_pull_outside i tr;
}.

Lemma protocol_of_safe p o g (c : cfg o) :
  resub p = false -> reach p g c -> viols (ms c) = [] -> protocol_ok (trace c).
Proof.
  intros Hr Hc Hv. destruct (reach_sound Hr Hc Hv) as (H17 & Hs & Hi).
  constructor; [exact H17| | | |exact Hi]; intros s; destruct (Hs s) as (A & B & C & D); auto.
Qed.

(** the sink-side half, which does not need [resub p = false] (share) *)
Record sink_side_ok (tr : list event) : Prop := {
  sk_c17 : no_panic tr;
  sk_c01 : forall s, greet_once s tr /\ greet_first s tr;
  sk_c02 : forall s, term_final s tr;
  sk_c03 : forall s, dispose_respected s tr;
}.

Lemma sink_side_of_safe p o g (c : cfg o) :
  reach p g c -> viols (ms c) = [] -> sink_side_ok (trace c).
Proof.
  intros Hc Hv. rewrite (reach_ms_trace Hc) in Hv.
  constructor.
  - now apply sound_C17 with p.
  - intros s. now apply sound_C01 with p.
  - intros s. now apply sound_C02 with p.
  - intros s. now apply sound_C03 with p.
Qed.

Ltac unstd H := destruct H as (?Hn & ?Hr & ?Hx & ?Hc & ?Hl).

Theorem map_protocol (f : val -> val) p (c : cfg (map_op f)) :
  std p -> reach p g_std c -> protocol_ok (trace c).
Proof.
  intros H Hc. unstd H. eapply protocol_of_safe; eauto.
  now destruct (@map_safe f p Hn Hr Hx Hc0 c Hc).
Qed.

Theorem filter_protocol (cond : val -> bool) p (c : cfg (filter_op cond)) :
  std p -> reach p g_std c -> protocol_ok (trace c).
Proof.
  intros H Hc. unstd H. eapply protocol_of_safe; eauto.
  now destruct (@filter_safe cond p Hn Hr Hx Hc0 c Hc).
Qed.

Theorem scan_protocol (r : val -> val -> val) (seed : val) p (c : cfg (scan_op r seed)) :
  std p -> reach p g_std c -> protocol_ok (trace c).
Proof.
  intros H Hc. unstd H. eapply protocol_of_safe; eauto.
  now destruct (@scan_safe r seed p Hn Hr Hx Hc0 c Hc).
Qed.

Theorem skip_protocol (max : nat) p (c : cfg (skip_op max)) :
  std p -> reach p g_std c -> protocol_ok (trace c).
Proof.
  intros H Hc. unstd H. eapply protocol_of_safe; eauto.
  now destruct (@skip_safe max p Hn Hr Hx Hc0 c Hc).
Qed.

Theorem take_protocol (max : nat) p (c : cfg (take_op max)) :
  1 <= max -> std p -> reach p g_std c -> protocol_ok (trace c).
Proof.
  intros Hm H Hc. unstd H. eapply protocol_of_safe; eauto.
  now destruct (@take_safe p Hn Hr Hx Hc0 max Hm c Hc).
Qed.

Theorem from_iter_protocol (it : nat -> option val) p (c : cfg (from_iter_op it)) :
  std_nonest p -> reach p g_std c -> protocol_ok (trace c).
Proof.
  intros (Hn & Hr & Hx & Hc0) Hc. eapply protocol_of_safe; eauto.
  now destruct (@from_iter_safe it p Hn Hr Hx Hc0 c Hc).
Qed.

Theorem for_each_protocol p (c : cfg for_each_op) :
  std p -> reach p g_std c -> protocol_ok (trace c).
Proof.
  intros H Hc. unstd H. eapply protocol_of_safe; eauto.
  now destruct (@for_each_safe p Hn Hr Hx Hc0 c Hc).
Qed.

Theorem interval_protocol p (c : cfg interval_op) :
  std p -> reach p (fun _ _ => true) c -> protocol_ok (trace c).
Proof.
  intros H Hc. unstd H. eapply protocol_of_safe; eauto.
  now destruct (@interval_safe p Hn Hr Hx Hc0 c Hc).
Qed.

Theorem merge_protocol (n : nat) p (c : cfg (merge_op n)) :
  1 <= n -> std_late p -> reach p g_std c -> protocol_ok (trace c).
Proof.
  intros Hm H Hc. unstd H. eapply protocol_of_safe; eauto.
  now destruct (@merge_safe p Hn Hr Hx Hc0 Hl n Hm c Hc).
Qed.

Theorem concat_protocol (n : nat) p (c : cfg (concat_op n)) :
  std p -> reach p g_std c -> protocol_ok (trace c).
Proof.
  intros H Hc. unstd H. eapply protocol_of_safe; eauto.
  now destruct (@concat_safe n p Hn Hr Hx Hc0 Hl c Hc).
Qed.

Theorem flatten_protocol p (c : cfg flatten_op) :
  std p -> reach p g_flatten c -> protocol_ok (trace c).
Proof.
  intros H Hc. unstd H. eapply protocol_of_safe; eauto.
  now destruct (@flatten_safe p Hn Hr Hx Hc0 Hl c Hc).
Qed.

Theorem share_protocol p (c : cfg share_op) :
  share_regime p -> reach p g_share c -> sink_side_ok (trace c).
Proof.
  intros (Hr & Hx & Hc0 & Hl) Hc. eapply sink_side_of_safe; eauto.
  now destruct (@share_safe p Hr Hx Hc0 Hl c Hc).
Qed.

(** ** combine: only the four recorded kinds ever occur *)
Section CombineKinds.
  Variable n : nat.
  Variable p : mparams.
  Variable c : cfg (combine_op n).
  Hypothesis Hn : 1 <= n.
  Hypothesis Hs : std p.
  Hypothesis Hc : reach p g_std c.

  Lemma combine_known : dead c = false /\ Forall known_combine (viols (ms c)).
  Proof. unstd Hs. exact (@combine_safe n p Hn Hn0 Hr Hx Hc0 Hl c Hc). Qed.

  Ltac notin := intros Hin; destruct combine_known as [_ Hf]; rewrite Forall_forall in Hf;
                exact (Hf _ Hin).

  Lemma combine_c01 :
    forall s, ~ In (VGreetTwice s) (viols (ms c)) /\ ~ In (VBeforeGreet s) (viols (ms c)).
  Proof. intros s; split; notin. Qed.
  Lemma combine_c02 : forall s, ~ In (VAfterFinish s) (viols (ms c)).
  Proof. intros s; notin. Qed.
  Lemma combine_c03 : forall s, ~ In (VAfterDispose s) (viols (ms c)).
  Proof. intros s; notin. Qed.
  Lemma combine_c04 :
    forall i, ~ In (VSubTwice i) (viols (ms c)) /\ ~ In (VSubAfterOver i) (viols (ms c))
              /\ ~ In (VUpEarly i) (viols (ms c)) /\ ~ In (VStopAfterStop i) (viols (ms c))
              /\ ~ In (VOrphan i) (viols (ms c)).
  Proof. intros i; repeat split; notin. Qed.
  Lemma combine_c17 : dead c = false /\ ~ In VPanic (viols (ms c)).
  Proof. split; [exact (proj1 combine_known) | notin]. Qed.
End CombineKinds.

(** ** C05: what [viols = []] says about errors.
    The monitor (Machine.v) records [VErrLost s] when a sink that was live when an upstream
    failed has not received that Error by the next quiescent point, or is sent Terminate while
    the Error is still due; and [VErrChanged s] when a sink is sent an Error whose id no peer
    has sent.  Neither is ever recorded. *)
Definition errors_ok (m : mstate) : Prop :=
  forall s, ~ In (VErrLost s) (viols m) /\ ~ In (VErrChanged s) (viols m).

Lemma errors_ok_nil m : viols m = [] -> errors_ok m.
Proof. intros E s. rewrite E. split; intros []. Qed.

(** combine swallows errors (known finding KF1): the witness script of known_findings.json *)
Definition kf1_script : list move :=
  [MIn (ISub 0 0); MIn (IDn 0 DH); MRet; MIn (IDn 1 DH); MRet; MRet;
   MIn (IDn 0 (DD (VN 1))); MIn (IDn 1 (DD (VN 2))); MRet;
   MIn (IDn 0 (DE 100)); MIn (IDn 1 DT); MRet].
Definition p_std : mparams :=
  {| nsinks := 1; late_ok := false; pullable := false; one_pull := false; resub := false;
     no_nest := false; c14 := false |}.

Lemma combine_c05_refuted :
  all_enabled p_std g_std (cfg0 (combine_op 2)) kf1_script = true
  /\ In (VErrLost 0) (viols (ms (run p_std (combine_op 2) kf1_script))).
Proof. split; [vm_compute; reflexivity | vm_compute; auto]. Qed.
