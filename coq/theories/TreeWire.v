(** * TreeWire: along every edge of an operator tree, what the parent receives on the wired port is
      what the child sent to its sink, in order (one datum may be in flight). *)

From CB Require Import ProofLib Spec Chain Tree.

Set Implicit Arguments.

Definition tinflight (pd : pending) (P k : nat) : list val :=
  match pd with
  | PTo t (IDn k' (DD v)) => if (t =? P) && (k' =? k) then [v] else []
  | _ => []
  end.

Section TreeWire.
  Variable w : wiring.

  Definition twire_ok (ns : list node) (pd : pending) : Prop :=
    forall c P k U D, par w c = Some (P, k) -> nth_error ns c = Some U -> nth_error ns P = Some D ->
      data_out 0 (ntrace U) = data_in k (ntrace D) ++ tinflight pd P k.

  Variable len : nat.
  Hypothesis Hw : wiring_ok w len.

  Lemma tinflight_to pd s r k :
    par w s = Some (r, k) ->
    tinflight pd r k
    = match pd with PTo t inp => if r =? t then data_in k [EIn inp] else [] | _ => [] end.
  Proof.
    intros _. destruct pd as [|t [| |i [|v| |]|]|]; cbn; try reflexivity;
      try (now destruct (r =? t)). rewrite (Nat.eqb_sym t r), (Nat.eqb_sym i k).
    now destruct (r =? t), (k =? i).
  Qed.

  Lemma tafter_step_wire (ns : list node) G1 pd pd0 x n m :
    nth_error ns x = Some n ->
    nenabled n m = true ->
    twire_ok ns pd ->
    step_from (text_input_ok w x) pd x m ->
    let N' := tafter_step w (mk_tnet ns G1 pd0) x (nstep n m) in
    twire_ok (tnodes N') (tpend N').
  Proof.
    intros Hn He Hwr Hfrom N'. unfold N'. rewrite tafter_step_nodes. cbn [tnodes].
    apply (gwire_step (data_out_app 0) data_in_app (data_out_obs 0) data_in_obs (data_out_move 0)
             data_in_fin (R := fun c P k => par w c = Some (P, k))
             (fun s r k H => Nat.lt_neq _ _ (proj1 (par_lt Hw H)))
             (infl := fun pd _ P k => tinflight pd P k) tinflight_to)
      with (pd := pd) (extok := text_input_ok w x); [exact Hn | exact He | exact Hwr | exact Hfrom | |].
    - intros s k inp Hp Hext. apply (par_kid Hw) in Hp.
      destruct inp as [s0 a|s0 u|i [|v| |]|s0]; try reflexivity. cbn.
      destruct (Nat.eqb_spec k i) as [->|]; [|reflexivity]. cbn in Hext. now rewrite Hp in Hext.
    - intros fin s r k Hl Hp. unfold tafter_step. cbn [tnodes tgst]. rewrite Hl.
      destruct fin as [i|cl| | |ob|]; cbn [tpend tinflight]; try (now destruct (s =? x)).
      + destruct cl as [j|j u|[|s'] d]; cbn [troute].
        { destruct (kid w x j); cbn [tpend tinflight txlate]; now destruct (s =? x). }
        { destruct (kid w x j); cbn [tpend tinflight txlate]; now destruct (s =? x). }
        2: { now destruct d, (s =? x). }
        destruct (par w x) as [[P0 k0]|] eqn:Ep; cbn [tpend tinflight txlate towner]; rewrite ?Ep.
        * destruct d as [|v| |]; try (now destruct (s =? x)). cbn.
          destruct (Nat.eqb_spec s x) as [->|Hsx].
          -- rewrite Hp in Ep. injection Ep as <- <-. now rewrite !Nat.eqb_refl.
          -- destruct (Nat.eqb_spec P0 r) as [->|]; [|reflexivity].
             destruct (Nat.eqb_spec k0 k) as [->|]; [|reflexivity].
             exfalso. apply Hsx. apply (par_kid Hw) in Hp, Ep. congruence.
        * destruct (Nat.eqb_spec s x) as [->|]; [congruence|reflexivity].
      + destruct G1 as [|[j [|k1|]] G1']; cbn; now destruct (s =? x).
  Qed.
End TreeWire.

Section TreeWireSound.
  Variable w : wiring.
  Variable sigs : list sig3.
  Hypothesis Hw : wiring_ok w (length sigs).
  Hypothesis Hsafe : forall s, In s sigs -> safe_sig s.
  Hypothesis Hreg : forall s, In s sigs -> tregime_ok s.
  Hypothesis Hsync : forall c P k sc sp,
    par w c = Some (P, k) -> nth_error sigs c = Some sc -> nth_error sigs P = Some sp ->
    late_ok (snd (fst sp)) = true \/ greets_sync_sig sc.

  Lemma tnet_step_wire N mv :
    TInv w sigs N -> tnet_enabled w N mv = true ->
    twire_ok w (tnodes N) (tpend N) -> twire_ok w (tnodes (tnet_step w N mv)) (tpend (tnet_step w N mv)).
  Proof.
    intros HI He Hwr.
    destruct (tnet_step_view Hw Hsafe Hreg Hsync _ HI He) as [x n m G1 -> Hn Hen Hfrom _ _ _ _].
    now apply (tafter_step_wire Hw) with (pd := tpend N).
  Qed.

  Theorem tree_wire ns N :
    map nsig ns = sigs -> (forall n, In n ns -> ninit n) ->
    tnet_reach w (tnet0 ns) N -> twire_ok w (tnodes N) (tpend N).
  Proof.
    intros Hsig Hinit Hr. induction Hr as [|N mv Hr IH He].
    - apply (gwire0 (data_out 0) data_in (data_out_obs 0) data_in_obs
               (fun c P k => par w c = Some (P, k)) (fun pd _ P k => tinflight pd P k));
        [exact (tinflight_to w) | exact Hinit].
    - apply tnet_step_wire; [|exact He|exact IH].
      exact (tree_inv Hw Hsafe Hreg Hsync Hsig Hinit Hr).
  Qed.
End TreeWireSound.

Print Assumptions tree_wire.
