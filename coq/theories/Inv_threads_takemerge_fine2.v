(** * Inv_threads_takemerge_fine2: take ends its upstream, for take(max) behind merge! at the
      granularity of every shared-state access (ThreadsTakeMergeFine.v), over ALL schedules.

    [takemerge_fine_members_stopped]: once max data were delivered and every member is finished (in a
    run in which no delivery began before the greeting, KF4), every member was told to stop exactly once
    or had ended by itself (its queue is empty, its ending is Terminate or Error, it was never stopped).

    Invariants (each preserved by [xf_step], any thread, on top of those of Inv_threads_takemerge_fine.v):
    - [Mem]  per thread, by program counter: on the greeting / delivering / sink-side sweeping pcs an
             unstopped member's cell is set; on the Terminate / Error arms the queue is empty and the
             ending is the arm's; at XfAtEndSwapT n <= end_count; at XfAtSweepE / XfAtEndSwapE [ended]
             is set; a finished, never stopped member (no panic) has an empty queue, and if it never
             ends by itself its cell is still set;
    - [Cnt]  end_count <= number of members past the counter whose ending is Terminate;
    - [Why]  ([why_end]) take's [end] is set => [ended] \/ n <= end_count \/ a thread at
             XfAtTakeTbLoad / XfAtMgEnded \/ a panic;
    - [Dek]  the Dekker invariant for BOTH kinds of sweepers: [ended] and the cell of a member j that
             never ends by itself is set => j is at XfAtEndedLoad / XfAtSelfSwap (it will read [ended]
             and dispose itself) or a sweeper that has not yet passed j is pending (sink side:
             XfAtMgEnded / XfAtSweepT i, i <= j; a failing member t <> j: XfAtEndedStore /
             XfAtSweepE _ i, i <= j). *)

From CB Require Import Threads ThreadSpec ThreadsFine ThreadsTakeMergeFine ThreadFacts Inv_threads_merge
  Inv_threads_takemerge_fine.
From Coq Require Import List Arith Lia Bool.
Import ListNotations.

Set Implicit Arguments.

#[local] Arguments count : simpl never.

Section Proofs2.
  Variable max n : nat.
  Variable qs : nat -> list val.
  Variable fins : nat -> final.

  Definition Memc (ec : nat) (en pan : bool) (j : nat) (cl sp : bool) (thr : xf_thread) : Prop :=
    xf_fin thr = fins j /\
    match xf_pcv thr with
    | XfAtPublish => True
    | XfAtEndedLoad | XfAtSelfSwap | XfAtStartInc | XfAtTakeTbStore | XfInGreet | XfAtTaken _
    | XfInData _ | XfAtEndSwap | XfAtTakeTbLoad | XfAtMgEnded | XfAtSweepT _ | XfInTerm =>
        sp = false -> cl = true
    | XfAtClear | XfAtEndInc | XfInTermAll => xf_q thr = [] /\ xf_fin thr = FinTerm
    | XfAtEndSwapT => xf_q thr = [] /\ xf_fin thr = FinTerm /\ n <= ec
    | XfAtEndedStore e => xf_q thr = [] /\ xf_fin thr = FinErr e
    | XfAtSweepE e _ | XfAtEndSwapE e => xf_q thr = [] /\ xf_fin thr = FinErr e /\ en = true
    | XfInErr => xf_q thr = [] /\ xf_fin thr <> FinNone
    | XfFinished =>
        j < n -> sp = false -> pan = false ->
        xf_q thr = [] /\ (xf_fin thr = FinNone -> cl = true)
    end.

  Definition Mem (s : xf_state) : Prop :=
    forall j, Memc (xfs_endc s) (xfs_ended s) (panicked s) j (xfs_cell s j) (xfs_stopped s j) (xfs_th s j).

  Lemma Mem_init : Mem (xf_init n qs fins).
  Proof.
    intros j. unfold Memc. cbn -[Nat.ltb]. split; [reflexivity|].
    destruct (Nat.ltb_spec j n); auto. intros; lia.
  Qed.

  Lemma Memc_other ec en pan j cl sp thr ec' en' pan' cl' sp' :
    Memc ec en pan j cl sp thr -> ec <= ec' -> (en = true -> en' = true) -> (pan' = false -> pan = false) ->
    (sp' = false -> sp = false /\ cl' = cl) -> Memc ec' en' pan' j cl' sp' thr.
  Proof.
    unfold Memc. intros (Hf & H) Hec Hen Hp Hs. split; [exact Hf|].
    destruct (xf_pcv thr); try exact H; try (intros E; destruct (Hs E) as [E' ->]; auto).
    - destruct H as (? & ? & ?). repeat split; auto; lia.
    - destruct H as (? & ? & ?). auto.
    - destruct H as (? & ? & ?). auto.
    - intros Hj E Hpan. destruct (Hs E) as [E' ->]. auto.
  Qed.

  Lemma Memc_nxt ec en pan j cl sp q f :
    f = fins j -> (sp = false -> cl = true) -> Memc ec en pan j cl sp (nxt sp q f).
  Proof.
    intros Hf Hc. unfold Memc, nxt. destruct sp; cbn; [split; [exact Hf|intros; discriminate]|].
    destruct q; cbn; [|now split]. destruct f; cbn; (split; [exact Hf|]); auto.
  Qed.

  Lemma Mem_step s t : Mem s -> Mem (xf_step max n s t).
  Proof.
    intros HM. unfold Mem, panicked in *. xf_open s t; try exact HM; guards.
    all: intros i; pose proof (HM i) as Hi; pw i t.
    all: try solve [ eapply Memc_other; [exact Hi | lia | auto | cbn [existsb is_panic snd orb]; first [intros E; discriminate E | auto] | ];
                     first [ intros E; split; [exact E|reflexivity]
                           | pw i j; intros E; first [discriminate E | split; [exact E|reflexivity]] ] ].
    all: clear Hi; destruct (HM t) as (Hf & Ht); rewrite Hth in Hf, Ht; cbn [xf_fin xf_pcv xf_q] in Hf, Ht.
    all: try solve [ apply Memc_nxt; [exact Hf | first [exact Ht | intros E; discriminate E]] ].
    all: split; [exact Hf|]; cbn [xf_fin xf_pcv xf_q]; try exact Ht.
    all: try (intros _; reflexivity).
    (* the sink-side sweep arrives at the sweeping member's own cell *)
    all: try (pw t j; intros E; [discriminate E | exact (Ht E)]).
    all: cbn [existsb is_panic snd orb]; try (intros _ _ E); clear Hf; clauses.
  Qed.

  (** *** Cnt: end_count <= number of members past the counter whose ending is Terminate *)
  Definition xfpc_done (p : xf_pc) : bool :=
    match p with XfAtEndSwapT | XfInTermAll | XfFinished => true | _ => false end.
  Definition xfpassedc (thr : xf_thread) : bool := xfpc_done (xf_pcv thr) && fin_term (xf_fin thr).
  Definition xfpassed (th : nat -> xf_thread) (j : nat) : bool := xfpassedc (th j).
  Definition Cnt (s : xf_state) : Prop := xfs_endc s <= cnt (xfpassed (xfs_th s)) n.

  Lemma Cnt_init : Cnt (xf_init n qs fins).
  Proof. unfold Cnt. cbn. lia. Qed.

  Lemma Cnt_upd th t thr' ec ec' :
    t < n -> ec <= cnt (xfpassed th) n -> ec' + b2n (xfpassedc (th t)) <= ec + b2n (xfpassedc thr') ->
    ec' <= cnt (xfpassed (upd th t thr')) n.
  Proof.
    intros Ht Hc H. rewrite cnt_eq in *. pose proof (@cnt_change (xfpassed th) (xfpassed (upd th t thr')) n t Ht) as C.
    unfold xfpassed in *. rewrite upd_same in C. specialize (C ltac:(intros j _ ne; now rewrite upd_other)). lia.
  Qed.

  Lemma Cnt_step s t : Pub n s -> Mem s -> Cnt s -> Cnt (xf_step max n s t).
  Proof.
    intros HP HM HC. pose proof (proj2 (HP t)) as Ho. destruct (HM t) as (_ & Ht). unfold Cnt in *.
    xf_open s t; try exact HC; guards.
    all: assert (Htn : t < n) by (destruct (Nat.lt_ge_cases t n) as [|Hge]; [assumption|discriminate (Ho Hge)]).
    all: eapply Cnt_upd; [exact Htn | exact HC |]; rewrite Hth; unfold xfpassedc; cbn [xf_pcv xf_fin xfpc_done andb b2n].
    all: try lia.
    (* the member counts itself: it completes *)
    all: destruct Ht as (_ & ->); cbn; lia.
  Qed.

  (** *** Why: why take's [end] flag is set.  [is_claim]: the part of [is_holder] before merge's
      [ended] is stored *)
  Definition is_claim (p : xf_pc) : bool :=
    match p with XfAtTakeTbLoad | XfAtMgEnded => true | _ => false end.
  Definition Why (s : xf_state) : Prop :=
    why_end n (xfs_tend s) (xfs_ended s) (xfs_endc s) (panicked s) (fun t => is_claim (pcof s t)).

  Lemma Why_init : Why (xf_init n qs fins).
  Proof. intros H. discriminate H. Qed.

  Lemma Why_step s t : Mem s -> Why s -> Why (xf_step max n s t).
  Proof.
    intros HM HW. destruct (HM t) as (_ & Ht). unfold Why, panicked in *.
    xf_open s t; try exact HW; guards.
    all: try solve [ eapply why_end_keep with (t := t); [upd_others t | exact HW | auto | lia | |];
           [ cbn [existsb is_panic snd orb]; auto
           | cbn beta; rewrite ?upd_same, Hth; cbn [xf_pcv is_claim]; intros Hh;
             first [discriminate Hh | left; reflexivity | right; left; reflexivity | right; right; reflexivity] ] ].
    - (* the holder of the last ticket sets the flag: it reads take's talkback cell next *)
      intros _. right. right. left. exists t. now rewrite upd_same.
    - (* the last member's completion *)
      intros _. right. left. apply Ht.
    - (* a failing member *)
      intros _. left. apply Ht.
  Qed.

  (** *** Dek: the Dekker invariant for both kinds of sweepers, for a member that never ends by
      itself: it publishes its talkback and then reads [ended]; a sweeper sets [ended] and then reads
      the cells.  [Inv_threads_fine.FSW] states the same argument from the sweeper's side (a cell the
      sweeper has passed belongs to a member that is stopped or harmless); here it is stated from the
      member's side (a cell still set while [ended] is set has its owner about to dispose itself, or
      a sweeper that has not passed it yet), which is the form [takemerge_fine_members_stopped] uses *)
  Definition selfpc (p : xf_pc) : bool :=
    match p with XfAtEndedLoad | XfAtSelfSwap => true | _ => false end.

  Definition pending (p : xf_pc) (t j : nat) : Prop :=
    match p with
    | XfAtMgEnded => True
    | XfAtSweepT i => i <= j
    | XfAtEndedStore _ => t <> j
    | XfAtSweepE _ i => i <= j /\ t <> j
    | _ => False
    end.

  Definition Dekc (en : bool) (cell : nat -> bool) (pcs : nat -> xf_pc) : Prop :=
    en = true -> forall j, j < n -> fins j = FinNone -> cell j = true ->
    selfpc (pcs j) = true \/ exists t, pending (pcs t) t j.

  Definition Dek (s : xf_state) : Prop := Dekc (xfs_ended s) (xfs_cell s) (pcof s).

  Lemma Dek_init : Dek (xf_init n qs fins).
  Proof. intros H. discriminate H. Qed.

  Lemma Dekc_frame cell pcs cell' pcs' t :
    Dekc true cell pcs -> (forall t0, t0 <> t -> pcs' t0 = pcs t0) ->
    (forall j, cell' j = true -> cell j = true \/ (j = t /\ selfpc (pcs' t) = true)) ->
    (selfpc (pcs t) = true -> cell' t = true -> selfpc (pcs' t) = true) ->
    (forall j, j < n -> pending (pcs t) t j -> cell' j = true -> pending (pcs' t) t j) ->
    Dekc true cell' pcs'.
  Proof.
    intros HD Ho Hc Hs Hw _ j Hj Hfj Hcj.
    destruct (Hc j Hcj) as [Hc0|[-> Hsp]]; [|left; exact Hsp].
    destruct (HD eq_refl j Hj Hfj Hc0) as [Hsj|[t0 Ht0]].
    - left. destruct (Nat.eq_dec j t) as [->|ne]; [apply Hs; auto | rewrite (Ho j ne); exact Hsj].
    - right. destruct (Nat.eq_dec t0 t) as [->|ne];
        [exists t; apply Hw; auto | exists t0; rewrite (Ho t0 ne); exact Ht0].
  Qed.

  Lemma nxt_self sp q f : selfpc (xf_pcv (nxt sp q f)) = false.
  Proof. apply nxt_pcs; reflexivity. Qed.

  Lemma Dek_step s t : Mem s -> Dek s -> Dek (xf_step max n s t).
  Proof.
    intros HM HD. destruct (HM t) as (Hf & Ht). unfold Dek in *.
    destruct s as [st ec en cell stp tk te ttb th tr]. destruct en.
    - xf_opened t; try exact HD; guards.
      all: eapply Dekc_frame with (t := t); [exact HD | upd_others t | | |];
        cbn beta; rewrite ?upd_same, ?Hth, ?nxt_self; cbn [xf_pcv selfpc pending].
      (* the cells: only the publishing member fills one *)
      all: try (intros i Hc; left; exact Hc).
      all: try (intros i; match goal with |- upd _ ?x _ i = true -> _ \/ _ =>
             pw i x; intros Hc; [first [discriminate Hc | right; split; reflexivity] | left; exact Hc] end).
      (* a member that reads [ended] after publishing: it stays, or it has emptied its own cell *)
      all: try (intros E1 E2; first [discriminate E1 | reflexivity | rewrite ?upd_same in E2; congruence]).
      (* a sweeper moves on from a cell that is empty now *)
      all: intros i Hi Hp Hc; try contradiction;
        try (assert (i <> j) by (intros ->; rewrite ?upd_same in Hc; congruence)); try lia.
      (* the failing member's sweep passes over its own cell and ends *)
      all: match goal with H : context [if ?a =? ?b then _ else _] |- _ => destruct (Nat.eqb_spec a b) end; lia.
    - (* [ended] was not set *)
      xf_opened t; try exact HD; guards; try (intros E; discriminate E).
      all: intros _ i Hi Hn Hc; right; exists t; rewrite upd_same; cbn [xf_pcv pending]; try lia.
      (* a failing member is not one that never ends by itself *)
      all: assert (t <> i) by (intros ->; destruct Ht; congruence).
      all: try match goal with H : context [if ?a =? ?b then _ else _] |- _ => destruct (Nat.eqb_spec a b) end; lia.
  Qed.

  Definition Inv2 (s : xf_state) : Prop := Inv max n s /\ Mem s /\ Cnt s /\ Why s /\ Dek s.

  Lemma reach_inv2 s : xf_reach max n qs fins s -> Inv2 s.
  Proof.
    induction 1 as [|s t _ (HI & HM & HC & HW & HD)].
    - split; [apply Inv_init|]. split; [apply Mem_init|]. split; [apply Cnt_init|].
      split; [apply Why_init | apply Dek_init].
    - pose proof (proj1 HI) as HP.
      split; [now apply Inv_step|]. split; [now apply Mem_step|]. split; [now apply Cnt_step|].
      split; [now apply Why_step | now apply Dek_step].
  Qed.

  Theorem takemerge_fine_members_stopped s : 1 <= max -> xf_reach max n qs fins s ->
    (forall t, t < n -> xf_finished s t = true) -> before_greet_ok (rev (xfs_tr s)) = true ->
    max <= count is_begin_data (xfs_tr s) ->
    forall j, j < n -> count (is_up_term_of j) (xfs_tr s) = 1
                       \/ (xf_q (xfs_th s j) = [] /\ fins j <> FinNone /\ xfs_stopped s j = false).
  Proof.
    intros Hpos Hr Hfin Hbg Hmax j Hj. destruct (reach_inv2 Hr) as (HI & HM & HC & HW & HD).
    pose proof (quiet_tend Hpos HI Hfin Hmax) as Hte.
    destruct HI as (HP & ([_ _ Hup] & _) & _ & _ & HG).
    pose proof (finished_pc HP Hfin) as Hpc. pose proof (c_panic HG Hbg) as Hnp.
    rewrite Hup. destruct (xfs_stopped s j) eqn:Hst; [left; reflexivity|]. right.
    destruct (HM j) as (Hf & HL). unfold pcof in Hpc. rewrite Hpc, Hst, Hf in HL.
    destruct (HL Hj eq_refl Hnp) as (Hq & Hc).
    split; [exact Hq|]. split; [|reflexivity]. intros Hn. specialize (Hc Hn).
    destruct (HW Hte) as [He|[He|[[t0 He]|He]]].
    - destruct (HD He j Hj Hn Hc) as [Hs|[t0 Hs]]; unfold pcof in Hs; rewrite Hpc in Hs; [discriminate Hs|exact Hs].
    - assert (Hp : xfpassed (xfs_th s) j = false).
      { unfold xfpassed, xfpassedc. rewrite Hf, Hn. apply andb_false_r. }
      pose proof (cnt_lt _ Hj Hp). unfold Cnt in HC. rewrite cnt_eq in HC. lia.
    - cbn beta in He. unfold pcof in He. rewrite Hpc in He. discriminate He.
    - congruence.
  Qed.
End Proofs2.

Print Assumptions takemerge_fine_members_stopped.
Check takemerge_fine_members_stopped.

(** the two halves together at this granularity: with enough fuel every run ends, and unless a delivery
    overtook the greeting (KF4) the finished trace passes the whole check *)
Theorem takemerge_fine_always_passes max n qs fins sch fuel :
  1 <= max -> fuel >= takemerge_fine_fuel n qs n ->
  let s := run_full (xf_step max n) xf_finished n sch fuel (xf_init n qs fins) in
  before_greet_ok (rev (xfs_tr s)) = true -> takemerge_check max (rev (xfs_tr s)) = [].
Proof.
  intros Hm Hf s Hb. apply (@takemerge_fine_driver_final max n qs fins n sch fuel Hm); [|exact Hb].
  exact (@takemerge_fine_run_full_total max n qs fins n sch fuel Hf).
Qed.
Print Assumptions takemerge_fine_always_passes.
