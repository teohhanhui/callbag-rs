(** * Inv_threads_total: the thread models always run to the end (liveness half of C18/C19)

    [run_full step finished nthreads sch fuel s0] (end of Threads.v) runs an arbitrary schedule prefix
    and then the remaining threads to completion one at a time, in index order.  The property theorems
    of Inv_threads_*.v say "IF every thread is finished THEN the check is empty".  Here: the premise
    always becomes true, for every schedule, all queues, all endings, any number of failing members,
    as soon as the fuel is at least an explicit bound (linear in the queue lengths).

    Method.  Section [Total]: a per-thread measure [mu s t] that strictly decreases when the unfinished
    thread [t] is stepped, is bounded by [bnd t] in every state satisfying an invariant [P] preserved
    by every step, while a step of [t] does not change [finished] of the others.  Then
    [drain_threads] with fuel >= the sum of the bounds finishes every thread.
    Section [Ranked]: in every model [mu s t] is a weight of the remaining queue of [t] plus a rank of
    its pc, and a step of [t] leaves the other threads alone and replaces [t] by a thread of smaller
    measure whose queue is no longer ([shape]).  Per model: the rank table, and [X_step_shape] by
    following the branches of [X_step] down to [X_set] (lemma [shape_set]) and [X_next]
    ([X_next_shape]: what comes next has a rank below every pc that calls it, or one item less).
    The rank tables follow the program backwards (the pc before [Finished] has rank 1), so every step
    inside the handling of one item lowers the rank; [X_next] takes an item off the queue and may go
    back up to the rank at which an item is begun, so an item weighs more than that rank minus the
    lowest rank from which [X_next] is called (1 for merge, 6 for take, combine and take behind
    merge, 10 for take behind combine; for the sweeps of ThreadsTakeMergeFine.v see
    Inv_threads_takemerge_fine.v). *)

From CB Require Import Threads ThreadSpec ThreadsFine ThreadsTakeMerge ThreadsTakeCombine ThreadFacts
  Inv_threads_take.
From Coq Require Import List Arith Lia Bool.
Import ListNotations.

Set Implicit Arguments.

Fixpoint sum_from (f : nat -> nat) (k d : nat) : nat :=
  match d with 0 => 0 | S d' => f k + sum_from f (S k) d' end.

Section Total.
  Variable St : Type.
  Variable step : St -> nat -> St.
  Variable finished : St -> nat -> bool.
  Variable nth : nat.
  Variable P : St -> Prop.
  Variable mu : St -> nat -> nat.
  Variable bnd : nat -> nat.

  Hypothesis P_step : forall s t, P s -> P (step s t).
  Hypothesis mu_dec : forall s t, P s -> finished s t = false -> mu (step s t) t < mu s t.
  Hypothesis others : forall s t t', t' <> t -> finished (step s t) t' = finished s t'.
  Hypothesis mu_bnd : forall s t, P s -> mu s t <= bnd t.

  Notation drain := (drain_threads step finished nth).

  Lemma drain_done fuel s : (forall t, t < nth -> finished s t = true) -> drain fuel s = s.
  Proof.
    intros H. destruct fuel; cbn; [reflexivity|]. now rewrite (all_finished_first_unfinished _ _ H).
  Qed.

  (** the first unfinished thread [k] runs alone until it finishes, in at most [mu s k] steps *)
  Lemma solo m : forall s k,
    P s -> k < nth -> (forall t, t < k -> finished s t = true) -> finished s k = false ->
    mu s k <= m ->
    exists s' j, j <= m /\ P s' /\ (forall t, t < S k -> finished s' t = true)
                 /\ forall fuel, drain (j + fuel) s = drain fuel s'.
  Proof.
    induction m as [|m IH]; intros s k Hp Hk Hb Hf Hm.
    - pose proof (@mu_dec s k Hp Hf). lia.
    - pose proof (@mu_dec s k Hp Hf) as Hd.
      assert (Hb1 : forall t, t < k -> finished (step s k) t = true).
      { intros t Ht. rewrite others by lia. auto. }
      assert (Hdr : forall fuel, drain (S fuel) s = drain fuel (step s k)).
      { intros fuel. cbn. now rewrite (first_unfinished_some _ _ Hk Hf Hb). }
      destruct (finished (step s k) k) eqn:Hf1.
      + exists (step s k), 1. repeat split; [lia | auto | | exact Hdr].
        intros t Ht. destruct (Nat.eq_dec t k) as [->|ne]; [exact Hf1 | apply Hb1; lia].
      + destruct (IH (step s k) k) as (s' & j & Hj & Hp' & Hb' & Hdr'); auto; [lia|].
        exists s', (S j). repeat split; [lia | auto | auto |].
        intros fuel. change (S j + fuel) with (S (j + fuel)).
        rewrite Hdr. apply Hdr'.
  Qed.

  Lemma drain_total_from d : forall k s fuel,
    k + d = nth -> P s -> (forall t, t < k -> finished s t = true) ->
    fuel >= sum_from bnd k d ->
    forall t, t < nth -> finished (drain fuel s) t = true.
  Proof.
    induction d as [|d IH]; intros k s fuel Hk Hp Hb Hfuel t Ht.
    - rewrite drain_done; [apply Hb; lia | intros t' Ht'; apply Hb; lia].
    - cbn in Hfuel. destruct (finished s k) eqn:Hf.
      + apply (IH (S k)); auto; [lia | | lia].
        intros t' Ht'. destruct (Nat.eq_dec t' k) as [->|ne]; [exact Hf | apply Hb; lia].
      + destruct (@solo (bnd k) s k) as (s' & j & Hj & Hp' & Hb' & Hdr); auto; [lia|].
        replace fuel with (j + (fuel - j)) by lia. rewrite Hdr.
        apply (IH (S k)); auto; lia.
  Qed.

  Theorem drain_total s fuel :
    P s -> fuel >= sum_from bnd 0 nth ->
    forall t, t < nth -> finished (drain fuel s) t = true.
  Proof. intros Hp Hfuel. apply (@drain_total_from nth 0); auto. intros t Ht. lia. Qed.

  Theorem run_full_total s0 sch fuel :
    P s0 -> fuel >= sum_from bnd 0 nth ->
    forall t, t < nth -> finished (run_full step finished nth sch fuel s0) t = true.
  Proof. intros Hp Hfuel. unfold run_full. apply drain_total; auto. now apply run_sched_inv. Qed.
End Total.

(** the bounds below are sums of per-thread bounds; if every thread's bound is at most [b] the sum is
    at most [nthreads * b] *)
Lemma sum_from_le f b d : forall k, (forall t, f t <= b) -> sum_from f k d <= d * b.
Proof.
  induction d as [|d IH]; intros k H; cbn; [lia|]. specialize (IH (S k) H). specialize (H k). lia.
Qed.

(** ** a stuttering extension ([stut_step], ThreadsFine.v) of a total system is total: one more step
    per thread *)

Section StutTotal.
  Variable St : Type.
  Variable step : St -> nat -> St.
  Variable finished : St -> nat -> bool.
  Variable nth : nat.
  Variable P : St -> Prop.
  Variable mu : St -> nat -> nat.
  Variable bnd : nat -> nat.

  Hypothesis P_step : forall s t, P s -> P (step s t).
  Hypothesis mu_dec : forall s t, P s -> finished s t = false -> mu (step s t) t < mu s t.
  Hypothesis others : forall s t t', t' <> t -> finished (step s t) t' = finished s t'.
  Hypothesis mu_bnd : forall s t, P s -> mu s t <= bnd t.

  Definition stut_mu (s : stut St) (t : nat) : nat :=
    mu (st_base s) t + (if st_pub s t then 0 else 1).

  Theorem stut_run_full_total s0 sch fuel :
    P s0 -> fuel >= sum_from (fun t => bnd t + 1) 0 nth ->
    forall t, t < nth ->
      stut_finished finished
        (run_full (stut_step step) (stut_finished finished) nth sch fuel (stut_init s0)) t = true.
  Proof.
    intros Hp Hfuel.
    apply (@run_full_total _ (stut_step step) (stut_finished finished) nth
             (fun s => P (st_base s)) stut_mu (fun t => bnd t + 1)).
    - intros s t Hs. unfold stut_step. destruct (st_pub s t); cbn; auto.
    - intros s t Hs Hf. unfold stut_finished in Hf. unfold stut_mu, stut_step.
      destruct (st_pub s t) eqn:Hpub; cbn.
      + rewrite Hpub. pose proof (@mu_dec (st_base s) t Hs Hf). lia.
      + rewrite upd_same. lia.
    - intros s t t' ne. unfold stut_finished, stut_step. destruct (st_pub s t); cbn; auto.
    - intros s t Hs. unfold stut_mu. pose proof (@mu_bnd (st_base s) t Hs).
      destruct (st_pub s t); lia.
    - exact Hp.
    - exact Hfuel.
  Qed.
End StutTotal.

(** ** weight of the queue plus rank of the pc

    [th s t] is thread [t] of [s], finished if [fin] says so; [w] weighs its queue and [rank s] its
    pc (in [s]: for a compare-and-swap it matters whether the version it loaded is still current);
    [ok] is what the measure needs to know of a thread (take: a thread in front of the counter has an
    item); [wmax t] bounds the weight of the queue [t] starts with. *)

Section Ranked.
  Variables St Th : Type.
  Variable step : St -> nat -> St.
  Variable th : St -> nat -> Th.
  Variable set : St -> nat -> Th -> St.
  Variable fin : Th -> bool.
  Variable w : Th -> nat.
  Variable ok : Th -> Prop.
  Variable rank : St -> Th -> nat.
  Variable wmax : nat -> nat.
  Variable bnd : nat -> nat.

  Hypothesis th_set : forall s t x, th (set s t x) = upd (th s) t x.

  Definition mu (s : St) (t : nat) : nat := w (th s t) + rank s (th s t).

  Definition shape (s : St) (t : nat) (s' : St) : Prop :=
    (forall t', t' <> t -> th s' t' = th s t')
    /\ w (th s' t) <= w (th s t)
    /\ (ok (th s t) -> ok (th s' t) /\ (fin (th s t) = false -> mu s' t < mu s t)).

  Lemma shape_same s t : (ok (th s t) -> fin (th s t) = true) -> shape s t s.
  Proof.
    intros H. split; [reflexivity|]. split; [lia|]. intros Hok. split; [exact Hok|].
    rewrite (H Hok). discriminate.
  Qed.

  Lemma shape_set s s1 t x :
    th s1 = th s -> w x <= w (th s t) -> (ok (th s t) -> ok x) ->
    (ok (th s t) -> fin (th s t) = false -> w x + rank (set s1 t x) x < w (th s t) + rank s (th s t)) ->
    shape s t (set s1 t x).
  Proof.
    intros E Hw Hok Hd. unfold shape, mu. rewrite th_set, E, upd_same.
    split; [intros t' ne; now rewrite upd_other|]. split; [exact Hw|]. intros H. split; auto.
  Qed.

  Hypothesis step_shape : forall s t, shape s t (step s t).
  Hypothesis bnd_ok : forall s x t, wmax t + rank s x <= bnd t.

  Definition ranked_P (s : St) : Prop := forall t, w (th s t) <= wmax t /\ ok (th s t).

  Lemma ranked_P_step s t : ranked_P s -> ranked_P (step s t).
  Proof.
    intros Hp t'. destruct (step_shape s t) as (Ho & Hw & Hk).
    destruct (Nat.eq_dec t' t) as [->|ne]; [|rewrite Ho by exact ne; apply Hp].
    destruct (Hp t) as [Hl Hok]. split; [lia | apply (Hk Hok)].
  Qed.

  Lemma ranked_dec s t : ranked_P s -> fin (th s t) = false -> mu (step s t) t < mu s t.
  Proof. intros Hp. apply (step_shape s t), Hp. Qed.

  Lemma ranked_others s t t' : t' <> t -> fin (th (step s t) t') = fin (th s t').
  Proof. intros ne. now rewrite (proj1 (step_shape s t)). Qed.

  Lemma ranked_bnd s t : ranked_P s -> mu s t <= bnd t.
  Proof. intros Hp. destruct (Hp t) as [Hl _]. pose proof (bnd_ok s (th s t) t). unfold mu. lia. Qed.

  Theorem ranked_total s0 nth sch fuel :
    ranked_P s0 -> fuel >= sum_from bnd 0 nth ->
    forall t, t < nth -> fin (th (run_full step (fun s t => fin (th s t)) nth sch fuel s0) t) = true.
  Proof.
    apply (@run_full_total _ step (fun s t => fin (th s t)) nth ranked_P mu bnd).
    - exact ranked_P_step.
    - exact ranked_dec.
    - exact ranked_others.
    - exact ranked_bnd.
  Qed.

  Theorem ranked_stut_total s0 nth sch fuel :
    ranked_P s0 -> fuel >= sum_from (fun t => bnd t + 1) 0 nth ->
    forall t, t < nth ->
      stut_finished (fun s t => fin (th s t))
        (run_full (stut_step step) (stut_finished (fun s t => fin (th s t))) nth sch fuel
           (stut_init s0)) t = true.
  Proof.
    apply (@stut_run_full_total _ step (fun s t => fin (th s t)) nth ranked_P mu bnd).
    - exact ranked_P_step.
    - exact ranked_dec.
    - exact ranked_others.
    - exact ranked_bnd.
  Qed.
End Ranked.

(** a branch of a step function that ends in [X_set s1 t x]: the thread map of [s1] is that of [s]
    (left to the caller if not by computation); the arithmetic, with [Eth : X_th s t = {| .. |}], the
    tests made on the way, and whatever else the new pc was chosen by *)
Ltac tests :=
  rewrite ?Nat.eqb_refl;
  repeat match goal with H : ?c = _ |- context [if ?c then _ else _] => rewrite H end.

Ltac arith Eth :=
  rewrite Eth; cbn; tests;
  repeat (match goal with |- context [if ?b then _ else _] => destruct b end; cbn);
  lia.

Ltac set_leaf Eth :=
  apply shape_set;
  [ try reflexivity | try reflexivity | arith Eth | exact (fun _ => I) | intros _ _; arith Eth ].

(** the state handed to [X_set] or [X_next] may depend on a test: the thread map does not *)
Ltac same_th := repeat match goal with |- context [if ?b then _ else _] => destruct b end; reflexivity.

(** the tests a step function makes on its way to the state it returns *)
Ltac branches :=
  cbv zeta iota;
  repeat match goal with |- shape _ _ _ _ _ _ _ (match ?x with _ => _ end) => destruct x eqn:? end.

(** ** merge (Threads.v) *)

Section MergeTotal.
  Variable n : nat.

  Definition mg_rank (pc : mg_pc) : nat :=
    match pc with
    | MgFinished => 0
    | MgInTerm | MgInErr => 1
    | MgAtEndInc | MgAtEndedStore _ => 2
    | MgInData | MgInGreet => 3
    | MgAtStartInc => 4
    | MgAtEndedLoad => 5
    end.

  Definition mg_done (x : mg_thread) : bool := match mg_pcv x with MgFinished => true | _ => false end.

  Notation mg_shape :=
    (shape mgs_th mg_done (fun x => length (mg_q x)) (fun _ => True) (fun _ x => mg_rank (mg_pcv x))).

  Lemma mg_stop_siblings_th k t s : mgs_th (mg_stop_siblings k t s) = mgs_th s.
  Proof.
    induction k as [|k IH]; cbn; [reflexivity|].
    destruct (negb (k =? t) && mgs_tbs s k); cbn; exact IH.
  Qed.

  Lemma mg_next_shape s s1 t x :
    mgs_th s t = x -> mgs_th s1 = mgs_th s -> 3 <= mg_rank (mg_pcv x) -> mg_shape s t (mg_next s1 t x).
  Proof.
    intros Eth E Hr. unfold mg_next. destruct x as [pc q f]. cbn [mg_pcv mg_q mg_fin] in *. branches.
    all: set_leaf Eth; exact E.
  Qed.

  Lemma mg_step_shape s t : mg_shape s t (mg_step n s t).
  Proof.
    unfold mg_step. destruct (mgs_th s t) as [pc q f] eqn:Eth. cbn [mg_pcv]. destruct pc; branches.
    all: first [ set_leaf Eth; exact (mg_stop_siblings_th _ _ _)
               | eapply mg_next_shape; [exact Eth | reflexivity | cbn; lia]
               | apply shape_same; now rewrite Eth ].
  Qed.
End MergeTotal.

Definition merge_fuel (n : nat) (qs : nat -> list val) (nth : nat) : nat :=
  sum_from (fun t => length (qs t) + 5) 0 nth.

Theorem merge_run_full_total n qs fins nth sch fuel :
  fuel >= merge_fuel n qs nth ->
  let s := run_full (mg_step n) mg_finished nth sch fuel (mg_init n qs fins) in
  forall t, t < nth -> mg_finished s t = true.
Proof.
  intros Hfuel s.
  apply (ranked_total _ (fun t => length (qs t) + 5) (@mg_step_shape n) (wmax := fun t => length (qs t)));
    [| | exact Hfuel].
  - intros st x t. destruct (mg_pcv x); cbn; lia.
  - intros t. cbn. auto.
Qed.

Example merge_fuel_driver :
  merge_fuel 3 (fun _ => [VN 1; VN 2; VN 3; VN 4]) 3 <= 400.
Proof. vm_compute. lia. Qed.

Print Assumptions merge_run_full_total.

(** ** take (Threads.v: [tk_step true max]; ThreadsFine.v: [tkf_step max]) *)

Section TakeTotal.
  Variable max : nat.

  Definition tk_rank (pc : tk_pc) : nat :=
    match pc with
    | TkFinished => 0
    | TkInTerm => 1
    | TkAtEndStore => 2
    | TkAtEndLoad => 3
    | TkInData _ => 4
    | TkAtInc => 5
    | TkAtLoad => 6
    end.

  Definition tk_done (x : tk_thread) : bool := match tk_pcv x with TkFinished => true | _ => false end.

  Definition tk_ok (x : tk_thread) : Prop :=
    match tk_pcv x with TkAtLoad | TkAtInc => tk_q x <> [] | _ => True end.

  Notation tk_shape :=
    (shape tks_th tk_done (fun x => 6 * length (tk_q x)) tk_ok (fun _ x => tk_rank (tk_pcv x))).

  Lemma tk_next_shape s s1 t x b :
    tks_th s t = x -> tks_th s1 = tks_th s -> 1 <= tk_rank (tk_pcv x) ->
    tk_shape s t (tk_set s1 t (tk_next b x)).
  Proof.
    intros Eth E Hr. destruct x as [pc q]. cbn [tk_pcv] in Hr.
    apply shape_set; [reflexivity | exact E | rewrite Eth | intros _ | intros _ _; rewrite Eth];
      unfold tk_next, tk_ok; cbn [tk_q]; destruct q as [|v [|w q]]; try destruct b; cbn; (lia || easy).
  Qed.

  Lemma tk_gstep_shape fine s t : tk_shape s t (tk_gstep max fine s t).
  Proof.
    destruct fine; unfold tk_gstep, tkf_step, tk_step, tk_end_now;
      destruct (tks_th s t) as [pc q] eqn:Eth; cbn [tk_pcv tk_q]; destruct pc; branches.
    all: first [ eapply tk_next_shape; [exact Eth | reflexivity | cbn; lia]
               | apply shape_same; rewrite Eth; easy
               | apply shape_set; [reflexivity | reflexivity | rewrite Eth; cbn; lia | intros _; exact I
                                  | intros _ _; rewrite Eth; cbn; lia ] ].
  Qed.
End TakeTotal.

Definition take_fuel (qs : nat -> list val) (nth : nat) : nat :=
  sum_from (fun t => 6 * length (qs t) + 6) 0 nth.

Lemma tk_gstep_total max fine qs nth sch fuel :
  fuel >= take_fuel qs nth ->
  forall t, t < nth -> tk_finished (run_full (tk_gstep max fine) tk_finished nth sch fuel (tk_init qs)) t = true.
Proof.
  apply (ranked_total _ (fun t => 6 * length (qs t) + 6) (@tk_gstep_shape max fine)
           (wmax := fun t => 6 * length (qs t))).
  - intros st x t. destruct (tk_pcv x); cbn; lia.
  - intros t. unfold tk_ok. cbn. destruct (qs t); cbn; split; (lia || easy).
Qed.

Theorem take_run_full_total max qs nth sch fuel :
  fuel >= take_fuel qs nth ->
  let s := run_full (tk_step true max) tk_finished nth sch fuel (tk_init qs) in
  forall t, t < nth -> tk_finished s t = true.
Proof. exact (@tk_gstep_total max false qs nth sch fuel). Qed.

Theorem take_fine_run_full_total max qs nth sch fuel :
  fuel >= take_fuel qs nth ->
  let s := run_full (tkf_step max) tk_finished nth sch fuel (tk_init qs) in
  forall t, t < nth -> tk_finished s t = true.
Proof. exact (@tk_gstep_total max true qs nth sch fuel). Qed.

Example take_fuel_driver :
  take_fuel (fun _ => [VN 1; VN 2; VN 3; VN 4]) 3 <= 400.
Proof. vm_compute. lia. Qed.

Print Assumptions take_run_full_total.
Print Assumptions take_fine_run_full_total.

(** ** combine (Threads.v: [cb_step true n]; at the granularity of every access: its stuttering
    extension) *)

Section CombineTotal.
  Variable n : nat.

  (** [ver]: the current version of [vals].  A compare-and-swap whose loaded version is current
      succeeds; one that is stale fails once, and the retry (nobody else running) succeeds. *)
  Definition cb_rank (ver : nat) (pc : cb_pc) : nat :=
    match pc with
    | CbFinished => 0
    | CbInTerm => 1
    | CbAtEndDec => 2
    | CbInData | CbInGreet => 3
    | CbAtEmitLoad | CbAtStartDec => 4
    | CbAtDataDec _ | CbAtDataLoad _ => 5
    | CbAtRcuCas _ _ _ v => if Nat.eqb v ver then 6 else 8
    | CbAtRcuLoad _ _ _ => 7
    | CbAtValsLoad _ => 8
    end.

  Definition cb_done (x : cb_thread) : bool := match cb_pcv x with CbFinished => true | _ => false end.

  Notation cb_shape :=
    (shape cbs_th cb_done (fun x => 6 * length (cb_q x)) (fun _ => True)
       (fun s x => cb_rank (cbs_ver s) (cb_pcv x))).

  Lemma cb_next_shape s s1 t x :
    cbs_th s t = x -> cbs_th s1 = cbs_th s -> 3 <= cb_rank (cbs_ver s) (cb_pcv x) ->
    cb_shape s t (cb_next s1 t x).
  Proof.
    intros Eth E Hr. unfold cb_next. destruct x as [pc q f]. cbn [cb_pcv cb_q cb_fin] in *. branches.
    all: set_leaf Eth; exact E.
  Qed.

  Lemma cb_step_shape s t : cb_shape s t (cb_step true n s t).
  Proof.
    unfold cb_step, cb_after_count. destruct (cbs_th s t) as [pc q f] eqn:Eth. cbn [cb_pcv].
    destruct pc; branches.
    all: first [ set_leaf Eth
               | eapply cb_next_shape; [exact Eth | reflexivity | cbn; tests; lia]
               | apply shape_same; now rewrite Eth ].
  Qed.

End CombineTotal.

Lemma cb_bnd_ok (qs : nat -> list val) (s : cb_state) x t :
  6 * length (qs t) + cb_rank (cbs_ver s) (cb_pcv x) <= 6 * length (qs t) + 8.
Proof. destruct (cb_pcv x); cbn; try lia. destruct (Nat.eqb _ _); lia. Qed.

Definition combine_fuel (n : nat) (qs : nat -> list val) (nth : nat) : nat :=
  sum_from (fun t => 6 * length (qs t) + 8) 0 nth.

Theorem combine_run_full_total n qs fins nth sch fuel :
  fuel >= combine_fuel n qs nth ->
  let s := run_full (cb_step true n) cb_finished nth sch fuel (cb_init n qs fins) in
  forall t, t < nth -> cb_finished s t = true.
Proof.
  intros Hfuel s.
  apply (ranked_total _ _ (@cb_step_shape n) (@cb_bnd_ok qs)); [| exact Hfuel].
  intros t. cbn. auto.
Qed.

Definition combine_fine_fuel (n : nat) (qs : nat -> list val) (nth : nat) : nat :=
  sum_from (fun t => 6 * length (qs t) + 8 + 1) 0 nth.

Theorem combine_fine_run_full_total n qs fins nth sch fuel :
  fuel >= combine_fine_fuel n qs nth ->
  let s := run_full (stut_step (cb_step true n)) (stut_finished cb_finished) nth sch fuel
             (stut_init (cb_init n qs fins)) in
  forall t, t < nth -> stut_finished cb_finished s t = true.
Proof.
  intros Hfuel s.
  apply (ranked_stut_total _ _ (@cb_step_shape n) (@cb_bnd_ok qs)); [| exact Hfuel].
  intros t. cbn. auto.
Qed.

Example combine_fuel_driver :
  combine_fuel 3 (fun _ => [VN 1; VN 2; VN 3; VN 4]) 3 <= 400
  /\ combine_fine_fuel 3 (fun _ => [VN 1; VN 2; VN 3; VN 4]) 3 <= 400.
Proof. vm_compute. lia. Qed.

Print Assumptions combine_run_full_total.
Print Assumptions combine_fine_run_full_total.

(** ** merge at the granularity of every talkback-cell access (ThreadsFine.v: [mf_step true n]) *)

Section MergeFineTotal.
  Variable n : nat.

  Definition mf_rank (pc : mf_pc) : nat :=
    match pc with
    | MfFinished => 0
    | MfInTerm | MfInErr => 1
    | MfAtEndInc => 2
    | MfAtClear => 3
    | MfAtSweep _ j => (n - j) + 2        (* the sweep only moves forward *)
    | MfAtEndedStore _ => n + 3
    | MfInData | MfInGreet | MfAtSelfSwap => n + 4
    | MfAtStartInc => n + 5
    | MfAtPublishOld | MfAtEndedLoad => n + 6
    | MfAtPublish => n + 7
    end.

  Definition mf_done (x : mf_thread) : bool := match mf_pcv x with MfFinished => true | _ => false end.

  Notation mf_shape :=
    (shape mfs_th mf_done (fun x => length (mf_q x)) (fun _ => True) (fun _ x => mf_rank (mf_pcv x))).

  Lemma mf_next_shape s s1 t x :
    mfs_th s t = x -> mfs_th s1 = mfs_th s -> n + 4 <= mf_rank (mf_pcv x) -> mf_shape s t (mf_next s1 t x).
  Proof.
    intros Eth E Hr. unfold mf_next. destruct x as [pc q f]. cbn [mf_pcv mf_q mf_fin] in *. branches.
    all: set_leaf Eth; exact E.
  Qed.

  Lemma mf_sweep_goto_shape s s1 t x e j :
    mfs_th s t = x -> mfs_th s1 = mfs_th s -> 1 < mf_rank (mf_pcv x) ->
    (forall j', j <= j' -> j' < n -> (n - j') + 2 < mf_rank (mf_pcv x)) ->
    mf_shape s t (mf_sweep_goto n s1 t x e j).
  Proof.
    intros Eth E H1 Hr. unfold mf_sweep_goto. remember (if j =? t then S j else j) as j' eqn:Ej.
    assert (Hj : j <= j') by (subst j'; destruct (j =? t); lia).
    destruct x as [pc q f]; cbn [mf_pcv] in *.
    destruct (Nat.ltb_spec j' n) as [Hlt|Hge];
      (apply shape_set;
       [ reflexivity | exact E | rewrite Eth; cbn; lia | exact (fun _ => I) | intros _ _; rewrite Eth; cbn ]).
    - specialize (Hr j' Hj Hlt). lia.
    - lia.
  Qed.

  Lemma mf_step_shape s t : mf_shape s t (mf_step true n s t).
  Proof.
    unfold mf_step. destruct (mfs_th s t) as [pc q f] eqn:Eth. cbn [mf_pcv]. destruct pc; branches.
    all: first [ set_leaf Eth
               | eapply mf_next_shape; [exact Eth | same_th | cbn; lia]
               | eapply mf_sweep_goto_shape; [exact Eth | same_th | cbn; lia | intros; cbn; lia]
               | apply shape_same; now rewrite Eth ].
  Qed.
End MergeFineTotal.

Definition merge_fine_fuel (n : nat) (qs : nat -> list val) (nth : nat) : nat :=
  sum_from (fun t => length (qs t) + n + 7) 0 nth.

Theorem merge_fine_run_full_total n qs fins nth sch fuel :
  fuel >= merge_fine_fuel n qs nth ->
  let s := run_full (mf_step true n) mf_finished nth sch fuel (mf_init true n qs fins) in
  forall t, t < nth -> mf_finished s t = true.
Proof.
  intros Hfuel s.
  apply (ranked_total _ (fun t => length (qs t) + n + 7) (@mf_step_shape n) (wmax := fun t => length (qs t)));
    [| | exact Hfuel].
  - intros st x t. destruct (mf_pcv x); cbn; lia.
  - intros t. cbn. auto.
Qed.

Example merge_fine_fuel_driver :
  merge_fine_fuel 3 (fun _ => [VN 1; VN 2; VN 3; VN 4]) 3 <= 400.
Proof. vm_compute. lia. Qed.

Print Assumptions merge_fine_run_full_total.

(** ** take behind merge (ThreadsTakeMerge.v: [xm_step true max n]) *)

Section TakeMergeTotal.
  Variable max : nat.
  Variable n : nat.

  Definition xm_rank (pc : xm_pc) : nat :=
    match pc with
    | XmFinished => 0
    | XmInTermAll | XmInErr => 1
    | XmAtEndSwapT | XmAtEndSwapE _ => 2
    | XmAtEndInc | XmAtEndedStore _ => 3
    | XmInTerm | XmInGreet => 4
    | XmAtMgEnded | XmAtStartInc => 5
    | XmAtEndStore | XmAtEndSwap | XmAtEndedLoad => 6
    | XmAtEndLoad => 7
    | XmInData _ => 8
    | XmAtTaken _ => 9
    end.

  Definition xm_done (x : xm_thread) : bool := match xm_pcv x with XmFinished => true | _ => false end.

  Notation xm_shape :=
    (shape xms_th xm_done (fun x => 6 * length (xm_q x)) (fun _ => True) (fun _ x => xm_rank (xm_pcv x))).

  Lemma xm_sweep_th k skip t s : xms_th (xm_sweep k skip t s) = xms_th s.
  Proof.
    induction k as [|k IH]; cbn; [reflexivity|].
    destruct (negb _ && xms_cell s k); cbn; exact IH.
  Qed.

  Lemma xm_next_shape s s1 t x :
    xms_th s t = x -> xms_th s1 = xms_th s -> 4 <= xm_rank (xm_pcv x) -> xm_shape s t (xm_next s1 t x).
  Proof.
    intros Eth E Hr. unfold xm_next. destruct x as [pc q f]. cbn [xm_pcv xm_q xm_fin] in *. branches.
    all: set_leaf Eth; exact E.
  Qed.

  Lemma xm_step_shape s t : xm_shape s t (xm_step true max n s t).
  Proof.
    unfold xm_step, xm_take_end. destruct (xms_th s t) as [pc q f] eqn:Eth. cbn [xm_pcv].
    destruct pc; branches.
    all: first [ set_leaf Eth; exact (xm_sweep_th _ _ _ _)
               | eapply xm_next_shape; [exact Eth | same_th | cbn; lia]
               | apply shape_same; now rewrite Eth ].
  Qed.
End TakeMergeTotal.

Definition takemerge_fuel (n : nat) (qs : nat -> list val) (nth : nat) : nat :=
  sum_from (fun t => 6 * length (qs t) + 9) 0 nth.

Theorem takemerge_run_full_total max n qs fins nth sch fuel :
  fuel >= takemerge_fuel n qs nth ->
  let s := run_full (xm_step true max n) xm_finished nth sch fuel (xm_init n qs fins) in
  forall t, t < nth -> xm_finished s t = true.
Proof.
  intros Hfuel s.
  apply (ranked_total _ (fun t => 6 * length (qs t) + 9) (@xm_step_shape max n)
           (wmax := fun t => 6 * length (qs t))); [| | exact Hfuel].
  - intros st x t. destruct (xm_pcv x); cbn; lia.
  - intros t. cbn. auto.
Qed.

Example takemerge_fuel_driver :
  takemerge_fuel 3 (fun _ => [VN 1; VN 2; VN 3; VN 4]) 3 <= 400.
Proof. vm_compute. lia. Qed.

Print Assumptions takemerge_run_full_total.

(** ** take behind combine (ThreadsTakeCombine.v: [xc_step true max n]) *)

Section TakeCombineTotal.
  Variable max : nat.
  Variable n : nat.

  Definition xc_rank (ver : nat) (pc : xc_pc) : nat :=
    match pc with
    | XcFinished => 0
    | XcInTermAll => 1
    | XcAtEndSwapT => 2
    | XcAtEndDec => 3
    | XcInTerm | XcInGreet => 4
    | XcAtEndStore | XcAtStartDec => 5
    | XcAtEndSwap | XcAtEndLoad => 6
    | XcInData _ => 7
    | XcAtTaken _ => 8
    | XcAtEmitLoad => 9
    | XcAtDataDec | XcAtDataLoad => 10
    | XcAtRcuCas _ _ v => if Nat.eqb v ver then 11 else 13
    | XcAtRcuLoad _ _ => 12
    | XcAtValsLoad _ => 13
    end.

  Definition xc_done (x : xc_thread) : bool := match xc_pcv x with XcFinished => true | _ => false end.

  Notation xc_shape :=
    (shape xcs_th xc_done (fun x => 10 * length (xc_q x)) (fun _ => True)
       (fun s x => xc_rank (xcs_ver s) (xc_pcv x))).

  Lemma xc_stop_all_th k t s : xcs_th (xc_stop_all k t s) = xcs_th s.
  Proof. induction k as [|k IH]; cbn; [reflexivity | exact IH]. Qed.

  Lemma xc_next_shape s s1 t x :
    xcs_th s t = x -> xcs_th s1 = xcs_th s -> 4 <= xc_rank (xcs_ver s) (xc_pcv x) ->
    xc_shape s t (xc_next s1 t x).
  Proof.
    intros Eth E Hr. unfold xc_next. destruct x as [pc q f]. cbn [xc_pcv xc_q xc_fin] in *. branches.
    all: set_leaf Eth; exact E.
  Qed.

  Lemma xc_step_shape s t : xc_shape s t (xc_step true max n s t).
  Proof.
    unfold xc_step, xc_after_count, xc_end_now. destruct (xcs_th s t) as [pc q f] eqn:Eth. cbn [xc_pcv].
    destruct pc; branches.
    all: first [ set_leaf Eth; exact (xc_stop_all_th _ _ _)
               | eapply xc_next_shape; [exact Eth | reflexivity | cbn; tests; lia]
               | apply shape_same; now rewrite Eth ].
  Qed.

End TakeCombineTotal.

Definition takecombine_fuel (n : nat) (qs : nat -> list val) (nth : nat) : nat :=
  sum_from (fun t => 10 * length (qs t) + 13) 0 nth.

Theorem takecombine_run_full_total max n qs fins nth sch fuel :
  fuel >= takecombine_fuel n qs nth ->
  let s := run_full (xc_step true max n) xc_finished nth sch fuel (xc_init n qs fins) in
  forall t, t < nth -> xc_finished s t = true.
Proof.
  intros Hfuel s.
  apply (ranked_total _ (fun t => 10 * length (qs t) + 13) (@xc_step_shape max n)
           (wmax := fun t => 10 * length (qs t))); [| | exact Hfuel].
  - intros st x t. destruct (xc_pcv x); cbn; try lia. destruct (Nat.eqb _ _); lia.
  - intros t. cbn. auto.
Qed.

Example takecombine_fuel_driver :
  takecombine_fuel 3 (fun _ => [VN 1; VN 2; VN 3; VN 4]) 3 <= 400.
Proof. vm_compute. lia. Qed.

Print Assumptions takecombine_run_full_total.
