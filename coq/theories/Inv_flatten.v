(** * Inv_flatten: the invariant of flatten (switch semantics) over every reachable
      configuration, and the theorems C01-C05/C17 (safety), C11 (only the latest
      inner speaks; completion), C14 (demand conservation) and the order of relayed data.

    Regime: [nsinks p = 1], [resub p = false], [no_nest p = false],
    [late_ok p = false] (every source, outer and inner, greets inside its
    subscribing call); guard [g_flatten] (an inner source the outer emits is fresh).
    The counts of C14 may be on, provided upstreams only answer Pulls and the sink sends
    one Pull per message; otherwise [pullable], [one_pull] are arbitrary.  The
    number of inner sources and the depth of re-entrancy are unbounded.

    The invariant is a phase [Ph]:
    - [PhInit]   nothing happened yet;
    - [PhSub0]   the sink's subscription is subscribing the outer (only the
                 outer's greeting is enabled);
    - [PhLive]   the sink is live; every suspended activation is [FlDone];
                 [fl_outer = true] iff the outer is live, otherwise it ended
                 and an inner is stored; a stored inner is live;
    - [PhOver]   the sink is disposed/finished, no upstream is live or
                 half-subscribed, only returns are enabled (the cells are not
                 cleared: [fl_inner = Some j] with [us j = UStopped/UEnded]);
    - [PhSwitch] top activation [(FlSubInner k, CUp j UT)]: the old inner has
                 just been stopped, port [S k] is still [UNone], and nothing
                 but the return is enabled (so nobody can subscribe [S k] in
                 between: freshness survives from the outer's Data input);
    - [PhSubI]   top activation [(FlDone, CSub (S k))], [S k] has not greeted:
                 only its greeting is enabled ([fl_inner] may still hold the
                 stopped old inner);
    - [PhErr]    top activation [(FlThenErr e, CUp j UT)]: a level failed, the
                 other one has just been stopped, the Error is due;
    - [PhDisp]   top activation [(FlThenOuter, CUp j UT)]: the sink disposed,
                 the inner has just been stopped, the outer is next.
    In the last four phases and in [PhOver] the environment has exactly one
    enabled move, which makes the transient states harmless. *)
From CB Require Import Ports.

Set Implicit Arguments.

(** payloads sent by the inner sources (every port but 0), in arrival order *)
Fixpoint inner_data (tr : list event) : list val :=
  match tr with
  | [] => []
  | EIn (IDn (S _) (DD v)) :: tr' => v :: inner_data tr'
  | _ :: tr' => inner_data tr'
  end.

Lemma inner_data_app tr1 tr2 : inner_data (tr1 ++ tr2) = inner_data tr1 ++ inner_data tr2.
Proof.
  induction tr1 as [|e tr1 IH]; cbn; [reflexivity|].
  destruct e as [[s a|s u|[|j] [|v|e|]|s]|c| | |ob|]; cbn; try exact IH.
  now rewrite IH.
Qed.

(** pointwise facts about updated maps: compare the index with the updated one *)
Local Ltac pointwise :=
  intros; unfold upd;
  repeat match goal with
         | |- context [Nat.eqb ?a ?b] => destruct (Nat.eqb_spec a b)
         end; subst; auto; try congruence; try lia.

(** the monitor's base ([pbase] of Ports.v) of an operator that may subscribe any port *)
Notation fbase := (obase (fun _ => True)).

(** every suspended activation of the list has nothing left to do *)
Definition AllDone (st : list (fl_fr * call)) : Prop :=
  forall f cl, In (f, cl) st -> f = FlDone.

Lemma AllDone_nil : AllDone [].
Proof. intros f cl []. Qed.

Lemma AllDone_cons cl st : AllDone st -> AllDone ((FlDone, cl) :: st).
Proof. intros H f cl' [E|Hin]; [now inversion E | eauto]. Qed.

Lemma AllDone_inv f cl st : AllDone ((f, cl) :: st) -> f = FlDone /\ AllDone st.
Proof.
  intros H. split; [apply (H f cl); now left|]. intros f' cl' Hin. apply (H f' cl'). now right.
Qed.

(** In the regime of C14 there is exactly one token (the one unit of demand).  While the
    sink is live it is with the sink ([credit 0 = 1], every Pull answered) or with the one
    port [t] that owes an answer: the outer if no inner is stored, else the stored inner.  An
    upstream only answers Pulls, so the outer cannot speak while an inner is stored: an inner
    is never switched away from and the outer never completes first. *)
Definition token_at (m : mstate) (t : nat) : Prop :=
  credit m 0 + owed m t = 1 /\ (forall i, i <> t -> owed m i = 0) /\
  credit m 0 + npull m 0 = S (ndata m 0).

(** nothing is counted before the greeting *)
Definition uncounted (m : mstate) : Prop := (forall i, owed m i = 0) /\ cnt3 m = (0, 0, 0).

(** the token is in transit: the outer has answered the Pull with an inner that has not
    greeted yet; the greeting handler pulls it at once *)
Definition transit (m : mstate) : Prop :=
  credit m 0 = 0 /\ (forall i, owed m i = 0) /\ npull m 0 = S (ndata m 0).

(** the upstream a Pull goes to: the stored inner if there is one, else the outer *)
Definition holder (ik : option nat) : nat := match ik with Some k => S k | None => 0 end.

Section Flatten.
  Variable p : mparams.
  Hypothesis Hns : nsinks p = 1.
  Hypothesis Hnonest : no_nest p = false.
  Hypothesis Hlate : late_ok p = false.
  Hypothesis Hreg : c14 p = true -> pullable p = true /\ one_pull p = true.
  Notation o := flatten_op.
  Notation gfl := g_flatten.

  (** [fl_outer] is set iff the outer is live, otherwise it has completed by itself *)
  Definition outer_is (ob : bool) (s : fl_st) (u : nat -> uss) : Prop :=
    fl_outer s = ob /\ u 0 = if ob then ULive else UEnded.

  (** C11: an inner that can still speak is the one whose talkback is stored *)
  Definition inner_is (ik : option nat) (s : fl_st) (u : nat -> uss) : Prop :=
    match ik with
    | None => fl_inner s = None /\ forall i, u (S i) <> ULive
    | Some k => fl_inner s = Some (S k) /\ u (S k) = ULive /\ forall i, u (S i) = ULive -> i = k
    end.

  (** The phases of a run.  Only the top activation can be a non-trivial
      frame: its pending call is a Terminate to an upstream, which can only
      return. *)
  Inductive Ph (c : cfg o) : Prop :=
  | PhInit :
      stack c = [] -> fbase None (ms c) -> subd (ms c) 0 = false -> sk (ms c) 0 = SNone ->
      (forall i, us (ms c) i = UNone) -> (c14 p = true -> uncounted (ms c)) -> Ph c
  | PhSub0 :
      stack c = [(FlDone, CSub 0)] -> fbase None (ms c) -> subd (ms c) 0 = true ->
      sk (ms c) 0 = SNone -> us (ms c) 0 = USubd -> (forall i, us (ms c) (S i) = UNone) ->
      fl_outer (cst c) = false -> fl_inner (cst c) = None ->
      (c14 p = true -> uncounted (ms c)) -> Ph c
  | PhLive ob ik :
      AllDone (stack c) -> fbase None (ms c) -> subd (ms c) 0 = true -> sk (ms c) 0 = SLive ->
      (forall i, us (ms c) i <> USubd) ->
      outer_is ob (cst c) (us (ms c)) -> inner_is ik (cst c) (us (ms c)) ->
      (ob = false -> ik <> None) ->
      (c14 p = true -> ob = true /\ token_at (ms c) (holder ik)) -> Ph c
  | PhOver :
      AllDone (stack c) -> fbase None (ms c) -> subd (ms c) 0 = true ->
      sk_over (sk (ms c) 0) = true ->
      (forall i, us (ms c) i <> USubd) -> (forall i, us (ms c) i <> ULive) -> Ph c
  | PhSwitch k j rest :
      stack c = (FlSubInner k, CUp j UT) :: rest -> AllDone rest ->
      fbase None (ms c) -> subd (ms c) 0 = true -> sk (ms c) 0 = SLive ->
      (forall i, us (ms c) i <> USubd) ->
      us (ms c) 0 = ULive -> fl_outer (cst c) = true ->
      us (ms c) j = UStopped -> us (ms c) (S k) = UNone ->
      (forall i, us (ms c) (S i) <> ULive) -> c14 p = false -> Ph c
  | PhSubI k rest :
      stack c = (FlDone, CSub (S k)) :: rest -> AllDone rest ->
      fbase None (ms c) -> subd (ms c) 0 = true -> sk (ms c) 0 = SLive ->
      (forall i, i <> S k -> us (ms c) i <> USubd) ->
      us (ms c) 0 = ULive -> fl_outer (cst c) = true ->
      us (ms c) (S k) = USubd ->
      (forall i, us (ms c) (S i) <> ULive) -> (c14 p = true -> transit (ms c)) -> Ph c
  | PhErr e j rest :
      stack c = (FlThenErr e, CUp j UT) :: rest -> AllDone rest ->
      fbase (Some e) (ms c) -> subd (ms c) 0 = true -> sk (ms c) 0 = SLive ->
      (forall i, us (ms c) i <> USubd) ->
      us (ms c) j = UStopped ->
      (forall i, us (ms c) i <> ULive) -> Ph c
  | PhDisp j rest :
      stack c = (FlThenOuter, CUp j UT) :: rest -> AllDone rest ->
      fbase None (ms c) -> subd (ms c) 0 = true -> sk (ms c) 0 = SDisposed ->
      (forall i, us (ms c) i <> USubd) ->
      us (ms c) j = UStopped ->
      (forall i, us (ms c) (S i) <> ULive) ->
      (fl_outer (cst c) = true -> us (ms c) 0 = ULive) ->
      (fl_outer (cst c) = false -> us (ms c) 0 <> ULive) -> Ph c.

  Record Inv (c : cfg o) : Prop := {
    i_dead : dead c = false;
    i_ph : Ph c;
  }.

  Lemma inv0 : Inv (cfg0 o).
  Proof.
    split; [reflexivity|]. apply PhInit; cbn; auto. - apply pbase0. - intros _. split; reflexivity.
  Qed.

  Lemma ph_base c : Ph c -> exists d, fbase d (ms c).
  Proof. intros []; eauto. Qed.

  Lemma ph_switch c k : Ph c -> us (ms c) (S k) = ULive -> fl_inner (cst c) = Some (S k).
  Proof.
    intros [? ? ? ? Hu ?|? ? ? ? ? Hu ? ? ?|ob ik ? ? ? ? ? ? Hin ? ?|? ? ? ? ? Hnl
           |? ? ? ? ? ? ? ? ? ? ? ? ? Hnl ?|? ? ? ? ? ? ? ? ? ? ? Hnl ?|? ? ? ? ? ? ? ? ? ? Hnl
           |? ? ? ? ? ? ? ? ? Hnl ? ?] Hl;
      try (now apply Hnl in Hl); try (rewrite Hu in Hl; discriminate).
    destruct ik as [k'|]; [destruct Hin as (E & _ & Honly) | destruct Hin as (_ & Hnl)].
    - now rewrite (Honly _ Hl).
    - now apply Hnl in Hl.
  Qed.
  Arguments ph_switch {c k}.

  Lemma sub_enabled (c : cfg o) s aux :
    enabled p gfl c (MIn (ISub s aux)) = true ->
    s = 0 /\ aux = 0 /\ stack c = [] /\ subd (ms c) 0 = false.
  Proof.
    intros He. destruct (en_sub _ _ _ _ _ He) as (Hst & Hs & Hsd). rewrite Hns in Hs.
    pose proof (en_guard _ _ _ _ He) as Hg. assert (s = 0) by lia. subst s.
    destruct aux; [auto | discriminate].
  Qed.

  (** an inner source the outer emits is fresh *)
  Lemma fresh_inner (c : cfg o) v :
    enabled p gfl c (MIn (IDn 0 (DD v))) = true -> us (ms c) (S (inner_id v)) = UNone.
  Proof.
    intros He. pose proof (en_guard _ _ _ _ He) as Hg. cbn in Hg. unfold inner_fresh in Hg.
    destruct (us (ms c) (S (inner_id v))); try discriminate; reflexivity.
  Qed.

  Lemma top_up (c : cfg o) f cl rest i :
    stack c = (f, cl) :: rest -> top_peer_is c (PUp i) = true -> peer_of cl = PUp i.
  Proof.
    unfold top_peer_is. intros ->. destruct (peer_of cl); cbn; intros H; [discriminate|].
    apply Nat.eqb_eq in H. now subst.
  Qed.

  Lemma en_dn_top (c : cfg o) i d :
    enabled p gfl c (MIn (IDn i d)) = true -> top_peer_is c (PUp i) = true.
  Proof.
    intros He. destruct d; [now destruct (en_greet _ _ _ _ He) | refine (proj1 (en_dn _ _ _ _ _ He))..];
      discriminate.
  Qed.

  (** what the environment can do while a call to upstream [j] is pending: answer on [j] *)
  Lemma pending_up (c : cfg o) f cl rest j inp :
    stack c = (f, cl) :: rest -> peer_of cl = PUp j -> enabled p gfl c (MIn inp) = true ->
    exists d, inp = IDn j d /\
      (d = DH -> us (ms c) j = USubd /\ cl = CSub j) /\ (d <> DH -> us (ms c) j = ULive).
  Proof.
    intros Hst Hp He. destruct inp as [s aux|s u|i d|s].
    - apply sub_enabled in He. destruct He as (_ & _ & E & _). congruence.
    - destruct (en_up _ _ _ _ _ He) as (Htop & _). unfold top_peer_is in Htop.
      rewrite Hst, Hp in Htop. cbn in Htop. discriminate.
    - pose proof (@top_up _ _ _ _ _ Hst (en_dn_top _ _ _ He)) as Ei. assert (i = j) by congruence. subst i. exists d. split; [reflexivity|]. split.
      + intros ->. destruct (en_greet _ _ _ _ He) as (_ & Hu & Hs). split; [exact Hu|].
        destruct (Hs Hlate) as (k' & r' & E). congruence.
      + intros Hd. now destruct (en_dn _ _ _ _ Hd He) as (_ & Hu & _).
    - destruct (en_tick _ _ _ _ He) as [E _]. congruence.
  Qed.
  Arguments pending_up {c f cl rest j inp}.

  (** a pending Terminate to an upstream: nothing but its return is enabled *)
  Lemma only_ret (c : cfg o) f j rest inp :
    stack c = (f, CUp j UT) :: rest -> us (ms c) j = UStopped ->
    enabled p gfl c (MIn inp) = true -> False.
  Proof.
    intros Hst Hus He. destruct (pending_up Hst eq_refl He) as (d & _ & H1 & H2).
    destruct d; [destruct (H1 eq_refl); congruence | rewrite H2 in Hus by discriminate..];
      discriminate.
  Qed.
  Arguments only_ret {c f j rest inp}.

  (** a pending subscription of an upstream that has not greeted: only its greeting *)
  Lemma only_greet (c : cfg o) f i rest inp :
    stack c = (f, CSub i) :: rest -> us (ms c) i = USubd ->
    enabled p gfl c (MIn inp) = true -> inp = IDn i DH.
  Proof.
    intros Hst Hus He. destruct (pending_up Hst eq_refl He) as (d & -> & _ & H2).
    destruct d; [reflexivity | rewrite H2 in Hus by discriminate..]; discriminate.
  Qed.
  Arguments only_greet {c f i rest inp}.

  (** what the environment can do when no call to an upstream that has not answered is
      pending: subscribe, talk back as the sink, speak as a live upstream *)
  Lemma open_inputs (c : cfg o) d inp :
    fbase d (ms c) -> (forall i, us (ms c) i <> USubd) ->
    enabled p gfl c (MIn inp) = true ->
    (inp = ISub 0 0 /\ stack c = [] /\ subd (ms c) 0 = false) \/
    (exists u, inp = IUp 0 u /\ sk (ms c) 0 = SLive) \/
    (exists i dm, inp = IDn i dm /\ dm <> DH /\ us (ms c) i = ULive).
  Proof.
    intros B Hns' He. destruct inp as [s aux|s u|i dm|s].
    - apply sub_enabled in He. destruct He as (-> & -> & E). auto.
    - destruct (en_up _ _ _ _ _ He) as (_ & Hsk & _). right; left.
      destruct s; [eauto | rewrite (pb_sk_other B) in Hsk; discriminate].
    - right; right. exists i, dm. split; [reflexivity|].
      assert (Hd : dm <> DH).
      { intros ->. destruct (en_greet _ _ _ _ He) as (_ & Hu & _). now apply Hns' in Hu. }
      split; [exact Hd|]. now destruct (en_dn _ _ _ _ Hd He) as (_ & Hu & _).
    - destruct (en_tick _ _ _ _ He) as [_ E]. rewrite (pb_task B) in E. discriminate.
  Qed.
  Arguments open_inputs {c d inp}.

  (** [op_half] (Ports.v) for a step that keeps [dead] unset: the new phase remains to be shown *)
  Tactic Notation "op_ph" constr(L) := op_half L; [.. | split; [assumption|]].

  Local Hint Resolve AllDone_cons AllDone_nil : core.

  Lemma port_live s u ob ik :
    outer_is ob s u -> inner_is ik s u -> (ob = false -> ik <> None) -> u (holder ik) = ULive.
  Proof.
    intros [_ H0] Hin Hoi. destruct ik; [apply Hin|]. destruct ob; [exact H0 | now destruct Hoi].
  Qed.

  (** a Pull goes to the active inner if there is one, else to the outer *)
  Lemma pull_routed s u ob ik :
    outer_is ob s u -> inner_is ik s u -> (ob = false -> ik <> None) ->
    fl_handle (IUp 0 UP) s = (s, [], ACall (CUp (holder ik) UP) FlDone).
  Proof.
    intros [Eou _] Hin Hoi. cbn. destruct ik; destruct Hin as (-> & _); [reflexivity|].
    destruct ob; [now rewrite Eou | now destruct Hoi].
  Qed.

  (** the counters of port 0 after the two halves of a step, one equation each *)
  Ltac counters C1 C2 :=
    apply cnt3_eq in C1; apply cnt3_eq in C2;
    destruct C1 as (Cc1 & Cp1 & Cd1); destruct C2 as (Cc2 & Cp2 & Cd2).

  (** nothing has happened: the sink subscribes, the outer is subscribed *)
  Lemma in_init (c : cfg o) inp :
    stack c = [] -> fbase None (ms c) -> subd (ms c) 0 = false ->
    sk (ms c) 0 = SNone -> (forall i, us (ms c) i = UNone) -> (c14 p = true -> uncounted (ms c)) ->
    enabled p gfl c (MIn inp) = true -> Inv (step p c (MIn inp)).
  Proof.
    intros Hst B Hsd Hsk Hun Hz He.
    assert (Hns' : forall i, us (ms c) i <> USubd) by (intros i; rewrite Hun; discriminate).
    destruct (open_inputs B Hns' He) as [(-> & _) | [(u & -> & E) | (i & dm & -> & _ & E)]];
      [| congruence | rewrite Hun in E; discriminate].
    step_eqs (en_step_in _ _ _ _ He eq_refl). env_half (pin_sub Em1 B).
    op_ph (pcall_sub Em B1 I); [rewrite U1; apply Hun | now rewrite K1, Hsk | exact S1 |].
    apply PhSub0; rewrite ?Ec, ?Es, ?S2, ?K2, ?K1, ?U2, ?U1; auto.
    - now rewrite Hst.
    - intros i. now rewrite upd_other by discriminate.
    - intros Hc. destruct (Hz Hc) as [Z1 Z2]. split; [now rewrite O2, O1 | now rewrite C2, C1].
  Qed.

  (** the outer greets: the sink is greeted *)
  Lemma in_sub0 (c : cfg o) inp :
    stack c = [(FlDone, CSub 0)] -> fbase None (ms c) -> subd (ms c) 0 = true ->
    sk (ms c) 0 = SNone -> us (ms c) 0 = USubd -> (forall i, us (ms c) (S i) = UNone) ->
    fl_outer (cst c) = false -> fl_inner (cst c) = None -> (c14 p = true -> uncounted (ms c)) ->
    enabled p gfl c (MIn inp) = true -> Inv (step p c (MIn inp)).
  Proof.
    intros Hst B Hsd Hsk Hus0 Hun Eou Ein Hz He.
    pose proof (only_greet Hst Hus0 He) as ->.
    assert (Hh : handle o (IDn 0 DH) (cst c) =
                 ({| fl_outer := true; fl_inner := fl_inner (cst c) |}, [],
                  ACall (CDn 0 DH) FlDone)) by reflexivity.
    step_eqs (en_step_in _ _ _ _ He Hh). env_half (pin_greet Em1 B ltac:(congruence)).
    op_ph (pcall_greet Em B1); [congruence|].
    apply PhLive with (ob := true) (ik := None);
      rewrite ?Ec, ?Es, ?Hst, ?S2, ?S1, ?U2, ?U1; auto.
    - intros [|i]; [discriminate | rewrite upd_other, Hun by discriminate; discriminate].
    - split; [reflexivity | apply upd_same].
    - split; [exact Ein|]. intros i. rewrite upd_other, Hun by discriminate. discriminate.
    - discriminate.
    - intros Hc. split; [reflexivity|]. destruct (Hz Hc) as [Z1 Z2].
      rewrite Z2 in C1. counters C1 C2. unfold token_at. rewrite Cc2, Cp2, Cd2, Cc1, Cp1, Cd1, O2, O1.
      repeat split; auto.
  Qed.

  (** the sink is live and talks back *)
  Lemma in_live_up (c : cfg o) ob ik u :
    AllDone (stack c) -> fbase None (ms c) -> subd (ms c) 0 = true ->
    sk (ms c) 0 = SLive -> (forall i, us (ms c) i <> USubd) ->
    outer_is ob (cst c) (us (ms c)) -> inner_is ik (cst c) (us (ms c)) -> (ob = false -> ik <> None) ->
    (c14 p = true -> ob = true /\ token_at (ms c) (holder ik)) ->
    enabled p gfl c (MIn (IUp 0 u)) = true -> Inv (step p c (MIn (IUp 0 u))).
  Proof.
    intros Had B Hsd Hsk Hns' Hout Hin Hoi Hcnt He.
    pose proof (port_live Hout Hin Hoi) as Hpl. destruct Hout as [Eou Hus0].
    destruct (en_up _ _ _ _ _ He) as (_ & _ & Hcr).
    destruct (umsg_is_term u) eqn:Hu.
    - (* Error, Terminate: what is live is stopped, the inner first *)
      destruct ik as [k|].
      + destruct Hin as (Ein & Husk & Honly).
        assert (Hh : handle o (IUp 0 u) (cst c) =
                 (cst c, [], ACall (CUp (S k) UT) FlThenOuter))
         by (destruct u; try discriminate; cbn; now rewrite Ein).
        step_eqs (en_step_in _ _ _ _ He Hh). env_half (pin_stop Em1 B Hu).
        op_ph (pcall_stop Em B1 eq_refl); [now rewrite U1|].
        apply PhDisp with (j := S k) (rest := stack c);
         rewrite ?Ec, ?Es, ?S2, ?S1, ?K2, ?U2, ?U1; auto.
        * pointwise.
        * apply upd_same.
        * intros i. unfold upd. destruct (Nat.eqb_spec (S i) (S k)); [discriminate|].
          intros H. apply Honly in H. congruence.
        * rewrite Eou. intros ->. now rewrite upd_other by discriminate.
        * rewrite Eou. intros ->. rewrite upd_other, Hus0 by discriminate. discriminate.
      + destruct ob; [|now destruct Hoi]. destruct Hin as (Ein & Hnl).
        assert (Hh : handle o (IUp 0 u) (cst c) = (cst c, [], ACall (CUp 0 UT) FlDone))
         by (destruct u; try discriminate; cbn; unfold fl_then_outer; now rewrite Ein, Eou).
        step_eqs (en_step_in _ _ _ _ He Hh). env_half (pin_stop Em1 B Hu).
        op_ph (pcall_stop Em B1 eq_refl); [now rewrite U1|].
        apply PhOver; rewrite ?Es, ?S2, ?S1, ?K2, ?K1, ?U2, ?U1; auto.
        * pointwise.
        * intros [|i]; [discriminate | rewrite upd_other by discriminate; apply Hnl].
    - (* Pull: to the stored inner, else to the outer *)
      destruct u; try discriminate.
      pose proof (pull_routed (conj Eou Hus0) Hin Hoi) as Hh.
      step_eqs (en_step_in _ _ _ _ He Hh). env_half (pin_pull Em1 B).
      op_ph (pcall_pull Em B1); [now rewrite U1 | |].
      { intros Hc. destruct (Hcnt Hc) as (_ & T1 & _). destruct (Hreg Hc) as [_ H1].
       pose proof (Hcr eq_refl H1). rewrite O1. lia. }
      apply PhLive with (ob := ob) (ik := ik);
       rewrite ?Ec, ?Es, ?S2, ?S1, ?K2, ?K1, ?U2, ?U1; auto. { now split. }
      intros Hc. destruct (Hcnt Hc) as (Eb & T1 & T2 & T3). destruct (Hreg Hc) as [_ H1].
      pose proof (Hcr eq_refl H1). split; [exact Eb|]. counters C1 C2.
      unfold token_at. rewrite Cc2, Cp2, Cd2, Cc1, Cp1, Cd1, O2, O1, upd_same.
      repeat split; [lia | | lia]. intros i Hi. rewrite upd_other by exact Hi. auto.
  Qed.

  (** in the regime of C14 the upstream that speaks is the one that holds the token *)
  Lemma speaker_owes (c : cfg o) ob ik i d :
    (c14 p = true -> ob = true /\ token_at (ms c) (holder ik)) -> d <> DH ->
    enabled p gfl c (MIn (IDn i d)) = true -> c14 p = true ->
    i = holder ik /\ owed (ms c) i = 1 /\ credit (ms c) 0 = 0 /\ npull (ms c) 0 = S (ndata (ms c) 0).
  Proof.
    intros Hcnt Hdh He. destruct (en_dn _ _ _ _ Hdh He) as (_ & _ & How).
    intros Hc. destruct (Hcnt Hc) as (_ & T1 & T2 & T3). destruct (Hreg Hc) as [H1 _].
    specialize (How H1). destruct (Nat.eq_dec i (holder ik)) as [->|Hne];
      [repeat split; lia | rewrite (T2 i Hne) in How; lia].
  Qed.

  (** the sink is live and the outer speaks *)
  Lemma in_live_outer (c : cfg o) ob ik d :
    AllDone (stack c) -> fbase None (ms c) -> subd (ms c) 0 = true ->
    sk (ms c) 0 = SLive -> (forall i, us (ms c) i <> USubd) ->
    outer_is ob (cst c) (us (ms c)) -> inner_is ik (cst c) (us (ms c)) -> (ob = false -> ik <> None) ->
    (c14 p = true -> ob = true /\ token_at (ms c) (holder ik)) ->
    d <> DH -> us (ms c) 0 = ULive ->
    enabled p gfl c (MIn (IDn 0 d)) = true -> Inv (step p c (MIn (IDn 0 d))).
  Proof.
    intros Had B Hsd Hsk Hns' Hout Hin Hoi Hcnt Hdh Hlv He. pose proof (nest_off Hnonest) as Hnn.
    pose proof (@speaker_owes _ _ _ _ _ Hcnt Hdh He) as Hown. destruct Hout as [Eou Hus0].
    destruct ob; [|rewrite Hus0 in Hlv; discriminate].
    destruct d as [|v|e|]; [congruence | | |].
    - (* it emits an inner source *)
      pose proof (fresh_inner _ _ He) as Hfr.
      destruct ik as [k|]; [destruct Hin as (Ein & Husk & Honly) | destruct Hin as (Ein & Hnl)].
      + (* the stored inner is told to stop first *)
        assert (Hh : handle o (IDn 0 (DD v)) (cst c) =
                (cst c, [], ACall (CUp (S k) UT) (FlSubInner (inner_id v))))
         by (cbn; now rewrite Ein).
        step_eqs (en_step_in _ _ _ _ He Hh). env_half (pin_data Em1 B).
        op_ph (pcall_stop Em B1 eq_refl); [now rewrite U1|].
        apply PhSwitch with (k := inner_id v) (j := S k) (rest := stack c);
         rewrite ?Ec, ?Es, ?S2, ?S1, ?K2, ?K1, ?U2, ?U1; auto.
        * pointwise.
        * apply upd_same.
        * rewrite upd_other; [exact Hfr | intros E; rewrite E, Husk in Hfr; discriminate].
        * intros i. unfold upd. destruct (Nat.eqb_spec (S i) (S k)); [discriminate|].
          intros H. apply Honly in H. congruence.
        * destruct (c14 p) eqn:Hc; [|reflexivity]. destruct (Hown eq_refl). discriminate.
      + (* it is subscribed *)
        assert (Hh : handle o (IDn 0 (DD v)) (cst c) =
                (cst c, [], ACall (CSub (S (inner_id v))) FlDone))
         by (cbn; now rewrite Ein).
        step_eqs (en_step_in _ _ _ _ He Hh). env_half (pin_data Em1 B).
        op_ph (pcall_sub Em B1 I); [now rewrite U1 | now rewrite K1, Hsk | now rewrite S1 |].
        apply PhSubI with (k := inner_id v) (rest := stack c);
         rewrite ?Ec, ?Es, ?S2, ?S1, ?K2, ?K1, ?U2, ?U1; auto.
        * intros i Hi. now rewrite upd_other by exact Hi.
        * apply upd_same.
        * intros i. unfold upd. destruct (Nat.eqb_spec (S i) (S (inner_id v))); [discriminate|].
          apply Hnl.
        * intros Hc. destruct (Hown Hc) as (_ & T1 & T2 & T3).
          destruct (Hcnt Hc) as (_ & _ & T4 & _). counters C1 C2.
          unfold transit. rewrite Cc2, Cp2, Cd2, Cc1, Cp1, Cd1, O2, O1.
          repeat split; auto. intros [|i]; [rewrite upd_same; lia|].
          rewrite upd_other by discriminate. now apply T4.
    - (* it fails: the stored inner is told to stop, then the sink is failed *)
      destruct ik as [k|]; [destruct Hin as (Ein & Husk & Honly) | destruct Hin as (Ein & Hnl)].
      + assert (Hh : handle o (IDn 0 (DE e)) (cst c) =
                (cst c, [], ACall (CUp (S k) UT) (FlThenErr e))) by (cbn; now rewrite Ein).
        step_eqs (en_step_in _ _ _ _ He Hh). env_half (pin_error Em1 B Hns Hsk ltac:(congruence)).
        op_ph (pcall_stop Em B1 eq_refl); [rewrite U1, upd_other by discriminate; exact Husk|].
        apply PhErr with (e := e) (j := S k) (rest := stack c);
         rewrite ?Ec, ?Es, ?S2, ?S1, ?K2, ?K1, ?U2, ?U1; auto.
        * pointwise.
        * apply upd_same.
        * intros [|i]; unfold upd; cbn; [discriminate|].
          destruct (Nat.eqb_spec i k); [discriminate|]. intros H. apply Honly in H. congruence.
      + assert (Hh : handle o (IDn 0 (DE e)) (cst c) =
                (cst c, [], ACall (CDn 0 (DE e)) FlDone)) by (cbn; now rewrite Ein).
        step_eqs (en_step_in _ _ _ _ He Hh). env_half (pin_error Em1 B Hns Hsk ltac:(congruence)).
        op_ph (pcall_error Em B1 (Hnn _)); [now rewrite K1|].
        apply PhOver; rewrite ?Es, ?S2, ?S1, ?K2, ?U2, ?U1; auto.
        * pointwise.
        * intros [|i]; [discriminate | rewrite upd_other by discriminate; apply Hnl].
    - (* it completes *)
      destruct ik as [k|]; [destruct Hin as (Ein & Husk & Honly) | destruct Hin as (Ein & Hnl)].
      + (* the stored inner goes on alone *)
        assert (Hh : handle o (IDn 0 DT) (cst c) =
                ({| fl_outer := false; fl_inner := fl_inner (cst c) |}, [], ARet))
         by (cbn; now rewrite Ein).
        step_eqs (en_step_in _ _ _ _ He Hh). env_half (pin_term Em1 B ltac:(congruence)).
        done_half pcall_done; [| rewrite K1, Hsk; discriminate |].
        2: { intros _ Hc. destruct (Hown Hc). discriminate. }
        split; [exact Ed|].
        apply PhLive with (ob := false) (ik := Some k); rewrite ?Ec, ?Es, ?S1, ?K1, ?U1; auto.
        * pointwise.
        * split; [reflexivity | apply upd_same].
        * split; [exact Ein|]. rewrite upd_other by discriminate. split; [exact Husk|].
          intros i. rewrite upd_other by discriminate. apply Honly.
        * discriminate.
        * intros Hc. destruct (Hown Hc). discriminate.
      + assert (Hh : handle o (IDn 0 DT) (cst c) = (cst c, [], ACall (CDn 0 DT) FlDone))
         by (cbn; now rewrite Ein).
        step_eqs (en_step_in _ _ _ _ He Hh). env_half (pin_term Em1 B ltac:(congruence)).
        op_ph (pcall_term Em B1 (Hnn _)); [now rewrite K1|].
        apply PhOver; rewrite ?Es, ?S2, ?S1, ?K2, ?U2, ?U1; auto.
        * pointwise.
        * intros [|i]; [discriminate | rewrite upd_other by discriminate; apply Hnl].
  Qed.

  (** the sink is live and a live inner speaks: it is the stored one *)
  Lemma in_live_inner (c : cfg o) ob ik k1 d :
    AllDone (stack c) -> fbase None (ms c) -> subd (ms c) 0 = true ->
    sk (ms c) 0 = SLive -> (forall i, us (ms c) i <> USubd) ->
    outer_is ob (cst c) (us (ms c)) -> inner_is ik (cst c) (us (ms c)) -> (ob = false -> ik <> None) ->
    (c14 p = true -> ob = true /\ token_at (ms c) (holder ik)) ->
    d <> DH -> us (ms c) (S k1) = ULive ->
    enabled p gfl c (MIn (IDn (S k1) d)) = true -> Inv (step p c (MIn (IDn (S k1) d))).
  Proof.
    intros Had B Hsd Hsk Hns' Hout Hin Hoi Hcnt Hdh Hlv He. pose proof (nest_off Hnonest) as Hnn.
    pose proof (@speaker_owes _ _ _ _ _ Hcnt Hdh He) as Hown. destruct Hout as [Eou Hus0].
    destruct ik as [k|]; [destruct Hin as (Ein & Husk & Honly) | now apply Hin in Hlv].
    pose proof (Honly _ Hlv). subst k1.
    destruct d as [|v|e|]; [congruence | | |].
    - (* Data is relayed *)
      assert (Hh : handle o (IDn (S k) (DD v)) (cst c) =
              (cst c, [], ACall (CDn 0 (DD v)) FlDone)) by reflexivity.
      step_eqs (en_step_in _ _ _ _ He Hh). env_half (pin_data Em1 B).
      op_ph (pcall_data Em B1 (Hnn _)); [now rewrite K1 | |].
    { intros Hc. destruct (Hown Hc) as (_ & _ & _ & T3). apply cnt3_eq in C1.
       destruct C1 as (_ & -> & ->). lia. }
      apply PhLive with (ob := ob) (ik := Some k);
       rewrite ?Ec, ?Es, ?S2, ?S1, ?K2, ?K1, ?U2, ?U1; auto. { now split. } { now split. }
      intros Hc. destruct (Hown Hc) as (_ & T1 & T2 & T3). destruct (Hcnt Hc) as (Eb & _ & T4 & _).
      split; [exact Eb|]. counters C1 C2.
      unfold token_at. rewrite Cc2, Cp2, Cd2, Cc1, Cp1, Cd1, O2, O1, upd_same.
      cbn [holder] in *. repeat split; [lia | | lia]. intros i Hi. rewrite upd_other by exact Hi. auto.
    - (* Error: the outer is told to stop, then the sink is failed *)
      destruct ob.
      + assert (Hh : handle o (IDn (S k) (DE e)) (cst c) =
                (cst c, [], ACall (CUp 0 UT) (FlThenErr e))) by (cbn; now rewrite Eou).
        step_eqs (en_step_in _ _ _ _ He Hh). env_half (pin_error Em1 B Hns Hsk ltac:(congruence)).
        op_ph (pcall_stop Em B1 eq_refl); [rewrite U1, upd_other by discriminate; exact Hus0|].
        apply PhErr with (e := e) (j := 0) (rest := stack c);
         rewrite ?Ec, ?Es, ?S2, ?S1, ?K2, ?K1, ?U2, ?U1; auto.
        * pointwise.
        * intros [|i]; unfold upd; cbn; [discriminate|].
          destruct (Nat.eqb_spec i k); [discriminate|]. intros H. apply Honly in H. congruence.
      + assert (Hh : handle o (IDn (S k) (DE e)) (cst c) =
                (cst c, [], ACall (CDn 0 (DE e)) FlDone)) by (cbn; now rewrite Eou).
        step_eqs (en_step_in _ _ _ _ He Hh). env_half (pin_error Em1 B Hns Hsk ltac:(congruence)).
        op_ph (pcall_error Em B1 (Hnn _)); [now rewrite K1|].
        apply PhOver; rewrite ?Es, ?S2, ?S1, ?K2, ?U2, ?U1; auto.
        * pointwise.
        * intros [|i]; unfold upd; cbn; [rewrite Hus0; discriminate|].
          destruct (Nat.eqb_spec i k); [discriminate|]. intros H. apply Honly in H. congruence.
    - (* Terminate: the outer is pulled again, or the sink is completed *)
      destruct ob.
      + assert (Hh : handle o (IDn (S k) DT) (cst c) =
                ({| fl_outer := true; fl_inner := None |}, [], ACall (CUp 0 UP) FlDone))
         by (cbn; now rewrite Eou).
        step_eqs (en_step_in _ _ _ _ He Hh). env_half (pin_term Em1 B ltac:(congruence)).
        op_ph (pcall_pull Em B1); [rewrite U1, upd_other by discriminate; exact Hus0 | |].
    { intros Hc. destruct (Hcnt Hc) as (_ & _ & T2 & _).
         rewrite O1, upd_other by discriminate. now apply T2. }
        apply PhLive with (ob := true) (ik := None);
         rewrite ?Ec, ?Es, ?S2, ?S1, ?K2, ?K1, ?U2, ?U1; auto.
        * pointwise.
        * split; [reflexivity | now rewrite upd_other by discriminate].
        * split; [reflexivity|]. intros i. unfold upd.
          destruct (Nat.eqb_spec (S i) (S k)); [discriminate|].
          intros H. apply Honly in H. congruence.
        * discriminate.
        * intros Hc. destruct (Hown Hc) as (_ & T1 & T2 & T3).
          destruct (Hcnt Hc) as (_ & _ & T4 & _). split; [reflexivity|]. counters C1 C2.
          unfold token_at. rewrite Cc2, Cp2, Cd2, Cc1, Cp1, Cd1, O2, O1, upd_same.
          cbn [holder] in *. rewrite upd_other by discriminate.
          repeat split; [rewrite T4 by discriminate; lia | | lia].
          intros [|i] Hi; [congruence|]. rewrite upd_other by discriminate.
          unfold upd. destruct (Nat.eqb_spec (S i) (S k)); [lia | now apply T4].
      + assert (Hh : handle o (IDn (S k) DT) (cst c) = (cst c, [], ACall (CDn 0 DT) FlDone))
         by (cbn; now rewrite Eou).
        step_eqs (en_step_in _ _ _ _ He Hh). env_half (pin_term Em1 B ltac:(congruence)).
        op_ph (pcall_term Em B1 (Hnn _)); [now rewrite K1|].
        apply PhOver; rewrite ?Es, ?S2, ?S1, ?K2, ?U2, ?U1; auto.
        * pointwise.
        * intros [|i]; unfold upd; cbn; [rewrite Hus0; discriminate|].
          destruct (Nat.eqb_spec i k); [discriminate|]. intros H. apply Honly in H. congruence.
  Qed.

  Lemma in_live (c : cfg o) ob ik inp :
    AllDone (stack c) -> fbase None (ms c) -> subd (ms c) 0 = true ->
    sk (ms c) 0 = SLive -> (forall i, us (ms c) i <> USubd) ->
    outer_is ob (cst c) (us (ms c)) -> inner_is ik (cst c) (us (ms c)) -> (ob = false -> ik <> None) ->
    (c14 p = true -> ob = true /\ token_at (ms c) (holder ik)) ->
    enabled p gfl c (MIn inp) = true -> Inv (step p c (MIn inp)).
  Proof.
    intros Had B Hsd Hsk Hns' Hout Hin Hoi Hcnt He.
    destruct (open_inputs B Hns' He) as [(_ & _ & E) | [(u & -> & _) | (i & d & -> & Hdh & Hlv)]];
      [congruence | eapply in_live_up; eassumption |].
    destruct i; [eapply in_live_outer | eapply in_live_inner]; eassumption.
  Qed.

  (** the output is over: nothing but returns *)
  Lemma in_over (c : cfg o) inp :
    fbase None (ms c) -> subd (ms c) 0 = true -> sk_over (sk (ms c) 0) = true ->
    (forall i, us (ms c) i <> USubd) -> (forall i, us (ms c) i <> ULive) ->
    enabled p gfl c (MIn inp) = true -> False.
  Proof.
    intros B Hsd Hsk Hns' Hnl He.
    destruct (open_inputs B Hns' He) as [(_ & _ & E) | [(u & _ & E) | (i & d & _ & _ & E)]];
      [congruence | rewrite E in Hsk; discriminate | now apply Hnl in E].
  Qed.

  (** the new inner greets: its talkback is stored and it is pulled *)
  Lemma in_subi (c : cfg o) k rest inp :
    stack c = (FlDone, CSub (S k)) :: rest -> AllDone rest ->
    fbase None (ms c) -> subd (ms c) 0 = true -> sk (ms c) 0 = SLive ->
    (forall i, i <> S k -> us (ms c) i <> USubd) ->
    us (ms c) 0 = ULive -> fl_outer (cst c) = true -> us (ms c) (S k) = USubd ->
    (forall i, us (ms c) (S i) <> ULive) -> (c14 p = true -> transit (ms c)) ->
    enabled p gfl c (MIn inp) = true -> Inv (step p c (MIn inp)).
  Proof.
    intros Hst Had B Hsd Hsk Hns' Hus0 Eou Husk Hnl Htr He.
    pose proof (only_greet Hst Husk He) as ->.
    assert (Hh : handle o (IDn (S k) DH) (cst c) =
                 ({| fl_outer := fl_outer (cst c); fl_inner := Some (S k) |}, [],
                  ACall (CUp (S k) UP) FlDone)) by reflexivity.
    step_eqs (en_step_in _ _ _ _ He Hh). env_half (pin_greet Em1 B ltac:(congruence)).
    op_ph (pcall_pull Em B1); [rewrite U1; apply upd_same | |].
        { intros Hc. destruct (Htr Hc) as (_ & T & _). now rewrite O1. }
    apply PhLive with (ob := true) (ik := Some k);
      rewrite ?Ec, ?Es, ?Hst, ?S2, ?S1, ?K2, ?K1, ?U2, ?U1; auto.
    - intros i. unfold upd. destruct (Nat.eqb_spec i (S k)); [discriminate | now apply Hns'].
    - split; [exact Eou | now rewrite upd_other by discriminate].
    - split; [reflexivity|]. split; [apply upd_same|]. intros i. unfold upd.
      destruct (Nat.eqb_spec (S i) (S k)); [congruence | intros H; now apply Hnl in H].
    - discriminate.
    - intros Hc. destruct (Htr Hc) as (T1 & T2 & T3). split; [reflexivity|]. counters C1 C2.
      unfold token_at. rewrite Cc2, Cp2, Cd2, Cc1, Cp1, Cd1, O2, O1, upd_same, T1, T2, T3.
      repeat split; auto. intros i Hi. now rewrite upd_other by exact Hi.
  Qed.

  Lemma inv_in (c : cfg o) inp :
    Inv c -> enabled p gfl c (MIn inp) = true -> Inv (step p c (MIn inp)).
  Proof.
    intros [_ Hph] He.
    destruct Hph as [Hst B Hsd Hsk Hun Hz
                    | Hst B Hsd Hsk Hus0 Hun Eou Ein Hz
                    | ob ik Had B Hsd Hsk Hns' Hout Hin Hoi Hcnt
                    | Had B Hsd Hsk Hns' Hnl
                    | k j rest Hst Had B Hsd Hsk Hns' Hus0 Eou Husj Husk Hnl Hc14
                    | k rest Hst Had B Hsd Hsk Hns' Hus0 Eou Husk Hnl Htr
                    | e j rest Hst Had B Hsd Hsk Hns' Husj Hnl
                    | j rest Hst Had B Hsd Hsk Hns' Husj Hnl Hou1 Hou2].
    - now apply in_init.
    - now apply in_sub0.
    - eapply in_live; eassumption.
    - now apply in_over in He.
    - destruct (only_ret Hst Husj He).
    - eapply in_subi; eassumption.
    - destruct (only_ret Hst Husj He).
    - destruct (only_ret Hst Husj He).
  Qed.

  Lemma inv_ret (c : cfg o) : Inv c -> enabled p gfl c MRet = true -> Inv (step p c MRet).
  Proof.
    intros [Hd Hph] He. destruct (en_ret _ _ _ He) as (f & cl & rest0 & Hst0 & Hsub).
    specialize (Hsub Hlate). pose proof (nest_off Hnonest) as Hnn.
    destruct Hph as [Hst B Hsd Hsk Hun Hz
                    | Hst B Hsd Hsk Hus0 Hun Eou Ein Hz
                    | ob ik Had B Hsd Hsk Hns' Hout Hin Hoi Hcnt
                    | Had B Hsd Hsk Hns' Hnl
                    | k j rest Hst Had B Hsd Hsk Hns' Hus0 Eou Husj Husk Hnl Hc14
                    | k rest Hst Had B Hsd Hsk Hns' Hus0 Eou Husk Hnl Htr
                    | e j rest Hst Had B Hsd Hsk Hns' Husj Hnl
                    | j rest Hst Had B Hsd Hsk Hns' Husj Hnl Hou1 Hou2];
      try (rewrite Hst in Hst0; injection Hst0 as <- <- <-).
    - congruence.
    - now destruct (Hsub 0 eq_refl).
    - (* live: a finished activation returns; at a quiescent point where nothing is owed
         the sink holds the token *)
      pose proof (port_live Hout Hin Hoi) as Hpl.
      rewrite Hst0 in Had. apply AllDone_inv in Had. destruct Had as [-> Had].
      assert (Hh : resume o FlDone (cst c) = (cst c, [], ARet)) by reflexivity.
      step_eqs (en_step_ret _ _ _ He Hst0 Hh). env_half (pin_ret Em1 B). apply cnt3_eq in C1. destruct C1 as (Cc1 & Cp1 & Cd1).
      done_half pcall_done; [| rewrite K1, Hsk; discriminate |].
      2: { intros _ Hc _ Hall. destruct (Hcnt Hc) as (_ & T1 & _ & T3).
           assert (H0 : owed m1 (holder ik) = 0).
           { apply Hall, (pb_known B1). rewrite U1, Hpl. discriminate. }
           rewrite O1 in H0. rewrite Cp1, Cd1. lia. }
      split; [exact Ed|].
      apply PhLive with (ob := ob) (ik := ik); rewrite ?Ec, ?Es, ?S1, ?K1, ?U1; auto.
      unfold token_at. now rewrite Cc1, Cp1, Cd1, O1.
    - (* over *)
      rewrite Hst0 in Had. apply AllDone_inv in Had. destruct Had as [-> Had].
      assert (Hh : resume o FlDone (cst c) = (cst c, [], ARet)) by reflexivity.
      step_eqs (en_step_ret _ _ _ He Hst0 Hh). env_half (pin_ret Em1 B).
      done_half pcall_done; [| intros _ _; rewrite U1; exact Hnl |].
      2: { intros _ _ Hl. rewrite K1 in Hl. rewrite Hl in Hsk. discriminate. }
      split; [exact Ed|].
      apply PhOver; rewrite ?Es, ?S1, ?K1, ?U1; auto.
    - (* the old inner has been told to stop: the new one is subscribed *)
      assert (Hh : resume o (FlSubInner k) (cst c) = (cst c, [], ACall (CSub (S k)) FlDone))
        by reflexivity.
      step_eqs (en_step_ret _ _ _ He Hst Hh). env_half (pin_ret Em1 B).
      op_ph (pcall_sub Em B1 I); [now rewrite U1 | now rewrite K1, Hsk | now rewrite S1 |].
      apply PhSubI with (k := k) (rest := rest); rewrite ?Ec, ?Es, ?S2, ?S1, ?K2, ?K1, ?U2, ?U1; auto.
      + intros i Hi. now rewrite upd_other by exact Hi.
      + apply upd_same.
      + intros i. unfold upd. destruct (Nat.eqb_spec (S i) (S k)); [discriminate | apply Hnl].
      + intros Hc. congruence.
    - now destruct (Hsub (S k) eq_refl).
    - (* the other level has been told to stop: the sink is failed *)
      assert (Hh : resume o (FlThenErr e) (cst c) = (cst c, [], ACall (CDn 0 (DE e)) FlDone))
        by reflexivity.
      step_eqs (en_step_ret _ _ _ He Hst Hh). env_half (pin_ret Em1 B).
      op_ph (pcall_error Em B1 (Hnn _)); [now rewrite K1|].
      apply PhOver; rewrite ?Es, ?S2, ?S1, ?K2, ?U2, ?U1; auto.
    - (* the sink disposed, the inner has been told: now the outer *)
      destruct (fl_outer (cst c)) eqn:Eou.
      + assert (Hh : resume o FlThenOuter (cst c) = (cst c, [], ACall (CUp 0 UT) FlDone))
          by (cbn; unfold fl_then_outer; now rewrite Eou).
        step_eqs (en_step_ret _ _ _ He Hst Hh). env_half (pin_ret Em1 B).
        op_ph (pcall_stop Em B1 eq_refl); [rewrite U1; now apply Hou1|].
        apply PhOver; rewrite ?Es, ?S2, ?S1, ?K2, ?K1, ?Hsk, ?U2, ?U1; auto.
        * pointwise.
        * intros [|i]; [discriminate | rewrite upd_other by discriminate; apply Hnl].
      + assert (Hh : resume o FlThenOuter (cst c) = (cst c, [], ARet))
          by (cbn; unfold fl_then_outer; now rewrite Eou).
        step_eqs (en_step_ret _ _ _ He Hst Hh). env_half (pin_ret Em1 B).
        assert (Hnl' : forall i, us (ms c) i <> ULive) by (intros [|i]; auto).
        done_half pcall_done; [| intros _ _; rewrite U1; exact Hnl' |].
        2: { intros _ _ Hl. rewrite K1 in Hl. rewrite Hl in Hsk. discriminate. }
        split; [exact Ed|].
        apply PhOver; rewrite ?Es, ?S1, ?K1, ?Hsk, ?U1; auto.
  Qed.

  Theorem inv_reach (c : cfg o) : reach p gfl c -> Inv c.
  Proof.
    apply reach_invariant; [exact inv0|]. intros c' m _ HI He.
    destruct m; [now apply inv_in | now apply inv_ret].
  Qed.

  (** ** C11, switch: at every control point at most one inner source can
      still speak, and it is the one whose talkback is stored *)
  Theorem switch_one (c : cfg o) j k :
    reach p gfl c -> us (ms c) (S j) = ULive -> us (ms c) (S k) = ULive ->
    j = k /\ fl_inner (cst c) = Some (S k).
  Proof.
    intros Hr Hj Hk. pose proof (i_ph (inv_reach Hr)) as Hph.
    pose proof (ph_switch Hph Hj). pose proof (ph_switch Hph Hk). split; congruence.
  Qed.

  (** ** C11, completion.  While the sink is live some level can still speak,
      or the Error that will finish it is on its way: the top activation is
      the one that told the other level to stop and will deliver the Error
      next ([FlThenErr]), and nothing but the return of that call is enabled. *)
  Theorem live_has_source (c : cfg o) :
    reach p gfl c -> sk (ms c) 0 = SLive ->
    us (ms c) 0 = ULive \/ (exists k, us (ms c) (S k) = ULive) \/
    (exists e j rest, stack c = (FlThenErr e, CUp j UT) :: rest /\
                      err_due (ms c) 0 = Some e /\ us (ms c) j = UStopped).
  Proof.
    intros Hr Hlive.
    destruct (i_ph (inv_reach Hr))
      as [? ? ? Hsk|? ? ? Hsk|ob ik ? ? ? ? ? [_ Hus0] Hin Hoi|? ? ? Hsk|
          |? ? ? ? ? ? ? ? Hus0|e j rest Hst ? B ? ? ? Husj|? ? ? ? ? ? Hsk];
      try congruence; auto.
    - destruct ob; [auto|]. destruct ik as [k|]; [|now destruct Hoi].
      right; left. exists k. apply Hin.
    - rewrite Hlive in Hsk. discriminate.
    - right; right. exists e, j, rest. repeat split; auto. apply B.
  Qed.

  (** ** C11, completion, converse: the sink is sent Terminate only when the
      outer source has completed and no inner source is live *)

  Lemma handle_term i s s' os k :
    fl_handle i s = (s', os, ACall (CDn 0 DT) k) ->
    os = [] /\
    ((i = IDn 0 DT /\ fl_inner s = None) \/
     (exists j, i = IDn (S j) DT /\ fl_outer s = false)).
  Proof.
    destruct i as [[|?] ?|[|?] [|?|]|[|?] [|?|?|]|?]; cbn; unfold fl_then_outer;
      destruct (fl_inner s) eqn:Ein, (fl_outer s) eqn:Eou; intros H; try discriminate H;
      injection H as _ <- _; eauto.
  Qed.

  Lemma resume_term f s s' os k : fl_resume f s = (s', os, ACall (CDn 0 DT) k) -> False.
  Proof.
    destruct f; cbn; unfold fl_then_outer; try destruct (fl_outer s); discriminate.
  Qed.

  (** once the output is finished nothing but returns can happen *)
  Lemma finished_only_ret (c : cfg o) inp :
    Inv c -> sk (ms c) 0 = SFinished -> enabled p gfl c (MIn inp) = true -> False.
  Proof.
    intros [_ Hph] Hfin He.
    destruct Hph as [| |? ? ? ? ? Hsk| |? ? ? ? ? ? ? Hsk|? ? ? ? ? ? Hsk
                    |? ? ? ? ? ? ? Hsk|]; try congruence.
    now apply in_over in He.
  Qed.

  (** an upstream that has greeted speaks only while the sink is live and no call to an
      upstream is pending *)
  Lemma speaks_when_live (c : cfg o) i d :
    Ph c -> d <> DH -> enabled p gfl c (MIn (IDn i d)) = true ->
    fbase None (ms c) /\ sk (ms c) 0 = SLive /\
    (fl_outer (cst c) = false -> us (ms c) 0 = UEnded).
  Proof.
    intros Hph Hd He. destruct (en_dn _ _ _ _ Hd He) as (_ & Hlv & _).
    destruct Hph as [? ? ? ? Hun|Hst ? ? ? Hus0|ob ik ? B ? Hsk ? [Eou Hus0]|? ? ? ? ? Hnl
                    |? ? ? Hst ? ? ? ? ? ? ? Husj|? ? Hst ? ? ? ? ? ? ? Husk
                    |? ? ? Hst ? ? ? ? ? Husj|? ? Hst ? ? ? ? ? Husj].
    - rewrite Hun in Hlv. discriminate.
    - pose proof (only_greet Hst Hus0 He). congruence.
    - split; [exact B|]. split; [exact Hsk|]. intros E. rewrite Eou in E. now rewrite E in Hus0.
    - now apply Hnl in Hlv.
    - destruct (only_ret Hst Husj He).
    - pose proof (only_greet Hst Husk He). congruence.
    - destruct (only_ret Hst Husj He).
    - destruct (only_ret Hst Husj He).
  Qed.
  Arguments speaks_when_live {c i d}.

  Definition term_sent (c : cfg o) : Prop := In (ECall (CDn 0 DT)) (rtrace c).

  Lemma term_inv (c : cfg o) :
    reach p gfl c -> term_sent c -> sk (ms c) 0 = SFinished /\ us (ms c) 0 = UEnded.
  Proof.
    induction 1 as [|c m Hr IH He]; [intros []|].
    pose proof (inv_reach Hr) as HI.
    pose proof (enabled_live _ _ _ _ He) as Hlive.
    intros Hmem. unfold term_sent in Hmem. destruct m as [inp|].
    - pose proof (enabled_deliverable _ _ _ _ He) as Hdel.
      destruct (handle o inp (cst c)) as [[s' os] a] eqn:Hh.
      rewrite (step_in_rtrace p c inp Hlive Hdel Hh) in Hmem.
      destruct Hmem as [E | Hmem].
      + (* the Terminate is sent by this very activation *)
        destruct a as [| |cl k]; try discriminate. cbn in E. injection E as ->.
        pose proof (en_step_in _ _ _ _ He Hh) as Est.
        assert (Hi : exists i, inp = IDn i DT /\ os = [] /\ (i <> 0 -> fl_outer (cst c) = false)).
        { apply handle_term in Hh. destruct Hh as (-> & [(-> & _) | (j & -> & E)]); eauto.
          exists 0. repeat split. congruence. }
        destruct Hi as (i & -> & -> & Hou).
        destruct (@speaks_when_live c i DT (i_ph HI) ltac:(discriminate) He) as (B & Hsk & Hend).
        destruct (@en_dn p o gfl c i DT ltac:(discriminate) He) as (_ & Hlv & _).
        step_eqs Est. env_half (pin_term Em1 B ltac:(congruence)).
        op_ph (pcall_term Em B1 (nest_off Hnonest _)); [now rewrite K1|]. rewrite U2, U1.
        destruct i; [apply upd_same | rewrite upd_other by discriminate; auto].
      + apply in_app_or in Hmem. destruct Hmem as [Hmem | [E | Hmem]].
        * apply in_rev, in_map_iff in Hmem. destruct Hmem as (? & ? & _). discriminate.
        * discriminate.
        * destruct (IH Hmem) as [Hfin _]. exfalso. eapply finished_only_ret; eauto.
    - destruct (en_ret _ _ _ He) as (k & cl & rest & Hst & _).
      destruct (resume o k (cst c)) as [[s' os] a] eqn:Hres.
      rewrite (step_ret_rtrace p c Hlive Hst Hres) in Hmem.
      destruct Hmem as [E | Hmem].
      + destruct a as [| |cl' k']; try discriminate. cbn in E. injection E as ->.
        exfalso. eapply resume_term; eauto.
      + apply in_app_or in Hmem. destruct Hmem as [Hmem | [E | Hmem]].
        * apply in_rev, in_map_iff in Hmem. destruct Hmem as (? & ? & _). discriminate.
        * discriminate.
        * (* sent earlier: the output is over, a finished activation returns *)
          destruct (IH Hmem) as [Hfin Hend].
          destruct (i_ph HI) as [? ? ? Hsk|? ? ? Hsk|? ? ? ? ? Hsk|Had B ? ? ? Hnl|? ? ? ? ? ? ? Hsk
                                |? ? ? ? ? ? Hsk|? ? ? ? ? ? ? Hsk|? ? ? ? ? ? Hsk]; try congruence.
          rewrite Hst in Had. apply AllDone_inv in Had. destruct Had as [-> _].
          assert (Hh : resume o FlDone (cst c) = (cst c, [], ARet)) by reflexivity.
          step_eqs (en_step_ret _ _ _ He Hst Hh). env_half (pin_ret Em1 B).
          done_half pcall_done; [| intros _ _; rewrite U1; exact Hnl |].
          2: { intros _ _ Hl. rewrite K1 in Hl. congruence. }
          rewrite K1, U1. auto.
  Qed.

  Theorem term_only_when_done (c : cfg o) :
    reach p gfl c -> In (ECall (CDn 0 DT)) (trace c) ->
    us (ms c) 0 = UEnded /\ forall k, us (ms c) (S k) <> ULive.
  Proof.
    intros Hr Hmem. unfold trace in Hmem. apply in_rev in Hmem.
    destruct (term_inv Hr Hmem) as [Hfin Hend]. split; [exact Hend|].
    destruct (i_ph (inv_reach Hr)) as [? ? ? Hsk|? ? ? Hsk|? ? ? ? ? Hsk|? ? ? ? ? Hnl|? ? ? ? ? ? ? Hsk
                                      |? ? ? ? ? ? Hsk|? ? ? ? ? ? ? Hsk|? ? ? ? ? ? Hsk];
      try congruence; intros k; apply Hnl.
  Qed.
End Flatten.

(** what a handler makes the sink receive is what an inner source has just sent *)
Lemma fl_handle_relays i s :
  let r := fl_handle i s in
  let evs := EIn i :: map EObs (snd (fst r)) ++ [act_event flatten_op (snd r)] in
  data_out 0 evs = inner_data evs.
Proof.
  destruct i as [[|?] ?|[|?] [|?|]|[|?] [|?|?|]|?]; cbn; unfold fl_then_outer;
    destruct (fl_inner s), (fl_outer s); reflexivity.
Qed.

Lemma fl_resume_silent k s :
  let r := fl_resume k s in
  let evs := ERet :: map EObs (snd (fst r)) ++ [act_event flatten_op (snd r)] in
  data_out 0 evs = inner_data evs.
Proof. destruct k; cbn; unfold fl_then_outer; destruct (fl_outer s); reflexivity. Qed.

Section FlattenInv.
  Variable p : mparams.
  Hypothesis Hc14 : c14 p = false.
  Let o := flatten_op.
  Notation gfl := g_flatten.

  Lemma quiet m :
    (sk_over (sk m 0) = true -> forall i, us m i <> ULive) ->
    (forall s, err_due m s = None) -> check_quiescent p m = [].
  Proof.
    intros H1 H2. apply quiescent_nil; auto.
    - intros _ Hov i _. specialize (H1 Hov i). destruct (us m i); try reflexivity; congruence.
    - rewrite Hc14. discriminate.
  Qed.

  (** ** Order: what the sink receives is what the inner sources sent, in
      arrival order (no invariant needed: the relay arm is unconditional) *)
  Theorem order (c : cfg o) : reach p gfl c -> data_out 0 (trace c) = inner_data (trace c).
  Proof.
    induction 1 as [|c m Hr IH He]; [reflexivity|].
    pose proof (enabled_live _ _ _ _ He) as Hlive.
    destruct m as [inp|].
    - pose proof (enabled_deliverable _ _ _ _ He) as Hdel.
      destruct (handle o inp (cst c)) as [[s' os] a] eqn:Hh.
      rewrite (step_in_trace p c inp Hlive Hdel Hh), data_out_app, inner_data_app, IH.
      f_equal. pose proof (fl_handle_relays inp (cst c)) as H.
      change (fl_handle inp (cst c)) with (handle o inp (cst c)) in H. now rewrite Hh in H.
    - destruct (enabled_ret_stack _ _ _ He) as (k & cl & rest & Hst).
      destruct (resume o k (cst c)) as [[s' os] a] eqn:Hres.
      rewrite (step_ret_trace p c Hlive Hst Hres), data_out_app, inner_data_app, IH.
      f_equal. pose proof (fl_resume_silent k (cst c)) as H.
      change (fl_resume k (cst c)) with (resume o k (cst c)) in H. now rewrite Hres in H.
  Qed.
End FlattenInv.

(** C01-C05, C17: no protocol violation and no panic in any reachable configuration *)
Theorem flatten_safe p :
  nsinks p = 1 -> resub p = false -> no_nest p = false -> c14 p = false -> late_ok p = false ->
  forall c : cfg flatten_op, reach p g_flatten c -> viols (ms c) = [] /\ dead c = false.
Proof.
  intros H1 H2 H3 H4 H5 c Hr. destruct (inv_reach H1 H3 H5 (no_c14 H4) Hr) as [Hd Hph].
  destruct (ph_base Hph) as [d B]. split; [apply B | exact Hd].
Qed.
Print Assumptions flatten_safe.

(** C11: only the latest inner speaks.  At every control point at most one
    inner source is live, and it is the one whose talkback is stored. *)
Theorem flatten_switch p :
  nsinks p = 1 -> resub p = false -> no_nest p = false -> c14 p = false -> late_ok p = false ->
  forall (c : cfg flatten_op) j k, reach p g_flatten c ->
    us (ms c) (S j) = ULive -> us (ms c) (S k) = ULive ->
    j = k /\ fl_inner (cst c) = Some (S k).
Proof.
  intros H1 H2 H3 H4 H5 c j k Hr. exact (switch_one H1 H3 H5 (no_c14 H4) j k Hr).
Qed.
Print Assumptions flatten_switch.

(** C11: completion.
    (1) While the sink is live, the outer is live, or some inner is live, or
        the top activation is the one that has just told the other level to
        stop and delivers the pending Error to the sink as soon as that call
        returns (nothing but this return is enabled then).
    (2) At a quiescent point the third case is impossible.
    (3) Conversely the sink is sent Terminate only when the outer source has
        completed by itself and no inner source is live. *)
Theorem flatten_completes p :
  nsinks p = 1 -> resub p = false -> no_nest p = false -> c14 p = false -> late_ok p = false ->
  forall c : cfg flatten_op, reach p g_flatten c ->
    (sk (ms c) 0 = SLive ->
     us (ms c) 0 = ULive \/ (exists k, us (ms c) (S k) = ULive) \/
     (exists e j rest, stack c = (FlThenErr e, CUp j UT) :: rest /\
                       err_due (ms c) 0 = Some e /\ us (ms c) j = UStopped)) /\
    (sk (ms c) 0 = SLive -> stack c = [] ->
     us (ms c) 0 = ULive \/ exists k, us (ms c) (S k) = ULive) /\
    (In (ECall (CDn 0 DT)) (trace c) ->
     us (ms c) 0 = UEnded /\ forall k, us (ms c) (S k) <> ULive).
Proof.
  intros H1 H2 H3 H4 H5 c Hr. pose proof (no_c14 H4) as H6. split; [|split].
  - exact (live_has_source H1 H3 H5 H6 Hr).
  - intros Hlive Hst.
    destruct (live_has_source H1 H3 H5 H6 Hr Hlive) as [H|[H|(e & j & rest & E & _)]]; auto.
    congruence.
  - exact (term_only_when_done H1 H3 H5 H6 Hr).
Qed.
Print Assumptions flatten_completes.

(** the sink receives exactly the payloads of the inner sources, in arrival order *)
Theorem flatten_order p :
  forall c : cfg flatten_op, reach p g_flatten c ->
    data_out 0 (trace c) = inner_data (trace c).
Proof. intros c Hr. exact (order Hr). Qed.
Print Assumptions flatten_order.

(** * Local steps of C11 (what a single handler does; the theorems above say in which
      states these handlers can run) *)

(** a Pull goes to the active inner if there is one, else to the outer, else nowhere *)
Lemma flatten_pull_routing (s : fl_st) :
  fl_handle (IUp 0 UP) s =
  (s, [], match fl_inner s with
          | Some j => ACall (CUp j UP) FlDone
          | None => if fl_outer s then ACall (CUp 0 UP) FlDone else ARet
          end).
Proof. unfold fl_handle. destruct (fl_inner s); [reflexivity|]. destruct (fl_outer s); reflexivity. Qed.

(** an inner source is pulled exactly once on its greeting and becomes the stored one *)
Lemma flatten_inner_greeting (k : nat) (s : fl_st) :
  fl_handle (IDn (S k) DH) s =
  ({| fl_outer := fl_outer s; fl_inner := Some (S k) |}, [], ACall (CUp (S k) UP) FlDone)
  /\ fl_resume FlDone {| fl_outer := fl_outer s; fl_inner := Some (S k) |}
     = ({| fl_outer := fl_outer s; fl_inner := Some (S k) |}, [], ARet).
Proof. split; reflexivity. Qed.

(** a newer inner: the stored one is told to stop (one call), then the new one is subscribed;
    with none stored the new one is subscribed at once *)
Lemma flatten_switch_step (v : val) (s : fl_st) :
  fl_handle (IDn 0 (DD v)) s =
  (s, [], match fl_inner s with
          | Some j => ACall (CUp j UT) (FlSubInner (inner_id v))
          | None => ACall (CSub (S (inner_id v))) FlDone
          end)
  /\ forall s', fl_resume (FlSubInner (inner_id v)) s' = (s', [], ACall (CSub (S (inner_id v))) FlDone).
Proof. split; [unfold fl_handle; destruct (fl_inner s); reflexivity | reflexivity]. Qed.
