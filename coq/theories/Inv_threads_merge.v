(** * Inv_threads_merge: C18 for the interleaving model of merge! (Threads.v, section
      MergeThreads), over ALL schedules: for every n >= 1, all queues, all endings with at most one
      failing member among the members 0..n-1, and every state reachable by any interleaving of
      [mg_step].

    Method: [mg_step] is restated as a relation on explicit records ([mstep], [mstep_of]); four
    inductive invariants: [TI] (per thread, by program counter), [GE] (ended => the failing
    member is past its store), [GI] (end_count = number of members that counted themselves,
    characterised without ghost state as "pc in {MgInTerm, MgFinished}, ending Terminate, never
    told to stop") and [TRI] (the trace monitors, as functions of the state).  Each is shown
    inductive by a frame lemma (what a step of thread [t] changes for the others) and the clause
    of [t] itself.  The trace summary [TS] and its one-more-event lemmas are stated for any type
    of thread records and are used again in Inv_threads_fine.v.

    Model of the repaired merge.rs (a member publishes its talkback before [ended.load()], every
    party that ends the output takes a member's talkback out of its cell before disposing it):
    [mgs_tbs] starts true for the members and a greeting or delivering member has
    [mgs_tbs = negb mgs_stopped] (clause by clause in [TIc]).  The member's own disposal at
    MgAtEndedLoad is dead in this model ([merge_threads_self_dispose_dead]) because the store and
    the swaps are one step.

    Findings.
    - In this model no data delivery begins after the Error began: the failing member's store,
      the Terminate calls to all siblings whose slot is set and the begin of the Error delivery
      are one step, a sibling tests "told to stop" in the same step in which its next delivery
      begins, and a sibling that is still greeting (its slot is set from the start) is told
      to stop in that step as well and reads [ended = true] next.  So [TvAfterTerminal] is
      unreachable and the full check holds in the failing case too.  What CAN happen, and what
      [merge_check] does not flag, is that the Error begins while a sibling's data delivery is
      still in progress ([error_during_data]).
    - The hypothesis "at most one failing member" is necessary: with two failing members both
      deliver their Error ([two_failures_two_errors]). *)

From CB Require Import Threads ThreadSpec ThreadFacts.

Set Implicit Arguments.

Inductive mg_reach (n : nat) (qs : nat -> list val) (fins : nat -> final) : mg_state -> Prop :=
| mgr0 : mg_reach n qs fins (mg_init n qs fins)
| mgrS s t : mg_reach n qs fins s -> mg_reach n qs fins (mg_step n s t).

Notation St := mk_mg_state.
Notation Th := mk_mg_thread.

Section Step.
  Variable n : nat.
  Variables (st ec : nat) (en : bool) (tbs stp : nat -> bool) (th : nat -> mg_thread).
  Variables (tr : list tevent) (t : nat).

  (** how [mg_next] is entered *)
  Inductive origin : mg_pc -> nat -> list tevent -> Prop :=
  | or_start : st <> 0 -> origin MgAtStartInc (S st) tr
  | or_greet : origin MgInGreet st ((t, TEnd) :: tr)
  | or_data : origin MgInData st ((t, TEnd) :: tr).

  Inductive mstep_at : mg_state -> Prop :=
  | ms_fin : mg_pcv (th t) = MgFinished -> mstep_at (St st ec en tbs stp th tr)
  | ms_load_ended q f :
      (* the output ended during the greeting and the talkback is still in its cell: the member
         takes it out and disposes itself *)
      th t = Th MgAtEndedLoad q f -> en = true -> tbs t = true ->
      mstep_at (St st ec en (upd tbs t false) (upd stp t true) (upd th t (Th MgFinished q f))
                  ((t, TUp t UT) :: tr))
  | ms_load_taken q f :
      (* the ending party already took the talkback (and disposed the member) *)
      th t = Th MgAtEndedLoad q f -> en = true -> tbs t = false ->
      mstep_at (St st ec en tbs stp (upd th t (Th MgFinished q f)) tr)
  | ms_load_ok q f :
      th t = Th MgAtEndedLoad q f -> en = false ->
      mstep_at (St st ec en tbs stp (upd th t (Th MgAtStartInc q f)) tr)
  | ms_start_first q f :
      th t = Th MgAtStartInc q f -> st = 0 ->
      mstep_at (St 1 ec en tbs stp (upd th t (Th MgInGreet q f)) ((t, TBegin DH) :: tr))
  | ms_next_stopped pc q f st' tr0 :
      th t = Th pc q f -> origin pc st' tr0 -> stp t = true ->
      mstep_at (St st' ec en tbs stp (upd th t (Th MgFinished q f)) tr0)
  | ms_next_data pc v q' f st' tr0 :
      th t = Th pc (v :: q') f -> origin pc st' tr0 -> stp t = false ->
      mstep_at (St st' ec en tbs stp (upd th t (Th MgInData q' f)) ((t, TBegin (DD v)) :: tr0))
  | ms_next_term pc st' tr0 :
      th t = Th pc [] FinTerm -> origin pc st' tr0 -> stp t = false ->
      mstep_at (St st' ec en (upd tbs t false) stp (upd th t (Th MgAtEndInc [] FinTerm)) tr0)
  | ms_next_err pc e st' tr0 :
      th t = Th pc [] (FinErr e) -> origin pc st' tr0 -> stp t = false ->
      mstep_at (St st' ec en tbs stp (upd th t (Th (MgAtEndedStore e) [] (FinErr e))) tr0)
  | ms_next_none pc st' tr0 :
      th t = Th pc [] FinNone -> origin pc st' tr0 -> stp t = false ->
      mstep_at (St st' ec en tbs stp (upd th t (Th MgFinished [] FinNone)) tr0)
  | ms_endinc_last q f :
      th t = Th MgAtEndInc q f -> S ec = n ->
      mstep_at (St st (S ec) en tbs stp (upd th t (Th MgInTerm q f)) ((t, TBegin DT) :: tr))
  | ms_endinc_notlast q f :
      th t = Th MgAtEndInc q f -> S ec <> n ->
      mstep_at (St st (S ec) en tbs stp (upd th t (Th MgFinished q f)) tr)
  | ms_ret pc q f :
      th t = Th pc q f -> pc = MgInTerm \/ pc = MgInErr ->
      mstep_at (St st ec en tbs stp (upd th t (Th MgFinished q f)) ((t, TEnd) :: tr))
  | ms_endedstore e q f tbs' stp' tr1 :
      th t = Th (MgAtEndedStore e) q f ->
      (forall j, stp' j = stp j || ((j <? n) && negb (j =? t) && tbs j)) ->
      (forall j, tbs' j = tbs j && negb ((j <? n) && negb (j =? t))) ->
      qext t tr tr1 ->
      mstep_at (St st ec true tbs' stp' (upd th t (Th MgInErr q f)) ((t, TBegin (DE e)) :: tr1)).
End Step.

Definition mstep (n : nat) (s : mg_state) (t : nat) : mg_state -> Prop :=
  mstep_at n (mgs_start s) (mgs_endc s) (mgs_ended s) (mgs_tbs s) (mgs_stopped s) (mgs_th s)
    (mgs_tr s) t.

(** the cases of [Hs : mstep_at ..], one per constructor and in their order: [H] is the stepper's
    record, [Ho] how [mg_next] is entered, [Hret] the two returns, the others the guards *)
Ltac mstep_cases Hs :=
  destruct Hs as [ _ | q f H Hen Hcell | q f H Hen Hcell | q f H Hen | q f H Hst0
                 | pc q f st' tr0 H Ho Hsp | pc v q f st' tr0 H Ho Hsp | pc st' tr0 H Ho Hsp
                 | pc e st' tr0 H Ho Hsp | pc st' tr0 H Ho Hsp
                 | q f H Hec | q f H Hec | pc q f H Hret | e q f tbs' stp' tr1 H Hstp Htbs Hq ].

(** [mg_stop_siblings] is the sweep of ThreadFacts.v that passes over the cell of [t] *)
Definition sib (t j : nat) : bool := negb (j =? t).

Lemma stop_siblings_eq k t s :
  mg_stop_siblings k t s
  = St (mgs_start s) (mgs_endc s) (mgs_ended s) (sw_cell (sib t) (mgs_tbs s) k)
       (sw_stp (sib t) (mgs_tbs s) (mgs_stopped s) k) (mgs_th s)
       (sw_tr (sib t) t (mgs_tbs s) (mgs_tr s) k).
Proof.
  destruct s as [st ec en tbs stp th tr]. cbn.
  induction k as [|k IH]; [reflexivity|]. cbn [mg_stop_siblings sw_cell sw_stp sw_tr]. rewrite IH.
  unfold sib. cbn. destruct (negb (k =? t) && tbs k); reflexivity.
Qed.

Lemma mnext_of n st ec en tbs stp th tr t pc q f st' tr0 :
  th t = Th pc q f -> origin st tr t pc st' tr0 ->
  mstep n (St st ec en tbs stp th tr) t (mg_next (St st' ec en tbs stp th tr0) t (Th pc q f)).
Proof.
  intros Hth Ho. unfold mg_next; cbn.
  destruct (stp t) eqn:Hs; cbn.
  - eapply ms_next_stopped; eauto.
  - destruct q as [|v q']; cbn.
    + destruct f; cbn.
      * eapply ms_next_term; eauto.
      * eapply ms_next_err; eauto.
      * eapply ms_next_none; eauto.
    + eapply ms_next_data; eauto.
Qed.

Lemma mstep_of n s t : mstep n s t (mg_step n s t).
Proof.
  destruct s as [st ec en tbs stp th tr].
  unfold mg_step. cbn -[Nat.eqb mg_next].
  destruct (th t) as [pc q f] eqn:Hth. cbn -[Nat.eqb mg_next].
  destruct pc; cbn -[Nat.eqb mg_next].
  - destruct en; cbn.
    + destruct (tbs t) eqn:Etb; cbn.
      * now apply ms_load_ended.
      * now apply ms_load_taken.
    + now apply ms_load_ok.
  - destruct st as [|st]; cbn -[mg_next].
    + now apply ms_start_first.
    + apply mnext_of; auto. constructor; lia.
  - apply mnext_of; auto. constructor.
  - apply mnext_of; auto. constructor.
  - destruct (Nat.eqb_spec (S ec) n); cbn.
    + now apply ms_endinc_last.
    + now apply ms_endinc_notlast.
  - eapply ms_ret; eauto.
  - change (St st ec en tbs stp th tr <| mgs_ended := true |>) with (St st ec true tbs stp th tr).
    rewrite stop_siblings_eq.
    eapply ms_endedstore; [exact Hth | intros j; apply sw_stp_spec | intros j; cbn -[Nat.ltb Nat.eqb] | apply sw_tr_qext].
    rewrite sw_cell_spec. unfold swept, sib. destruct (tbs j); [now rewrite andb_true_r | reflexivity].
  - eapply ms_ret; eauto.
  - apply ms_fin. now rewrite Hth.
Qed.

(** [ThreadFacts.cnt] again: the invariants and statements below are written over this one; the
    lemmas of ThreadFacts.v apply to it by [cnt_eq] *)
Fixpoint cnt (P : nat -> bool) (k : nat) : nat :=
  match k with 0 => 0 | S k' => (if P k' then 1 else 0) + cnt P k' end.

Lemma cnt_eq : cnt = ThreadFacts.cnt.
Proof. reflexivity. Qed.

Section MergeInv.
  Variable n : nat.
  Variable fins : nat -> final.

  Definition TIc (st : nat) (en : bool) (j : nat) (tb sp : bool) (thr : mg_thread) : Prop :=
    mg_fin thr = fins j /\ (sp = true -> en = true) /\ (en = true -> 1 <= st) /\
    (n <= j -> mg_pcv thr = MgFinished) /\
    (* the talkback of a member that is greeting or delivering is in its cell exactly as long as
       nobody took it out to dispose the member: [tb = negb sp].  (Before the repair of merge.rs
       the cell was filled only after [ended.load()], and never emptied by the ending party.) *)
    match mg_pcv thr with
    | MgAtEndedLoad => tb = negb sp /\ (en = true -> sp = true)
    | MgAtStartInc => tb = negb sp /\ (en = true -> sp = true)
    | MgInGreet | MgInData => tb = negb sp /\ (en = true -> sp = true) /\ 1 <= st
    | MgAtEndInc | MgInTerm =>
        tb = false /\ sp = false /\ mg_q thr = [] /\ mg_fin thr = FinTerm /\ 1 <= st
    | MgAtEndedStore e => tb = negb sp /\ mg_q thr = [] /\ mg_fin thr = FinErr e /\ 1 <= st
    | MgInErr => mg_q thr = [] /\ mg_fin thr <> FinTerm /\ en = true /\ 1 <= st
    (* a member that has returned: if the output has not ended it went through its whole queue; a
       failing one has stored [ended]; one that ended with Terminate and was never told to stop
       emptied its own cell when it counted itself, so no sweep stops it afterwards ([GI_step]) *)
    | MgFinished =>
        j < n -> 1 <= st /\ (en = false -> mg_q thr = []) /\
                 (forall e, mg_fin thr = FinErr e -> en = true) /\
                 (mg_fin thr = FinTerm -> sp = false -> tb = false)
    end.

  Definition TI (s : mg_state) : Prop :=
    forall j, TIc (mgs_start s) (mgs_ended s) j (mgs_tbs s j) (mgs_stopped s j) (mgs_th s j).

  Lemma TI_init qs : TI (mg_init n qs fins).
  Proof.
    intros j. unfold TIc. cbn -[Nat.ltb].
    destruct (Nat.ltb_spec j n); cbn; repeat split; auto; try congruence; try lia.
  Qed.

  Lemma TIc_lt st en j tb sp thr : TIc st en j tb sp thr -> mg_pcv thr <> MgFinished -> j < n.
  Proof. intros (_ & _ & _ & H & _) Hp. destruct (Nat.lt_ge_cases j n); auto. exfalso; auto. Qed.

  (** [st] occurs in the clauses only as [1 <= st] *)
  Lemma TIc_mono st st' en j tb sp thr : st <= st' -> TIc st en j tb sp thr -> TIc st' en j tb sp thr.
  Proof.
    unfold TIc. intros Hle (H1 & H2 & H3 & H4 & H5). repeat split; auto.
    - intros He. specialize (H3 He). lia.
    - destruct (mg_pcv thr); intuition lia.
  Qed.

  Lemma TI_upd st ec en tbs stp th tr t st' ec' tbs' stp' thr' tr' :
    TI (St st ec en tbs stp th tr) -> st <= st' ->
    (forall j, j <> t -> tbs' j = tbs j) -> (forall j, j <> t -> stp' j = stp j) ->
    TIc st' en t (tbs' t) (stp' t) thr' ->
    TI (St st' ec' en tbs' stp' (upd th t thr') tr').
  Proof.
    intros HTI Hle Htb Hsp Ht j. cbn. pw j t; [exact Ht|].
    rewrite Htb, Hsp by assumption. apply (TIc_mono Hle), (HTI j).
  Qed.

  Lemma TIc_stop st en j t tb sp thr :
    j <> t -> 1 <= st -> TIc st en j tb sp thr ->
    TIc st true j (tb && negb ((j <? n) && negb (j =? t))) (sp || (j <? n) && negb (j =? t) && tb) thr.
  Proof.
    intros Hj Hst (H1 & H2 & H3 & H4 & H5).
    rewrite (proj2 (Nat.eqb_neq j t) Hj). cbn [negb]. rewrite andb_true_r.
    unfold TIc. destruct (Nat.ltb_spec j n) as [Hlt|Hge]; cbn [negb andb].
    - rewrite andb_false_r. repeat split; auto.
      destruct (mg_pcv thr), tb, sp; cbn in *; clauses.
    - rewrite andb_true_r, orb_false_r, (H4 Hge). repeat split; auto; lia.
  Qed.

  Lemma TIc_origin st en t tb sp tr pc q f st' tr0 :
    TIc st en t tb sp (Th pc q f) -> origin st tr t pc st' tr0 ->
    st <= st' /\ 1 <= st' /\ t < n /\ f = fins t /\ tb = negb sp /\ (sp = true <-> en = true).
  Proof.
    intros HT Ho. assert (Ht : t < n) by (apply (TIc_lt HT); destruct Ho; discriminate).
    revert HT. unfold TIc. cbn. intros (H1 & H2 & H3 & H4 & H5).
    destruct Ho; clauses.
  Qed.

  (** the failing member's store and sweep, the one step that writes other threads' cells *)
  Lemma TI_store st ec en tbs stp th tr t e q f tbs' stp' tr' :
    TI (St st ec en tbs stp th tr) -> th t = Th (MgAtEndedStore e) q f ->
    (forall j, stp' j = stp j || ((j <? n) && negb (j =? t) && tbs j)) ->
    (forall j, tbs' j = tbs j && negb ((j <? n) && negb (j =? t))) ->
    TI (St st ec true tbs' stp' (upd th t (Th MgInErr q f)) tr').
  Proof.
    intros HTI H Hstp Htbs. pose proof (HTI t) as Ht. cbn in Ht. rewrite H in Ht.
    intros j. cbn. rewrite Hstp, Htbs.
    assert (Htn : t < n) by (apply (TIc_lt Ht); discriminate).
    unfold TIc in Ht; cbn in Ht. destruct Ht as (Hf & Hse & Hes & _ & Htb & Hq & Hfe & Hst).
    destruct (Nat.eq_dec j t) as [->|Hj].
    - rewrite upd_same, Nat.eqb_refl. cbn [negb]. rewrite !andb_false_r, andb_true_r, orb_false_r.
      unfold TIc. cbn. repeat split; auto; [lia|congruence].
    - rewrite upd_other by assumption. exact (TIc_stop Hj Hst (HTI j)).
  Qed.

  (** every other step is the frame lemma and the clause of [t] at its new program counter, which
      follows from the one at the old *)
  Lemma TI_step s t s' : TI s -> mstep n s t s' -> TI s'.
  Proof.
    destruct s as [st ec en tbs stp th tr]. intros HTI Hs. red in Hs. cbn in Hs.
    pose proof (HTI t) as Ht. cbn in Ht.
    mstep_cases Hs.
    all: [> exact HTI | rewrite H in Ht .. | eapply TI_store; [exact HTI | exact H | exact Hstp | exact Htbs] ].
    (* where [mg_next] is entered ([Ho]), and at a return ([Hret]) *)
    all: try (destruct (TIc_origin Ht Ho) as (Hle & Hst & Htn & Hf & Htb & Hse); clear Ht).
    all: try (destruct Hret; subst pc).
    all: eapply TI_upd; [exact HTI | try lia | auto using upd_other | auto using upd_other | rewrite ?upd_same].
    all: unfold TIc in *; cbn in *; clauses.
    all: intuition congruence.
  Qed.
End MergeInv.

Section MergeInv2.
  Variable n : nat.
  Variable fins : nat -> final.

  (** the global invariant of [ended]: set only once the failing member is past its store *)
  Definition GE (s : mg_state) : Prop :=
    mgs_ended s = true ->
    exists f e, f < n /\ fins f = FinErr e /\
      (mg_pcv (mgs_th s f) = MgInErr \/ mg_pcv (mgs_th s f) = MgFinished).

  Lemma GE_init qs : GE (mg_init n qs fins).
  Proof. unfold GE; cbn; discriminate. Qed.

  Lemma GE_upd st ec en tbs stp th tr t st' ec' tbs' stp' thr' tr' :
    GE (St st ec en tbs stp th tr) ->
    (mg_pcv (th t) = MgInErr \/ mg_pcv (th t) = MgFinished ->
     mg_pcv thr' = MgInErr \/ mg_pcv thr' = MgFinished) ->
    GE (St st' ec' en tbs' stp' (upd th t thr') tr').
  Proof.
    intros HGE Hp Hen. destruct (HGE Hen) as (f & e & Hf & He & Hpc). exists f, e. cbn.
    split; [|split]; auto. pw f t; auto.
  Qed.

  Lemma GE_store st ec en tbs stp th tr t e q f st' ec' tbs' stp' tr' :
    TI n fins (St st ec en tbs stp th tr) -> th t = Th (MgAtEndedStore e) q f ->
    GE (St st' ec' true tbs' stp' (upd th t (Th MgInErr q f)) tr').
  Proof.
    intros HTI H _. pose proof (HTI t) as Ht. cbn in Ht. rewrite H in Ht.
    exists t, e. cbn. rewrite upd_same.
    split; [apply (TIc_lt Ht); discriminate|]. split; [|now left].
    destruct Ht as (Hf & _ & _ & _ & _ & _ & Hfe & _). cbn in Hf, Hfe. congruence.
  Qed.

  (** the other steps keep [ended], and from [MgInErr] or [MgFinished] they lead to [MgFinished] *)
  Lemma GE_step s t s' : TI n fins s -> GE s -> mstep n s t s' -> GE s'.
  Proof.
    destruct s as [st ec en tbs stp th tr]. intros HTI HGE Hs. red in Hs. cbn in Hs.
    mstep_cases Hs.
    all: [> exact HGE | eapply GE_upd; [exact HGE|]; rewrite H; cbn; auto ..
          | eapply GE_store; [exact HTI | exact H] ].
    all: intros [Hp|Hp]; try discriminate Hp; subst pc; inversion Ho.
  Qed.

  Definition pc_done (pc : mg_pc) : bool :=
    match pc with MgInTerm | MgFinished => true | _ => false end.
  Definition fin_term (f : final) : bool := match f with FinTerm => true | _ => false end.
  Definition countedc (th : nat -> mg_thread) (stp : nat -> bool) (j : nat) : bool :=
    pc_done (mg_pcv (th j)) && fin_term (mg_fin (th j)) && negb (stp j).
  Definition counted (s : mg_state) : nat -> bool := countedc (mgs_th s) (mgs_stopped s).
  Definition GI (s : mg_state) : Prop := mgs_endc s = cnt (counted s) n.

  Lemma GI_init qs : GI (mg_init n qs fins).
  Proof.
    unfold GI. cbn -[Nat.ltb]. symmetry. apply cnt_none. intros j Hj.
    unfold counted, countedc. cbn -[Nat.ltb]. destruct (Nat.ltb_spec j n); [reflexivity|lia].
  Qed.

  Lemma GI_upd st ec en tbs stp th tr t st' en' tbs' stp' thr' tr' :
    GI (St st ec en tbs stp th tr) -> (forall j, j <> t -> stp' j = stp j) ->
    pc_done (mg_pcv thr') && fin_term (mg_fin thr') && negb (stp' t) = countedc th stp t ->
    GI (St st' ec en' tbs' stp' (upd th t thr') tr').
  Proof.
    unfold GI, counted. cbn. intros -> Hs Ht. symmetry. apply cnt_ext. intros j _. unfold countedc at 1.
    pw j t; [exact Ht|]. now rewrite Hs.
  Qed.

  Lemma GI_count st ec en tbs stp th tr t st' thr' tr' :
    GI (St st ec en tbs stp th tr) -> t < n -> countedc th stp t = false ->
    pc_done (mg_pcv thr') && fin_term (mg_fin thr') && negb (stp t) = true ->
    GI (St st' (S ec) en tbs stp (upd th t thr') tr').
  Proof.
    unfold GI, counted. cbn. intros -> Htn H0 H1. symmetry. apply cnt_flip with (t := t); auto.
    - intros j _ Hj. unfold countedc. now rewrite upd_other.
    - unfold countedc. now rewrite upd_same.
  Qed.

  (** a member that has counted itself has emptied its cell: the failing member does not stop it *)
  Lemma counted_stop st en j tb sp thr x :
    j < n -> TIc n fins st en j tb sp thr ->
    pc_done (mg_pcv thr) && fin_term (mg_fin thr) && negb (sp || x && tb)
    = pc_done (mg_pcv thr) && fin_term (mg_fin thr) && negb sp.
  Proof.
    intros Hj (_ & _ & _ & _ & Hpc). destruct sp; [reflexivity|]. destruct tb; [|now rewrite andb_false_r].
    destruct (mg_pcv thr); try reflexivity.
    - destruct Hpc as (Hx & _). discriminate Hx.
    - destruct (mg_fin thr); try reflexivity.
      destruct (Hpc Hj) as (_ & _ & _ & Hx). discriminate (Hx eq_refl eq_refl).
  Qed.

  Lemma GI_store st ec en tbs stp th tr t e q f st' tbs' stp' tr' :
    TI n fins (St st ec en tbs stp th tr) -> GI (St st ec en tbs stp th tr) ->
    th t = Th (MgAtEndedStore e) q f ->
    (forall j, stp' j = stp j || ((j <? n) && negb (j =? t) && tbs j)) ->
    GI (St st' ec true tbs' stp' (upd th t (Th MgInErr q f)) tr').
  Proof.
    intros HTI HGI H Hstp. unfold GI, counted in *. cbn in *. rewrite HGI. apply cnt_ext. intros j Hj.
    unfold countedc. rewrite Hstp. pw j t; [now rewrite H|]. symmetry. apply (counted_stop _ Hj (HTI j)).
  Qed.

  (** [GI_upd] with the stepper's own summand left to show *)
  Ltac gi_frame HGI H :=
    eapply GI_upd; [exact HGI|auto using upd_other|]; unfold countedc; rewrite H, ?upd_same; cbn.

  Lemma GI_step s t s' : TI n fins s -> GI s -> mstep n s t s' -> GI s'.
  Proof.
    destruct s as [st ec en tbs stp th tr]. intros HTI HGI Hs. red in Hs. cbn in Hs.
    pose proof (HTI t) as Ht. cbn in Ht.
    mstep_cases Hs;
      [> | rewrite H in Ht .. ].
    - (* ms_fin *) exact HGI.
    - (* ms_load_ended *) gi_frame HGI H. apply andb_false_r.
    - (* ms_load_taken: [ended] is set and the talkback taken, so the member has been told to stop *)
      gi_frame HGI H. destruct Ht as (_ & _ & _ & _ & _ & Hs). rewrite (Hs Hen). apply andb_false_r.
    - (* ms_load_ok *) gi_frame HGI H. reflexivity.
    - (* ms_start_first *) gi_frame HGI H. reflexivity.
    - (* ms_next_stopped *) gi_frame HGI H. rewrite Hsp, !andb_false_r. reflexivity.
    - (* ms_next_data *) gi_frame HGI H. destruct Ho; reflexivity.
    - (* ms_next_term *) gi_frame HGI H. destruct Ho; reflexivity.
    - (* ms_next_err *) gi_frame HGI H. destruct Ho; reflexivity.
    - (* ms_next_none *) gi_frame HGI H. destruct Ho; reflexivity.
    - (* ms_endinc_last: the member counts itself *)
      eapply GI_count; [exact HGI|apply (TIc_lt Ht); discriminate|unfold countedc; now rewrite H|].
      destruct Ht as (_ & _ & _ & _ & _ & Hs & _ & Hf & _); cbn in *; now rewrite Hs, Hf.
    - (* ms_endinc_notlast: likewise *)
      eapply GI_count; [exact HGI|apply (TIc_lt Ht); discriminate|unfold countedc; now rewrite H|].
      destruct Ht as (_ & _ & _ & _ & _ & Hs & _ & Hf & _); cbn in *; now rewrite Hs, Hf.
    - (* ms_ret *) gi_frame HGI H. destruct Hret as [->| ->]; [reflexivity|].
      destruct Ht as (_ & _ & _ & _ & _ & Hf & _). destruct f; try reflexivity. now elim Hf.
    - (* ms_endedstore *) eapply GI_store; [exact HTI | exact HGI | exact H | exact Hstp].
  Qed.
End MergeInv2.

Definition isDE (e : tevent) : bool := match snd e with TBegin (DE _) => true | _ => false end.
Definition isDT (e : tevent) : bool := match snd e with TBegin DT => true | _ => false end.

#[local] Arguments count : simpl never.

Lemma count_term_split l : count is_begin_term l = count isDT l + count isDE l.
Proof.
  induction l as [|[t [[| | |]| | |]] l IH]; rewrite ?count_cons; cbn; try lia.
  reflexivity.
Qed.

Fixpoint scan_open (o : nat -> bool) (l : list tevent) : nat -> bool :=
  match l with
  | [] => o
  | (t, TBegin (DD _)) :: l' => scan_open (upd o t true) l'
  | (t, TEnd) :: l' => scan_open (upd o t false) l'
  | _ :: l' => scan_open o l'
  end.

Fixpoint scan_seen (b : bool) (l : list tevent) : bool :=
  match l with
  | [] => b
  | (_, TBegin DT) :: l' | (_, TBegin (DE _)) :: l' => scan_seen true l'
  | _ :: l' => scan_seen b l'
  end.

Lemma scan_term_app l : forall o b l',
  scan_term o b (l ++ l') = scan_term o b l ++ scan_term (scan_open o l) (scan_seen b l) l'.
Proof.
  induction l as [|[t [[| | |]| | |]] l IH]; intros o b l'; cbn [app scan_term scan_open scan_seen];
    rewrite ?IH, ?app_assoc; reflexivity.
Qed.

Lemma scan_open_app l : forall o l', scan_open o (l ++ l') = scan_open (scan_open o l) l'.
Proof.
  induction l as [|[t [[| | |]| | |]] l IH]; intros o l'; cbn [app scan_open]; rewrite ?IH; reflexivity.
Qed.

Lemma scan_seen_app l : forall b l', scan_seen b (l ++ l') = scan_seen (scan_seen b l) l'.
Proof.
  induction l as [|[t [[| | |]| | |]] l IH]; intros b l'; cbn [app scan_seen]; rewrite ?IH; reflexivity.
Qed.

Definition o0 : nat -> bool := fun _ => false.

(** ** The trace summary

    What the monitors of [merge_check] compute on the trace (latest event first), as a function
    of the start and end counters, the number [de] of Error deliveries begun, and of each
    thread's record what it still holds ([pq]) and whether it is inside a data delivery
    ([pin]).  The type of thread records is a parameter: the models of Threads.v and of
    ThreadsFine.v instantiate it. *)

Section TraceSummary.
  Variable n : nat.
  Variable qs : nat -> list val.
  Variable T : Type.
  Variable pq : T -> list val.
  Variable pin : T -> bool.

  Record TS (st ec de : nat) (th : nat -> T) (tr : list tevent) : Prop := mkTS {
    ts_greet : count is_begin_greet tr = (if st =? 0 then 0 else 1);
    ts_bgo : before_greet_ok (rev tr) = true;
    ts_de : count isDE tr = de;
    ts_dt : count isDT tr = (if ec =? n then 1 else 0);
    ts_panic : existsb is_panic tr = false;
    ts_deliv : forall j, delivered_by j (rev tr) ++ pq (th j) = qs j;
    ts_scan : scan_term o0 false (rev tr) = [];
    ts_open : forall j, scan_open o0 (rev tr) j = pin (th j);
    ts_seen : scan_seen false (rev tr) = true -> 1 <= de \/ ec = n }.

  (** one more event: the monitors on [rev (e :: tr)] from those on [rev tr] *)
  Ltac snoc :=
    cbn [rev]; rewrite ?count_cons_t, ?delivered_snoc, ?scan_term_app, ?scan_open_app, ?scan_seen_app;
    cbn [scan_term scan_open scan_seen ev_data existsb is_begin_greet isDE isDT is_panic snd app];
    rewrite ?app_nil_r.
  Ltac ts_split := constructor; [ | | | | | intros jj | | intros jj | ]; snoc.

  Lemma greeted st tr : count is_begin_greet tr = (if st =? 0 then 0 else 1) -> 1 <= st ->
    1 <= count is_begin_greet (rev tr).
  Proof. intros H Hst. rewrite count_rev, H. destruct st; [lia|]. cbn. lia. Qed.

  Lemma TS_upd st ec de th tr t x :
    TS st ec de th tr -> pq x = pq (th t) -> pin x = pin (th t) -> TS st ec de (upd th t x) tr.
  Proof. intros [] Hq Hp. constructor; auto; intros j; pw j t; rewrite ?Hq, ?Hp; auto. Qed.

  Lemma TS_st st ec de th tr : TS st ec de th tr -> st <> 0 -> TS (S st) ec de th tr.
  Proof. intros [] H. constructor; auto. destruct st; [lia|]. assumption. Qed.

  Lemma TS_ec st ec de th tr : TS st ec de th tr -> ec < n -> S ec <> n -> TS st (S ec) de th tr.
  Proof.
    intros [] H1 H2. constructor; auto.
    - rewrite ts_dt0. destruct (Nat.eqb_spec ec n), (Nat.eqb_spec (S ec) n); auto; lia.
    - intros Hs. destruct (ts_seen0 Hs); auto. lia.
  Qed.

  Lemma TS_up st ec de th tr t j m : TS st ec de th tr -> TS st ec de th ((t, TUp j m) :: tr).
  Proof.
    intros []. ts_split; auto.
    apply bgo_snoc; auto. right. exact I.
  Qed.

  Lemma TS_qext st ec de th tr t tr1 : TS st ec de th tr -> qext t tr tr1 -> TS st ec de th tr1.
  Proof. intros H Hq. induction Hq; auto. now apply TS_up. Qed.

  Lemma TS_end st ec de th tr t x :
    TS st ec de th tr -> pq x = pq (th t) -> pin x = false ->
    TS st ec de (upd th t x) ((t, TEnd) :: tr).
  Proof.
    intros [] Hq Hp. ts_split; auto.
    - apply bgo_snoc; auto. right. exact I.
    - pw jj t; [rewrite Hq|]; auto.
    - pw jj t; [now rewrite Hp|]. auto.
  Qed.

  Lemma TS_dh ec de th tr t : TS 0 ec de th tr -> TS 1 ec de th ((t, TBegin DH) :: tr).
  Proof.
    intros []. ts_split; auto.
    - rewrite ts_greet0. reflexivity.
    - apply bgo_snoc; auto. right. exact I.
  Qed.

  Lemma TS_dd st ec th th' tr t v :
    TS st ec 0 th tr ->
    (forall j, j <> t -> th' j = th j) -> pq (th t) = v :: pq (th' t) -> pin (th' t) = true ->
    1 <= st -> ec <> n ->
    TS st ec 0 th' ((t, TBegin (DD v)) :: tr).
  Proof.
    intros [] Ho Hq Hp Hst Hec. ts_split; auto.
    - apply bgo_snoc; auto. left. exact (greeted _ ts_greet0 Hst).
    - destruct (Nat.eqb_spec jj t) as [->|Hj].
      + rewrite <- app_assoc. cbn. rewrite <- Hq. auto.
      + rewrite app_nil_r, Ho by assumption. auto.
    - destruct (scan_seen false (rev tr)) eqn:E; [|now rewrite ts_scan0].
      destruct (ts_seen0 eq_refl); [lia|congruence].
    - pw jj t; [now rewrite Hp|]. rewrite Ho by assumption. auto.
  Qed.

  Lemma TS_dt st ec de th tr t :
    TS st ec de th tr -> ec < n -> S ec = n -> 1 <= st -> (forall j, pin (th j) = false) ->
    TS st (S ec) de th ((t, TBegin DT) :: tr).
  Proof.
    intros [] H1 H2 Hst Ho. ts_split; auto.
    - apply bgo_snoc; auto. left. exact (greeted _ ts_greet0 Hst).
    - rewrite ts_dt0. destruct (Nat.eqb_spec ec n), (Nat.eqb_spec (S ec) n); auto; lia.
    - rewrite ts_scan0. rewrite existsb_false; [reflexivity|].
      intros j. rewrite ts_open0. apply Ho.
  Qed.

  Lemma TS_de st ec de th tr t e :
    TS st ec de th tr -> 1 <= st -> TS st ec (S de) th ((t, TBegin (DE e)) :: tr).
  Proof.
    intros [] Hst. ts_split; auto.
    - apply bgo_snoc; auto. left. exact (greeted _ ts_greet0 Hst).
    - intros _. left. lia.
  Qed.

  Lemma TS_one_terminal st ec de th tr :
    TS st ec de th tr -> count is_begin_term tr = de + (if ec =? n then 1 else 0).
  Proof. intros []. rewrite count_term_split, ts_dt0, ts_de0. lia. Qed.

  Lemma TS_check fins st ec de th tr :
    TS st ec de th tr -> 1 <= st -> de + (if ec =? n then 1 else 0) <= 1 ->
    (any_err n fins = true -> de = 1 /\ ec <> n) ->
    (any_err n fins = false ->
     (forall t, t < n -> pq (th t) = []) /\ (all_term n fins = true -> ec = n)) ->
    merge_check n qs fins (rev tr) = [].
  Proof.
    intros HT Hst Hone Herr Hok. pose proof (TS_one_terminal HT) as Hterm. destruct HT.
    unfold merge_check. fold o0. rewrite !count_rev, existsb_rev.
    rewrite ts_greet0. destruct (Nat.eqb_spec st 0) as [|_]; [lia|]. cbn [Nat.eqb flagt app].
    rewrite ts_bgo0. cbn [flagt app].
    destruct (Nat.leb_spec (count is_begin_term tr) 1); [|lia]. cbn [flagt app].
    rewrite ts_panic0. cbn [negb flagt app].
    rewrite ts_scan0. cbn [app].
    rewrite flat_map_nil.
    2:{ intros t _. rewrite <- (ts_deliv0 t), is_prefix_app. reflexivity. }
    cbn [app]. destruct (any_err n fins).
    - destruct (Herr eq_refl) as [Hde Hec].
      change (flagt ((count isDE tr =? 1) && (count isDT tr =? 0)) TvNoTerminal = []).
      rewrite ts_de0, ts_dt0, Hde. destruct (Nat.eqb_spec ec n); [contradiction|]. reflexivity.
    - destruct (Hok eq_refl) as [Hq Hall].
      rewrite flat_map_nil.
      2:{ intros t Ht. apply in_seq in Ht.
          rewrite <- (ts_deliv0 t), Hq, app_nil_r, list_val_eqb_refl by lia. reflexivity. }
      cbn [app]. destruct (all_term n fins); [|reflexivity].
      change (flagt (count isDT tr =? 1) TvNoTerminal = []).
      rewrite ts_dt0, (Hall eq_refl), Nat.eqb_refl. reflexivity.
  Qed.
End TraceSummary.

Definition is_indata (pc : mg_pc) : bool := match pc with MgInData => true | _ => false end.

Section TraceInv.
  Variable n : nat.
  Variable qs : nat -> list val.

  Record TR (st ec : nat) (en : bool) (th : nat -> mg_thread) (tr : list tevent) : Prop := mkTR {
    tr_greet : count is_begin_greet tr = (if st =? 0 then 0 else 1);
    tr_bgo : before_greet_ok (rev tr) = true;
    tr_de : count isDE tr = (if en then 1 else 0);
    tr_dt : count isDT tr = (if ec =? n then 1 else 0);
    tr_panic : existsb is_panic tr = false;
    tr_deliv : forall j, delivered_by j (rev tr) ++ mg_q (th j) = qs j;
    tr_scan : scan_term o0 false (rev tr) = [];
    tr_open : forall j, scan_open o0 (rev tr) j = is_indata (mg_pcv (th j));
    tr_seen : scan_seen false (rev tr) = true -> en = true \/ ec = n }.

  Lemma TR_TS st ec en th tr :
    TR st ec en th tr <->
    TS n qs mg_q (fun x => is_indata (mg_pcv x)) st ec (if en then 1 else 0) th tr.
  Proof.
    split; intros []; constructor; auto; intros Hs.
    - destruct (tr_seen0 Hs) as [->|]; auto.
    - destruct (ts_seen0 Hs); auto. destruct en; auto; lia.
  Qed.
End TraceInv.

Section MergeTrace.
  Variable n : nat.
  Variable qs : nat -> list val.
  Variable fins : nat -> final.
  Hypothesis amo : forall i j e1 e2, i < n -> j < n -> fins i = FinErr e1 -> fins j = FinErr e2 -> i = j.

  Definition TRI (s : mg_state) : Prop :=
    TR n qs (mgs_start s) (mgs_endc s) (mgs_ended s) (mgs_th s) (mgs_tr s).

  Lemma TRI_init : 1 <= n -> TRI (mg_init n qs fins).
  Proof.
    intros Hn. unfold TRI. cbn -[Nat.ltb]. constructor; cbn -[Nat.ltb]; auto.
    - destruct n; [lia|reflexivity].
    - intros j. destruct (j <? n); reflexivity.
  Qed.

  Lemma not_counted_lt s t : GI n s -> t < n -> counted s t = false -> mgs_endc s < n.
  Proof. unfold GI. intros -> Ht Hc. exact (cnt_lt _ Ht Hc). Qed.

  Lemma store_fresh s t e :
    TI n fins s -> GE n fins s -> mg_pcv (mgs_th s t) = MgAtEndedStore e -> mgs_ended s = false.
  Proof.
    intros HTI HGE Hp. destruct (mgs_ended s) eqn:E; auto.
    destruct (HGE E) as (f & e0 & Hf & He & Hpc). pose proof (HTI t) as H.
    assert (Ht : t < n) by (apply (TIc_lt H); congruence).
    unfold TIc in H. rewrite Hp in H. destruct H as (H1 & _ & _ & _ & _ & _ & H2 & _).
    assert (f = t) by (apply (amo (e1 := e0) (e2 := e)); auto; congruence). subst f.
    rewrite Hp in Hpc. destruct Hpc; discriminate.
  Qed.

  Notation MTS := (TS n qs mg_q (fun x => is_indata (mg_pcv x))).

  Lemma TS_origin st ec de th tr t pc q f st' tr0 x :
    MTS st ec de th tr -> th t = Th pc q f -> origin st tr t pc st' tr0 ->
    mg_q x = q -> is_indata (mg_pcv x) = false ->
    MTS st' ec de (upd th t x) tr0.
  Proof.
    intros HT Hth Ho Hq Hp. destruct Ho.
    - apply TS_upd; [now apply TS_st| |]; now rewrite Hth.
    - apply TS_end; auto. now rewrite Hth.
    - apply TS_end; auto. now rewrite Hth.
  Qed.

  Lemma TRI_step s t s' :
    TI n fins s -> GE n fins s -> GI n s -> TRI s -> mstep n s t s' -> TRI s'.
  Proof.
    destruct s as [st ec en tbs stp th tr]. intros HTI HGE HGI HT Hs. red in Hs. cbn in Hs.
    unfold TRI in *. apply TR_TS in HT. apply TR_TS.
    pose proof (HTI t) as Ht. cbn in Ht.
    mstep_cases Hs;
      cbn [mgs_start mgs_endc mgs_ended mgs_th mgs_tr] in *; [> | rewrite H in Ht .. ].
    - (* ms_fin *) exact HT.
    - (* ms_load_ended *) apply TS_upd; [now apply TS_up| |]; now rewrite H.
    - (* ms_load_taken *) apply TS_upd; auto; now rewrite H.
    - (* ms_load_ok *) apply TS_upd; auto; now rewrite H.
    - (* ms_start_first *) subst st. apply TS_upd; [now apply TS_dh| |]; now rewrite H.
    - (* ms_next_stopped *) eapply TS_origin; eauto.
    - (* ms_next_data: the member is not stopped, so [ended] is not set, and it has not counted itself *)
      pose proof (TS_origin (Th MgFinished (v :: q) f) HT H Ho eq_refl eq_refl) as HT1.
      destruct (TIc_origin Ht Ho) as (Hle & Hst & Htn & _ & _ & Hse).
      assert (Hen : en = false) by (destruct en; auto; destruct Hse as [_ Hse]; rewrite Hse in Hsp; auto; discriminate).
      assert (Hec : ec < n).
      { apply (not_counted_lt (s := St st ec en tbs stp th tr) HGI Htn).
        unfold counted, countedc. cbn. rewrite H. cbn. destruct Ho; reflexivity. }
      subst en. eapply TS_dd; [exact HT1| | | | |].
      + intros j Hj. now rewrite !upd_other.
      + now rewrite !upd_same.
      + now rewrite upd_same.
      + exact Hst.
      + lia.
    - (* ms_next_term *) eapply TS_origin; eauto.
    - (* ms_next_err *) eapply TS_origin; eauto.
    - (* ms_next_none *) eapply TS_origin; eauto.
    - (* ms_endinc_last: the last member counts itself: completion; all the others have counted themselves, so none
         is inside a data delivery *)
      assert (Htn : t < n) by (apply (TIc_lt Ht); discriminate).
      apply TS_upd; [|now rewrite H..].
      apply TS_dt; auto; [lia|apply Ht|].
      intros j. destruct (Nat.eq_dec j t) as [->|Hj]; [now rewrite H|].
      destruct (Nat.lt_ge_cases j n) as [Hjn|Hjn].
      + assert (Hc : counted (St st ec en tbs stp th tr) j = true).
        { apply cnt_but_one with (k := n) (t := t); auto.
          - unfold counted, countedc. cbn. now rewrite H.
          - unfold GI in HGI. cbn in HGI. rewrite HGI in Hec. exact Hec. }
        unfold counted, countedc in Hc. cbn in Hc.
        destruct (mg_pcv (th j)); cbn in *; auto; discriminate.
      + destruct (HTI j) as (_ & _ & _ & H2 & _). cbn in H2. now rewrite H2.
    - (* ms_endinc_notlast *)
      assert (Htn : t < n) by (apply (TIc_lt Ht); discriminate).
      assert (Hec' : ec < n).
      { apply (not_counted_lt (s := St st ec en tbs stp th tr) HGI Htn).
        unfold counted, countedc. cbn. now rewrite H. }
      apply TS_upd; [now apply TS_ec| |]; now rewrite H.
    - (* ms_ret *) apply TS_end; auto. now rewrite H.
    - (* ms_endedstore *)
      assert (Hen : en = false).
      { apply (store_fresh (s := St st ec en tbs stp th tr) t (e := e)); auto. cbn. now rewrite H. }
      subst en. apply TS_upd; [|now rewrite H..].
      apply TS_de; [eapply TS_qext; eauto|apply Ht].
  Qed.
End MergeTrace.

Definition at_most_one_err (n : nat) (fins : nat -> final) : Prop :=
  forall i j e1 e2, i < n -> j < n -> fins i = FinErr e1 -> fins j = FinErr e2 -> i = j.

Lemma at_most_one_err_of_global n fins :
  (forall i j e1 e2, fins i = FinErr e1 -> fins j = FinErr e2 -> i = j) -> at_most_one_err n fins.
Proof. intros H i j e1 e2 _ _. apply H. Qed.

Section MergeTheorems.
  Variable n : nat.
  Variable qs : nat -> list val.
  Variable fins : nat -> final.
  Hypothesis Hn : 1 <= n.
  Hypothesis amo : at_most_one_err n fins.

  Definition Inv (s : mg_state) : Prop := TI n fins s /\ GE n fins s /\ GI n s /\ TRI n qs s.

  Lemma reach_inv s : mg_reach n qs fins s -> Inv s.
  Proof.
    induction 1 as [|s t _ (H1 & H2 & H3 & H4)].
    - split; [|split; [|split]].
      + apply TI_init.
      + apply GE_init.
      + apply GI_init.
      + now apply TRI_init.
    - pose proof (mstep_of n s t) as Hs. split; [|split; [|split]].
      + eapply TI_step; eauto.
      + eapply GE_step; eauto.
      + eapply GI_step; eauto.
      + eapply TRI_step; eauto.
  Qed.

  Lemma ended_lt s : Inv s -> mgs_ended s = true -> mgs_endc s < n.
  Proof.
    intros (H1 & H2 & H3 & _) He. destruct (H2 He) as (f & e & Hf & Hfe & _).
    apply (not_counted_lt H3 Hf). unfold counted, countedc.
    destruct (H1 f) as (Hfin & _). rewrite Hfin, Hfe. cbn. now rewrite andb_false_r.
  Qed.

  Lemma endc_le s : Inv s -> mgs_endc s <= n.
  Proof. intros (_ & _ & H3 & _). rewrite H3. apply cnt_le. Qed.

  (** the sink is greeted at most once, and nothing is delivered before the greeting begins *)
  Theorem merge_threads_greet_once s :
    mg_reach n qs fins s ->
    count is_begin_greet (mgs_tr s) <= 1 /\ before_greet_ok (rev (mgs_tr s)) = true.
  Proof.
    intros Hr. destruct (reach_inv Hr) as (_ & _ & _ & []). split; auto.
    rewrite tr_greet0. destruct (mgs_start s =? 0); lia.
  Qed.

  Lemma one_term s :
    Inv s -> (if mgs_ended s then 1 else 0) + (if mgs_endc s =? n then 1 else 0) <= 1.
  Proof.
    intros HI. pose proof (ended_lt HI) as Hlt.
    destruct (mgs_ended s); [|destruct (mgs_endc s =? n); lia].
    specialize (Hlt eq_refl). destruct (Nat.eqb_spec (mgs_endc s) n); lia.
  Qed.

  (** at most one terminal message (Terminate or Error) begins at the sink *)
  Theorem merge_threads_one_terminal s :
    mg_reach n qs fins s -> count is_begin_term (mgs_tr s) <= 1.
  Proof.
    intros Hr. pose proof (reach_inv Hr) as HI. pose proof (one_term HI) as Hone.
    destruct HI as (_ & _ & _ & HT%TR_TS). now rewrite (TS_one_terminal HT).
  Qed.

  (** what is still to be delivered is exactly the rest of the queue *)
  Theorem merge_threads_delivered s t :
    mg_reach n qs fins s -> delivered_by t (rev (mgs_tr s)) ++ mg_q (mgs_th s t) = qs t.
  Proof. intros Hr. destruct (reach_inv Hr) as (_ & _ & _ & []). apply tr_deliv0. Qed.

  (** each member's data arrive in its own order: nothing forged, nothing twice *)
  Theorem merge_threads_order s t :
    mg_reach n qs fins s -> is_prefix (delivered_by t (rev (mgs_tr s))) (qs t) = true.
  Proof. intros Hr. rewrite <- (merge_threads_delivered t Hr). apply is_prefix_app. Qed.

  (** the completion begins when no data delivery is in progress, and no data delivery
      begins after a terminal message began (the scan reports nothing at all); in state terms:
      once the end counter is full every member has returned from all its deliveries *)
  Theorem merge_threads_completion_after_data s :
    mg_reach n qs fins s ->
    scan_term (fun _ => false) false (rev (mgs_tr s)) = [] /\
    (mgs_endc s = n -> forall t, t < n ->
       mg_pcv (mgs_th s t) = MgInTerm \/ mg_pcv (mgs_th s t) = MgFinished) /\
    (forall t, scan_open (fun _ => false) (rev (mgs_tr s)) t = true <-> mg_pcv (mgs_th s t) = MgInData).
  Proof.
    intros Hr. destruct (reach_inv Hr) as (_ & _ & H3 & []). split; [exact tr_scan0|split].
    - intros He t Ht. unfold GI in H3. rewrite H3 in He.
      pose proof (cnt_full _ He Ht) as Hc. unfold counted, countedc in Hc.
      destruct (mg_pcv (mgs_th s t)); cbn in Hc; auto; discriminate.
    - intros t. change (fun _ : nat => false) with o0. rewrite tr_open0.
      destruct (mg_pcv (mgs_th s t)); cbn; split; congruence.
  Qed.

  Corollary merge_threads_no_term_during_data s :
    mg_reach n qs fins s ->
    ~ In TvTermDuringData (scan_term (fun _ => false) false (rev (mgs_tr s))).
  Proof. intros Hr. destruct (merge_threads_completion_after_data Hr) as [-> _]. auto. Qed.

  Theorem merge_threads_no_panic s :
    mg_reach n qs fins s -> existsb is_panic (mgs_tr s) = false.
  Proof. intros Hr. destruct (reach_inv Hr) as (_ & _ & _ & []). exact tr_panic0. Qed.

  Lemma merge_threads_finished_ge s t : mg_reach n qs fins s -> n <= t -> mg_finished s t = true.
  Proof.
    intros Hr Ht. destruct (reach_inv Hr) as (H1 & _). destruct (H1 t) as (_ & _ & _ & H & _).
    unfold mg_finished. now rewrite (H Ht).
  Qed.

  (** a limit of the model, not a property of the code: the failing member's [ended.store(true)]
      and its [swap(None)] of every sibling's cell are ONE step of [mg_step], so a member that
      reads [ended = true] at MgAtEndedLoad always finds its cell already emptied and itself
      disposed; the branch of [mg_step] in which the member disposes itself ([ms_load_ended])
      is never taken from a reachable state.  In merge.rs the store and the swaps are separate
      atomic accesses, and the window between them is exactly where that branch matters. *)
  Theorem merge_threads_self_dispose_dead s t :
    mg_reach n qs fins s -> mg_pcv (mgs_th s t) = MgAtEndedLoad -> mgs_ended s = true ->
    mgs_tbs s t = false /\ mgs_stopped s t = true.
  Proof.
    intros Hr Hpc Hen. destruct (reach_inv Hr) as (H1 & _). pose proof (H1 t) as H.
    unfold TIc in H. rewrite Hpc in H. destruct H as (_ & _ & _ & _ & Htb & Hsp).
    rewrite Htb, (Hsp Hen). split; reflexivity.
  Qed.

  (** the full C18 check on every final state (it is enough that the members are finished) *)
  Theorem merge_threads_final_n s :
    mg_reach n qs fins s -> (forall t, t < n -> mg_finished s t = true) ->
    merge_check n qs fins (rev (mgs_tr s)) = [].
  Proof.
    intros Hr Hfin. pose proof (reach_inv Hr) as HI. pose proof (ended_lt HI) as Hlt.
    pose proof (one_term HI) as Hone.
    assert (Hpc : forall t, mg_pcv (mgs_th s t) = MgFinished).
    { intros t. assert (Hf : mg_finished s t = true)
        by (destruct (Nat.lt_ge_cases t n); auto using merge_threads_finished_ge).
      unfold mg_finished in Hf. destruct (mg_pcv (mgs_th s t)); congruence. }
    destruct HI as (H1 & H2 & H3 & HT%TR_TS).
    assert (HF : forall t, t < n ->
              mg_fin (mgs_th s t) = fins t /\ (mgs_stopped s t = true -> mgs_ended s = true) /\
              1 <= mgs_start s /\ (mgs_ended s = false -> mg_q (mgs_th s t) = []) /\
              (forall e, fins t = FinErr e -> mgs_ended s = true)).
    { intros t Ht. pose proof (H1 t) as H. unfold TIc in H. rewrite (Hpc t) in H.
      destruct H as (Ha & Hb & _ & _ & Hc). destruct (Hc Ht) as (Hd & He & Hf & _).
      rewrite Ha in Hf. auto. }
    apply (TS_check fins HT); auto.
    - apply (HF 0 Hn).
    - (* a member fails: exactly one Error, no Terminate *)
      intros (f & e & Hf & Ef)%any_err_elim.
      destruct (HF f Hf) as (_ & _ & _ & _ & Hen). specialize (Hen e Ef).
      rewrite Hen. split; [reflexivity|]. specialize (Hlt Hen). lia.
    - (* nobody fails: everything delivered; all Terminate => exactly one completion *)
      intros Eany.
      assert (Hen : mgs_ended s = false).
      { destruct (mgs_ended s) eqn:E; auto. destruct (H2 E) as (f & e & Hf & He & _).
        now rewrite (any_err_intro fins Hf He) in Eany. }
      split; [intros t Ht; now apply (HF t Ht)|]. intros Eall.
      unfold GI in H3. rewrite H3. apply cnt_all. intros t Ht.
      unfold counted, countedc. rewrite (Hpc t). destruct (HF t Ht) as (Ha & Hb & _).
      rewrite Ha, (all_term_elim fins Eall Ht).
      destruct (mgs_stopped s t); auto. specialize (Hb eq_refl). congruence.
  Qed.

  Theorem merge_threads_final s :
    mg_reach n qs fins s -> (forall t, mg_finished s t = true) ->
    merge_check n qs fins (rev (mgs_tr s)) = [].
  Proof. intros Hr Hfin. apply merge_threads_final_n; auto. Qed.

  (** with a failing member: what the accepted check says of the terminal messages *)
  Theorem merge_threads_final_err s f e :
    mg_reach n qs fins s -> (forall t, mg_finished s t = true) ->
    f < n -> fins f = FinErr e ->
    count isDE (mgs_tr s) = 1 /\ count isDT (mgs_tr s) = 0 /\ existsb is_panic (mgs_tr s) = false.
  Proof.
    intros Hr Hfin Hf He. pose proof (merge_threads_final Hr Hfin) as Hc.
    unfold merge_check in Hc.
    rewrite (any_err_intro fins Hf He) in Hc. do 6 (apply app_eq_nil in Hc; destruct Hc as [_ Hc]).
    apply flagt_nil, andb_true_iff in Hc. rewrite !count_rev, !Nat.eqb_eq in Hc.
    split; [apply Hc|]. split; [apply Hc|]. now apply merge_threads_no_panic.
  Qed.
End MergeTheorems.

Lemma run_full_reach n qs fins nth sch fuel :
  mg_reach n qs fins (run_full (mg_step n) mg_finished nth sch fuel (mg_init n qs fins)).
Proof. apply run_full_inv; [intros s t; apply mgrS|apply mgr0]. Qed.

Corollary merge_driver_final n qs fins nth sch fuel :
  1 <= n -> at_most_one_err n fins ->
  let s := run_full (mg_step n) mg_finished nth sch fuel (mg_init n qs fins) in
  (forall t, t < n -> mg_finished s t = true) ->
  merge_check n qs fins (rev (mgs_tr s)) = [].
Proof. intros Hn Ha s Hf. apply merge_threads_final_n; auto. apply run_full_reach. Qed.

(** two failing members: both deliver their Error (so "at most one" is necessary) *)
Example two_failures_two_errors :
  let fins := fun t => match t with 0 => FinErr 100 | 1 => FinErr 101 | _ => FinNone end in
  let s := run_full (mg_step 2) mg_finished 2 [0;0;1;1;0;0;1] 100 (mg_init 2 (fun _ => []) fins) in
  rev (mgs_tr s) =
    [(0, TBegin DH); (0, TEnd); (0, TUp 1 UT); (0, TBegin (DE 100));
     (1, TUp 0 UT); (1, TBegin (DE 101)); (0, TEnd); (1, TEnd)]
  /\ merge_check 2 (fun _ => []) fins (rev (mgs_tr s)) = [TvSinkTermTwice; TvNoTerminal].
Proof. vm_compute. split; reflexivity. Qed.

(** one failing member: its Error begins while member 0 is inside a data delivery; member 0
    is told to stop, returns, and starts nothing further; [merge_check] accepts this *)
Example error_during_data :
  let qs := fun t => match t with 0 => [VN 1; VN 3] | _ => [] end in
  let fins := fun t => match t with 1 => FinErr 101 | _ => FinTerm end in
  let s := run_full (mg_step 2) mg_finished 2 [0;0;0;1;1;1;0;0;0;0;1] 100 (mg_init 2 qs fins) in
  rev (mgs_tr s) =
    [(0, TBegin DH); (0, TEnd); (0, TBegin (DD (VN 1))); (1, TUp 0 UT);
     (1, TBegin (DE 101)); (0, TEnd); (1, TEnd)]
  /\ merge_check 2 qs fins (rev (mgs_tr s)) = [].
Proof. vm_compute. split; reflexivity. Qed.

Print Assumptions merge_threads_greet_once.
Print Assumptions merge_threads_one_terminal.
Print Assumptions merge_threads_order.
Print Assumptions merge_threads_delivered.
Print Assumptions merge_threads_completion_after_data.
Print Assumptions merge_threads_no_term_during_data.
Print Assumptions merge_threads_no_panic.
Print Assumptions merge_threads_finished_ge.
Print Assumptions merge_threads_self_dispose_dead.
Print Assumptions merge_threads_final_n.
Print Assumptions merge_threads_final.
Print Assumptions merge_threads_final_err.
Print Assumptions run_full_reach.
Print Assumptions merge_driver_final.
