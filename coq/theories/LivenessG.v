(** * LivenessG: a pull pipeline runs to completion, and computes its list function on the whole input.

    [pipeline_for_each] (Programs.v) is the safety half of C06: whenever the net
    from_iter -> stages -> for_each is at rest, the closure has been called on the list function of
    what from_iter has delivered so far.  This file proves the other half for the same nets: once
    for_each is applied, the net comes to rest after finitely many internal transfers (no environment
    move is needed or possible), for_each has then seen the end of the stream, and the closure has
    been called on the list function of the WHOLE input - "and then completes without stalling".

    The argument is a counting one, over the message counts of Flow.v.  Its first part ([AnyPipe])
    holds of every net [pipe_net it stages b], with for_each at the end or with the environment as
    the sink of the last stage (PullPrograms.v, PullReturns.v); the second part ([Pipe]) is about
    the closed net.
    - Demand is never invented: at every node the Pulls sent up are bounded by the greetings and data
      received ([pulls_bounded_from]), by induction from the last node downward; so every node makes a
      bounded number of calls, every internal transfer is a call delivered or a call returned, and
      the run is finite ([terminates]).
    - Demand is never lost: at rest, if every link were still live, for_each's one outstanding Pull
      would be outstanding at every link down to from_iter ([live_chain]), but from_iter at rest
      has served every Pull it received ([rf_served]) - under the discipline "one Pull per message"
      that the pipeline provably maintains towards it ([src_one_pull]).  So at rest some link is over,
      hence (status coupling of the stages at rest) for_each has seen the end.
    - The end came from from_iter's exhaustion or from a take whose quota was filled; in both cases
      the list function of the delivered prefix equals that of the whole input ([full_at]).

    Every node is tracked in two regimes at once.  The composition theorem (Chain.v) places each node
    in its own conformant environment with [one_pull = false] ([nreach], through [regime_ok]); the
    counting needs more of the last node and of from_iter: that their sink sends at most one Pull per
    message.  That is the same configuration reachable with [one_pull = true] ([nreach1]); [step]
    does not read the flag ([step_same]), so one run of the net is a run in both regimes as long as
    every Pull that enters a node finds credit ([nreach1_step]). *)

From CB Require Import ProofLib Spec Chain Programs Flow FlowLists Wire2 FlowGeneric.
From CB Require Import Flow_relay Flow_take Flow_ends Flow_take_bound.
From CB Require Inv_from_iter Inv_for_each.

Set Implicit Arguments.

(** ** The regime "the sink sends at most one Pull per message received", for any parameters *)

Definition with_one_pull (p : mparams) : mparams :=
  {| nsinks := nsinks p; late_ok := late_ok p; pullable := pullable p; one_pull := true;
     resub := resub p; no_nest := no_nest p; c14 := c14 p |}.

Definition nreach1 (n : node) : Prop := reach (with_one_pull (npar n)) (ngrd n) (ncfg n).

Lemma enabled_one_pull o p g (c : cfg o) m :
  enabled p g c m = true ->
  (forall s, m = MIn (IUp s UP) -> 0 < credit (ms c) s) ->
  enabled (with_one_pull p) g c m = true.
Proof.
  intros He Hcr. unfold enabled in *. destruct (dead c); [discriminate|]. cbn [negb andb] in *.
  destruct m as [[s a|s u|j d|s]|]; try exact He.
  destruct u as [|e|]; try exact He.
  apply andb_prop in He. destruct He as [H1 He]. apply andb_prop in He. destruct He as [H2 _].
  rewrite H1, H2. cbn. specialize (Hcr s eq_refl). destruct (credit (ms c) s); [lia|reflexivity].
Qed.

(** the regime is read by [enabled] only; stated piece by piece because the conversion of the
    two whole [step]s is slow to check *)
Lemma step_same p o (c : cfg o) m : step (with_one_pull p) c m = step p c m.
Proof.
  assert (P : forall evs (c' : cfg o), push_events (with_one_pull p) evs c' = push_events p evs c')
    by reflexivity.
  assert (S : forall (c' : cfg o) r, settle (with_one_pull p) c' r = settle p c' r) by reflexivity.
  unfold step. rewrite !P.
  destruct (dead c), m as [i|]; try destruct (stack c) as [|[k cl] rest]; rewrite ?S; reflexivity.
Qed.

Lemma nreach1_step n m :
  nreach1 n -> nenabled n m = true ->
  (forall s, m = MIn (IUp s UP) -> 0 < credit (nms n) s) ->
  nreach1 (nstep n m).
Proof.
  intros Hr He Hcr. unfold nreach1, nstep. cbn [npar ngrd ncfg]. rewrite <- step_same.
  apply reachS; [exact Hr | now apply enabled_one_pull].
Qed.

Lemma ncredit_exact n : nreach1 n ->
  credit (nms n) 0 + pin (ntrace n) = hout (ntrace n) + dout (ntrace n).
Proof. intros H. exact (credit_exact (p := with_one_pull (npar n)) eq_refl H). Qed.

(** ** Nets in general: what one move does *)

(** [tot f N]: the count [f] summed over the traces of all nodes; [pto N]: 1 while a call is in
    flight (made, not yet delivered); [call_last n]: 1 if the last step of [n] ended in a call *)
Definition tot (f : list event -> nat) (N : net) : nat :=
  list_sum (map (fun n => f (ntrace n)) (nodes N)).
Definition pto (N : net) : nat := match pend N with PTo _ _ => 1 | _ => 0 end.
Definition call_last (n : node) : nat := match nlast n with Some (ECall _) => 1 | _ => 0 end.

Fixpoint taus (m : nat) (N : net) : net :=
  match m with 0 => N | S m' => taus m' (net_step N NTau) end.

Lemma tau_enabled N : pend N <> PIdle -> net_enabled N NTau = true.
Proof. unfold net_enabled. destruct (pend N); [congruence|reflexivity|reflexivity]. Qed.

Lemma tau_idle N : pend N = PIdle -> net_step N NTau = N.
Proof. intros H. unfold net_step. now rewrite H. Qed.

Lemma after_step_pto N x n' : pto (after_step N x n') <= call_last n'.
Proof.
  unfold after_step, pto, call_last. destruct (nlast n') as [[i|c| | |ob|]|]; cbn; try lia.
  - destruct (route _ _ _); cbn; lia.
  - destruct (gst N) as [|[j [| |]] G]; cbn; lia.
Qed.

Lemma step_counts (N1 : net) x n m :
  nth_error (nodes N1) x = Some n -> nenabled n m = true ->
  let N' := after_step N1 x (nstep n m) in
  tot n_in N' = tot n_in N1 + (match m with MIn _ => 1 | MRet => 0 end) /\
  tot n_ret N' = tot n_ret N1 + (match m with MIn _ => 0 | MRet => 1 end) /\
  tot n_call N' = tot n_call N1 + call_last (nstep n m) /\
  pto N' <= call_last (nstep n m).
Proof.
  intros Hn He N'. unfold nenabled in He.
  destruct (moves_step (npar n) (ngrd n) (ncfg n) m He) as (H1 & H2 & H3).
  change (trace (step (npar n) (ncfg n) m)) with (ntrace (nstep n m)) in *.
  change (trace (ncfg n)) with (ntrace n) in *.
  change (hd_error (rtrace (step (npar n) (ncfg n) m))) with (nlast (nstep n m)) in *.
  fold (call_last (nstep n m)) in H2.
  unfold tot, N'. rewrite !after_step_nodes.
  pose proof (list_sum_set_nth (fun k => n_in (ntrace k)) x (nstep n m) _ Hn) as A1.
  pose proof (list_sum_set_nth (fun k => n_ret (ntrace k)) x (nstep n m) _ Hn) as A2.
  pose proof (list_sum_set_nth (fun k => n_call (ntrace k)) x (nstep n m) _ Hn) as A3.
  cbn beta in *.
  pose proof (after_step_pto N1 x (nstep n m)) as A4.
  destruct m as [inp|]; repeat split; try exact A4; lia.
Qed.

(** the direction of the pending transfer: talkback calls travel up, deliveries travel down *)
Definition pend_dir (N : net) : Prop :=
  match pend N with
  | PTo t inp =>
      match inp with
      | ISub s _ | IUp s _ => s = 0 /\ S t < length (nodes N)
      | IDn _ _ => 0 < t
      | ITick _ => False
      end
  | _ => True
  end.

Lemma after_step_dir N x n n' :
  nth_error (nodes N) x = Some n -> pend_dir (after_step N x n').
Proof.
  intros Hn. apply nth_error_lt in Hn.
  unfold pend_dir, after_step. destruct (nlast n') as [[i|c| | |ob|]|]; cbn [pend]; auto.
  - destruct (route (length (nodes N)) x c) eqn:Er; cbn [pend nodes]; auto.
    + destruct (route_up _ _ _ Er) as [[->|[u ->]] Hx]; cbn [xlate];
        rewrite set_nth_length; split; auto; lia.
    + destruct (route_dn _ _ _ Er) as (d & -> & _). cbn [xlate]. lia.
  - destruct (gst N) as [|[j [| |]] G]; cbn [pend]; auto.
Qed.

Lemma net_step_dir N mv : pend_dir N -> pend_dir (net_step N mv).
Proof.
  intros Hd. unfold net_step.
  destruct mv as [i m|]; destruct (pend N) as [|t inp|j] eqn:Ep; try exact Hd.
  - destruct (nth_error (nodes N) i) as [n|] eqn:Hn; [|exact Hd].
    destruct m; eapply after_step_dir; cbn [nodes]; exact Hn.
  - destruct (nth_error (nodes N) t) as [n|] eqn:Hn; [|exact Hd].
    eapply after_step_dir; exact Hn.
  - destruct (nth_error (nodes N) j) as [n|] eqn:Hn; [|exact Hd].
    eapply after_step_dir; cbn [nodes]; exact Hn.
Qed.

Lemma reach_dir N0 N : pend N0 = PIdle -> net_reach N0 N -> pend_dir N.
Proof.
  intros H0 Hr. induction Hr as [|N mv Hr IH He].
  - unfold pend_dir. now rewrite H0.
  - now apply net_step_dir.
Qed.

(** ** Nodes of a pipeline: the flow facts of Flow_*.v ([sf_], [kf_], [rf_]: stage, sink, source)
       for a stage node ([ns_]), the for_each node ([nk_]) and the from_iter node ([nr_]) *)

Definition bound_of (s : ustage) : option nat :=
  match s with UTake k => Some k | _ => None end.

Lemma stage_flow_of s : ustage_ok s -> stage_flow (ustage_op s) p_mid (bound_of s).
Proof.
  destruct s as [f|cd|r seed|k|k]; cbn; intros H.
  - now apply map_stage_flow.
  - now apply filter_stage_flow.
  - now apply scan_stage_flow.
  - now apply take_stage_flow.
  - now apply skip_stage_flow.
Qed.

Lemma calls_sat_impl (P Q : call -> Prop) o :
  (forall c, P c -> Q c) -> calls_sat P o -> calls_sat Q o.
Proof. intros H [A B]. split; intros; apply H; eauto. Qed.

Lemma ns_flow n s :
  nsig n = sig_stage s -> ustage_ok s -> nreach n ->
  pout (ntrace n) + dout (ntrace n) <= pin (ntrace n) + din (ntrace n) /\
  hout (ntrace n) <= hin (ntrace n) /\
  (stack (ncfg n) = [] -> sk (nms n) 0 = SLive ->
     pout (ntrace n) + dout (ntrace n) = pin (ntrace n) + din (ntrace n) /\ us (nms n) 0 = ULive) /\
  (stack (ncfg n) = [] -> subd (nms n) 0 = true -> sk (nms n) 0 = SNone -> us (nms n) 0 = USubd) /\
  (stack (ncfg n) = [] -> sk (nms n) 0 = SFinished ->
     us (nms n) 0 = UEnded \/ exists k, bound_of s = Some k /\ dout (ntrace n) = k) /\
  calls_sat port0 (nop n).
Proof.
  intros E Hs Hre. destruct (nsig_inv E) as [c ->].
  pose proof (stage_flow_of s Hs) as F. unfold nreach, ntrace, nms in *. cbn [nop npar ngrd ncfg] in *.
  split; [exact (sf_demand_le F Hre)|]. split; [exact (sf_greet F Hre)|].
  split; [intros H1 H2; split; [exact (sf_demand_eq F Hre H1 H2) | exact (sf_live F Hre H1 H2)]|].
  split; [exact (sf_wait F Hre)|]. split; [exact (sf_fin F Hre)|]. exact (sf_calls F).
Qed.

Definition sink_flow_mid : sink_flow for_each_op p_mid :=
  for_each_sink_flow p_mid eq_refl eq_refl eq_refl eq_refl.

Lemma nk_flow n :
  nsig n = sig_sink -> nreach n ->
  pout (ntrace n) = hin (ntrace n) + din (ntrace n) /\
  us (nms n) 0 <> UStopped /\ (subd (nms n) 0 = true -> us (nms n) 0 <> UNone) /\
  dn_out (ntrace n) = [] /\ calls_sat only_up (nop n).
Proof.
  intros E Hre. destruct (nsig_inv E) as [c ->].
  unfold nreach, ntrace, nms in *. cbn [nop npar ngrd ncfg] in *.
  split; [exact (kf_pulls sink_flow_mid Hre)|]. split; [exact (kf_nostop sink_flow_mid Hre)|].
  split; [exact (kf_subd sink_flow_mid Hre)|].
  split; [exact (no_dn (kf_calls sink_flow_mid) Hre) | exact (kf_calls sink_flow_mid)].
Qed.

(** from_iter in the regime where its sink sends one Pull per message *)
Definition p_src1 : mparams :=
  {| nsinks := 1; late_ok := true; pullable := false; one_pull := true; resub := false;
     no_nest := true; c14 := false |}.

Section Source.
  Variable it : nat -> option val.

  Definition source_flow1 : source_flow (from_iter_op it) p_src1 :=
    from_iter_source_flow it p_src1 eq_refl eq_refl eq_refl eq_refl eq_refl.

  Lemma nr_flow n :
    nsig n = sig_src it -> nreach n ->
    up_out (ntrace n) = [] /\ calls_sat only_dn (nop n).
  Proof.
    intros E Hre. destruct (nsig_inv E) as [c ->].
    unfold nreach, ntrace, nms in *. cbn [nop npar ngrd ncfg] in *.
    split; [exact (no_up (rf_calls source_flow1) Hre) | exact (rf_calls source_flow1)].
  Qed.

  Lemma nr_served n : nsig n = sig_src it -> nreach1 n ->
    stack (ncfg n) = [] -> sk (nms n) 0 = SLive -> pin (ntrace n) = dout (ntrace n).
  Proof.
    intros E Hre. destruct (nsig_inv E) as [c ->].
    unfold nreach1, ntrace, nms in *. cbn [nop npar ngrd ncfg] in *.
    exact (rf_served source_flow1 Hre).
  Qed.

  Lemma nr_subd n : nsig n = sig_src it -> nreach n ->
    subd (nms n) 0 = true -> sk (nms n) 0 <> SNone.
  Proof.
    intros E Hre. destruct (nsig_inv E) as [c ->].
    unfold nreach, nms in *. cbn [nop npar ngrd ncfg] in *.
    pose proof (Inv_from_iter.inv_reach (p := p_src) eq_refl eq_refl Hre) as HI.
    rewrite (Inv_from_iter.i_subd HI). destruct (sk (ms c) 0); congruence.
  Qed.

  (** from_iter never delivers more data, nor calls next() more often, than it received Pulls *)
  Lemma nr_lazy n : nsig n = sig_src it -> nreach n ->
    dout (ntrace n) <= pin (ntrace n) /\
    length (Inv_from_iter.nexts (ntrace n)) <= pin (ntrace n).
  Proof.
    intros E Hre. destruct (nsig_inv E) as [c ->].
    unfold nreach, ntrace in *. cbn [nop npar ngrd ncfg] in *.
    pose proof (from_iter_demand (p := p_src) eq_refl eq_refl Hre). lia.
  Qed.
End Source.

(** ** Any pipeline: from_iter, stages, and for_each at the end iff [b] *)

Section AnyPipe.
  Variable it : nat -> option val.
  Variable stages : list ustage.
  Hypothesis Hok : Forall ustage_ok stages.
  Variable b : bool.

  Local Notation psigs := (pipe_sigs it stages b).
  Local Notation PN := (pipe_net it stages b).

  (** the index of the last node *)
  Definition ptop : nat := (if b then 1 else 0) + length stages.

  Definition p_safe := @pipe_safe it stages b Hok.
  Definition p_reg := @pipe_regime it stages b.

  Lemma psigs_length : length psigs = S ptop.
  Proof.
    unfold pipe_sigs, ptop. cbn [length]. rewrite app_length, map_length. destruct b; cbn; lia.
  Qed.

  Lemma stage_ok_at i s : nth_error stages i = Some s -> ustage_ok s.
  Proof. intros H. rewrite Forall_forall in Hok. apply Hok. exact (nth_error_In _ _ H). Qed.

  (** *** What the composition theorems say about a reachable net *)

  Lemma p_inv N : net_reach PN N -> Inv psigs N.
  Proof. intros Hr. exact (chain_inv p_safe p_reg (nsig_map_mk0 _) (@ninit_map_mk0 _) Hr). Qed.

  Lemma p_wire N : net_reach PN N -> wire2_ok (nodes N) (pend N).
  Proof. intros Hr. exact (chain_wire2 p_safe p_reg (nsig_map_mk0 _) (@ninit_map_mk0 _) Hr). Qed.

  Lemma p_nodes_sig N : net_reach PN N -> map nsig (nodes N) = psigs.
  Proof. intros Hr. destruct (p_inv Hr) as ([H _] & _). exact H. Qed.

  Lemma p_len N : net_reach PN N -> length (nodes N) = S ptop.
  Proof. intros Hr. rewrite <- psigs_length, <- (p_nodes_sig Hr). now rewrite map_length. Qed.

  Lemma p_reach N i n : net_reach PN N -> nth_error (nodes N) i = Some n -> nreach n.
  Proof. intros Hr Hn. destruct (p_inv Hr) as ([_ H] & _). now destruct (H i n Hn). Qed.

  Lemma p_dir N : net_reach PN N -> pend_dir N.
  Proof. apply reach_dir. reflexivity. Qed.

  Lemma p_below N i : net_reach PN N -> i <= ptop -> exists n, nth_error (nodes N) i = Some n.
  Proof. intros Hr Hi. apply nth_error_below. rewrite (p_len Hr). lia. Qed.

  (** the wire theorem of Wire2.v for this net: what has arrived across a link is at most what was
      sent, and at rest both ends have the same sequences *)
  Definition p_counts N i U D (Hr : net_reach PN N) :=
    @chain_wire2_counts psigs p_safe p_reg _ N i U D (nsig_map_mk0 _) (@ninit_map_mk0 _) Hr.
  Definition p_idle N i U D (Hr : net_reach PN N) :=
    @chain_wire2_idle psigs p_safe p_reg _ N i U D (nsig_map_mk0 _) (@ninit_map_mk0 _) Hr.

  Inductive kind_at (i : nat) (n : node) : Prop :=
  | K_src : i = 0 -> nsig n = sig_src it -> kind_at i n
  | K_stage s : nth_error stages (pred i) = Some s -> 1 <= i <= length stages ->
                nsig n = sig_stage s -> kind_at i n
  | K_sink : b = true -> i = S (length stages) -> nsig n = sig_sink -> kind_at i n.

  Lemma p_kind N i n : net_reach PN N -> nth_error (nodes N) i = Some n -> kind_at i n.
  Proof.
    intros Hr Hn.
    assert (Hs : nth_error psigs i = Some (nsig n))
      by (rewrite <- (p_nodes_sig Hr); now apply map_nth_error).
    unfold pipe_sigs in Hs. destruct i as [|i].
    - cbn [nth_error] in Hs. apply K_src; [reflexivity | congruence].
    - cbn [nth_error] in Hs.
      destruct (nth_error stages i) as [s|] eqn:Es.
      + pose proof (nth_error_lt _ _ Es) as Hlt.
        rewrite nth_error_app1, (map_nth_error sig_stage _ _ Es) in Hs by now rewrite map_length.
        apply K_stage with s; [exact Es | lia | congruence].
      + apply nth_error_None in Es.
        rewrite nth_error_app2, map_length in Hs by now rewrite map_length.
        destruct b eqn:Eb; [|destruct (i - length stages) as [|[|d]]; discriminate].
        destruct (i - length stages) as [|[|d]] eqn:Ed; try discriminate.
        apply K_sink; [exact Eb | lia | cbn in Hs; congruence].
  Qed.

  Lemma p_src_at N n : net_reach PN N -> nth_error (nodes N) 0 = Some n -> nsig n = sig_src it.
  Proof. intros Hr Hn. destruct (p_kind 0 Hr Hn) as [_ E|s _ Hi _|_ Hi _]; [exact E | lia | lia]. Qed.

  Lemma p_stage_at N i n : net_reach PN N -> nth_error (nodes N) (S i) = Some n -> i < length stages ->
    exists s, nth_error stages i = Some s /\ nsig n = sig_stage s.
  Proof.
    intros Hr Hn Hi. destruct (p_kind (S i) Hr Hn) as [H0 _|s Hs _ E|_ Hl _]; [lia| |lia]. now exists s.
  Qed.

  Lemma p_sink_at N n :
    net_reach PN N -> nth_error (nodes N) (S (length stages)) = Some n -> nsig n = sig_sink.
  Proof. intros Hr Hn. destruct (p_kind _ Hr Hn) as [H0 _|s _ Hi _|_ _ E]; [lia | lia | exact E]. Qed.

  (** *** Facts about one node of a reachable net *)

  Section Node.
    Variable N : net.
    Hypothesis Hr : net_reach PN N.
    Variable i : nat.
    Variable n : node.
    Hypothesis Hn : nth_error (nodes N) i = Some n.

    Definition node_hyps := node_facts p_safe p_reg (nodes N) i (p_nodes_sig Hr) Hn.
    Definition node_reach : nreach n := p_reach i Hr Hn.

    (** the three hypotheses the theorems of FlowGeneric.v share, for node [n] *)
    Lemma node_std (Q : Prop) :
      ((forall c : cfg (nop n), reach (npar n) (ngrd n) c -> viols (ms c) = [] /\ dead c = false) ->
       (forall m inp, ngrd n m inp = g_std m inp) -> resub (npar n) = false -> nreach n -> Q) -> Q.
    Proof.
      intros H. destruct node_hyps as (Hs & _ & Hres & _ & _ & _ & Hg). exact (H Hs Hg Hres node_reach).
    Qed.

    Lemma node_hout_le : hout (ntrace n) <= 1.
    Proof. apply node_std, greet_once. Qed.

    Lemma node_dn_len : length (dn_out (ntrace n)) <= dout (ntrace n) + 2.
    Proof. apply node_std, dn_out_len. Qed.

    Lemma node_up_len : length (up_out (ntrace n)) <= pout (ntrace n) + 2.
    Proof. apply node_std, up_out_len. Qed.

    Lemma node_greeted : sk (nms n) 0 <> SNone -> hout (ntrace n) = 1.
    Proof. apply node_std, greeted_hout. Qed.

    Lemma node_ret_call : n_ret (ntrace n) + length (stack (ncfg n)) = n_call (ntrace n).
    Proof. exact (ret_le_call node_reach). Qed.

    Lemma node_cstack : cstack (nms n) = map snd (stack (ncfg n)).
    Proof. exact (reach_cstack node_reach). Qed.

    Lemma node_port0 : calls_sat port0 (nop n).
    Proof.
      destruct (p_kind i Hr Hn) as [_ E|s Hs _ E|_ _ E].
      - apply (calls_sat_impl (P := only_dn)); [|exact (proj2 (nr_flow E node_reach))].
        intros c Hc. right. right. exact Hc.
      - destruct (ns_flow E (stage_ok_at _ Hs) node_reach) as (_ & _ & _ & _ & _ & H). exact H.
      - destruct (nk_flow E node_reach) as (_ & _ & _ & _ & H).
        apply (calls_sat_impl (P := only_up)); [|exact H].
        intros c [Hc|Hc]; [left; exact Hc | right; left; exact Hc].
    Qed.

    Lemma node_calls_port0 :
      n_call (ntrace n) = length (up_out (ntrace n)) + length (dn_out (ntrace n)).
    Proof. exact (calls_port0 node_port0 node_reach). Qed.

  End Node.

  Lemma step_shape N mv : net_reach PN N -> net_enabled N mv = true ->
    exists x n m N1, nth_error (nodes N) x = Some n /\ nenabled n m = true /\
      nodes N1 = nodes N /\ net_step N mv = after_step N1 x (nstep n m) /\
      match mv with
      | NEnv i m' => pend N = PIdle /\ x = i /\ m = m' /\
                     (forall inp, m' = MIn inp -> ext_input_ok (length (nodes N)) i inp = true)
      | NTau => match pend N with
                | PTo t inp => x = t /\ m = MIn inp
                | PRet j => x = j /\ m = MRet
                | PIdle => False
                end
      end.
  Proof.
    intros Hr He.
    destruct (net_step_view p_safe p_reg _ (p_inv Hr) He) as [x n m G1 Hst Hmv Hn Hen Hfrom _ _ _ _].
    exists x, n, m, (mk_net (nodes N) G1 PIdle).
    split; [exact Hn|]. split; [exact Hen|]. split; [reflexivity|]. split; [exact Hst|].
    destruct mv as [i m'|]; [|exact Hmv]. destruct Hmv as (Hp & -> & ->).
    split; [exact Hp|]. split; [reflexivity|]. split; [reflexivity|].
    intros inp ->. rewrite Hp in Hfrom. exact Hfrom.
  Qed.

  (** every internal transfer is a call delivered or a call returned:
      calls made + returns made + 1 unless a call is in flight grows with it *)
  Definition phi (N : net) : nat := tot n_call N + tot n_ret N + (1 - pto N).

  Lemma tau_moves N : net_reach PN N -> pend N <> PIdle ->
    let N' := net_step N NTau in
    tot n_in N' = tot n_in N + pto N /\ tot n_ret N' = tot n_ret N + (1 - pto N) /\
    exists k, tot n_call N' = tot n_call N + k /\ pto N' <= k <= 1.
  Proof.
    intros Hr Hp N'.
    destruct (step_shape NTau Hr (tau_enabled _ Hp))
      as (x & n & m & N1 & Hn & He & Hnodes & Hstep & Hsh).
    unfold N'. rewrite Hstep. rewrite <- Hnodes in Hn.
    destruct (step_counts N1 x m Hn He) as (A1 & A2 & A3 & A4).
    assert (E : forall f, tot f N1 = tot f N) by (intros f; unfold tot; now rewrite Hnodes).
    rewrite !E in *.
    assert (Hpto : pto N = match m with MIn _ => 1 | MRet => 0 end).
    { unfold pto. destruct (pend N) as [|t inp|j]; [contradiction| |];
        destruct Hsh as [_ ->]; reflexivity. }
    assert (call_last (nstep n m) <= 1) by (unfold call_last; destruct (nlast _) as [[]|]; lia).
    rewrite Hpto. split; [destruct m; lia|]. split; [destruct m; lia|].
    exists (call_last (nstep n m)). lia.
  Qed.

  Lemma tau_phi N : net_reach PN N -> pend N <> PIdle -> S (phi N) <= phi (net_step N NTau).
  Proof.
    intros Hr Hp. destruct (tau_moves Hr Hp) as (_ & A2 & k & A3 & A4).
    unfold phi. rewrite A2, A3. unfold pto in *. destruct (pend N); [contradiction|lia..].
  Qed.

  Lemma tot_ret_le N : net_reach PN N -> tot n_ret N <= tot n_call N.
  Proof.
    intros Hr. apply list_sum_le. intros n Hin. apply In_nth_error in Hin. destruct Hin as [i Hi].
    pose proof (node_ret_call Hr i Hi). lia.
  Qed.

  (** *** Nothing is invented: demand, by induction from the last node downward *)

  Lemma pulls_bounded_from N : net_reach PN N ->
    (forall n, nth_error (nodes N) ptop = Some n -> pout (ntrace n) <= hin (ntrace n) + din (ntrace n)) ->
    forall d i n, i + d = ptop -> 1 <= i -> nth_error (nodes N) i = Some n ->
      pout (ntrace n) <= hin (ntrace n) + din (ntrace n).
  Proof.
    intros Hr Htop. induction d as [|d IH]; intros i n Hid Hi Hn.
    - apply Htop. now replace ptop with i by lia.
    - pose proof (p_reach _ Hr Hn) as Hre.
      destruct (p_kind i Hr Hn) as [H0 _|s Hs _ E|Hb Hl _]; [lia| |unfold ptop in Hid; rewrite Hb in Hid; lia].
      destruct (@p_below N (S i) Hr ltac:(lia)) as [D HD].
      specialize (IH (S i) D ltac:(lia) ltac:(lia) HD).
      destruct (p_counts i Hr Hn HD) as (H1 & H2 & H3).
      destruct (ns_flow E (stage_ok_at _ Hs) Hre) as (H4 & H5 & _). lia.
  Qed.

  Lemma top_bounded N n : net_reach PN N -> nth_error (nodes N) ptop = Some n -> nreach1 n ->
    pout (ntrace n) <= hin (ntrace n) + din (ntrace n).
  Proof.
    intros Hr Hn H1. pose proof (p_reach _ Hr Hn) as Hre.
    destruct (p_kind _ Hr Hn) as [_ E|s Hs _ E|_ _ E].
    - destruct (nr_flow E Hre) as [H _]. unfold pout. rewrite H. apply Nat.le_0_l.
    - destruct (ns_flow E (stage_ok_at _ Hs) Hre) as (H4 & H5 & _).
      pose proof (ncredit_exact H1). lia.
    - destruct (nk_flow E Hre) as (H & _). lia.
  Qed.

  (** *** The discipline "one Pull per message" is kept towards every node, if the environment keeps it *)

  Lemma one_pull_init i n : nth_error (nodes PN) i = Some n -> nreach1 n.
  Proof.
    intros Hn. apply nth_error_In in Hn. apply (@ninit_map_mk0 _) in Hn. unfold nreach1. rewrite Hn. constructor.
  Qed.

  Lemma one_pull_step N mv :
    net_reach PN N -> net_enabled N mv = true ->
    (forall i s n, mv = NEnv i (MIn (IUp s UP)) -> nth_error (nodes N) i = Some n ->
       0 < credit (nms n) s) ->
    (forall i n, nth_error (nodes N) i = Some n -> nreach1 n) ->
    forall i n, nth_error (nodes (net_step N mv)) i = Some n -> nreach1 n.
  Proof.
    intros Hr He Hdisc IH i ni Hni.
    destruct (step_shape mv Hr He) as (x & n & m & N1 & Hn & Hen & Hnodes & Hstep & Hsh).
    rewrite Hstep, after_step_nodes, Hnodes, set_nth_nth in Hni.
    destruct (Nat.eqb_spec i x) as [->|Hne]; [|exact (IH _ _ Hni)].
    rewrite Hn in Hni. inversion Hni; subst ni. clear Hni.
    apply nreach1_step; [exact (IH _ _ Hn) | exact Hen |]. intros s ->.
    destruct mv as [i m'|].
    { destruct Hsh as (_ & -> & <- & _). exact (Hdisc _ _ _ eq_refl Hn). }
    (* a Pull from the node below: it has not sent more Pulls than it received greetings and
       data, and the credit of its source is exact *)
    pose proof (p_dir Hr) as Hdir. unfold pend_dir in Hdir.
    destruct (pend N) as [|t inp|j] eqn:Epd; [contradiction| |destruct Hsh; discriminate].
    destruct Hsh as [<- Hinp]. inversion Hinp; subst inp. clear Hinp.
    destruct Hdir as [-> Hlt]. rewrite (p_len Hr) in Hlt.
    destruct (@p_below N (S x) Hr ltac:(lia)) as [D HD].
    destruct (p_wire Hr x Hn HD) as [Wd Wu]. rewrite Epd in Wd, Wu.
    cbn [infl_dn infl_up] in Wd, Wu. rewrite Nat.eqb_refl in Wu. rewrite app_nil_r in Wd.
    assert (Hpo : pout (ntrace D) = pin (ntrace n) + 1).
    { unfold pout, pin. rewrite Wu, cnt_app. reflexivity. }
    assert (Hh : hin (ntrace D) = hout (ntrace n) /\ din (ntrace D) = dout (ntrace n)).
    { unfold hin, hout, din, dout. rewrite Wd. split; reflexivity. }
    pose proof (@pulls_bounded_from N Hr (fun nt Ht => top_bounded Hr Ht (IH _ _ Ht))
                  (ptop - S x) (S x) D ltac:(lia) ltac:(lia) HD) as Hb.
    pose proof (ncredit_exact (IH _ _ Hn)) as Hcr. lia.
  Qed.

  (** *** The net at rest *)

  Section Rest.
    Variable N : net.
    Hypothesis Hr : net_reach PN N.
    Hypothesis Hp : pend N = PIdle.
    Hypothesis Hg : gst N = [].

    Lemma rest_stack i n : nth_error (nodes N) i = Some n -> stack (ncfg n) = [].
    Proof.
      intros Hn. destruct (p_inv Hr) as (_ & Hst & _).
      specialize (Hst i n Hn). rewrite Hg in Hst. cbn in Hst.
      pose proof (node_cstack Hr i Hn) as Hcs.
      destruct (cstack (nms n)); [|discriminate].
      destruct (stack (ncfg n)); [reflexivity|discriminate].
    Qed.

    Lemma rest_link i U D :
      nth_error (nodes N) i = Some U -> nth_error (nodes N) (S i) = Some D -> link (nms U) (nms D).
    Proof.
      intros HU HD. destruct (p_inv Hr) as (_ & _ & _ & _ & Hlk).
      specialize (Hlk i U D HU HD). rewrite Hp in Hlk. exact Hlk.
    Qed.

    Lemma rest_counts i U D :
      nth_error (nodes N) i = Some U -> nth_error (nodes N) (S i) = Some D ->
      hin (ntrace D) = hout (ntrace U) /\ din (ntrace D) = dout (ntrace U) /\
      pin (ntrace U) = pout (ntrace D) /\ data_in 0 (ntrace D) = data_out 0 (ntrace U).
    Proof.
      intros HU HD. destruct (p_idle i Hr HU HD Hp) as [A B].
      unfold hin, hout, din, dout, pin, pout. rewrite A, B.
      rewrite data_in_payloads, data_out_payloads, A. repeat split.
    Qed.
  End Rest.

  Lemma no_overdata N : net_reach PN N ->
    forall i n, i <= length stages -> nth_error (nodes N) i = Some n ->
      dout (ntrace n) <= pin (ntrace n).
  Proof.
    intros Hr. induction i as [|i IH]; intros n Hi Hn; pose proof (p_reach _ Hr Hn) as Hre.
    - exact (proj1 (nr_lazy (p_src_at Hr Hn) Hre)).
    - destruct (nth_error_pred _ _ Hn) as [U HU]. specialize (IH U ltac:(lia) HU).
      destruct (p_counts i Hr HU Hn) as (_ & H2 & H3).
      destruct (p_stage_at Hr Hn Hi) as (s & Hs & E).
      destruct (ns_flow E (stage_ok_at _ Hs) Hre) as (H4 & _). lia.
  Qed.

  (** *** Runs: a set of states closed under internal transfers whose nodes keep the discipline,
      with a bound on what from_iter delivers *)
  Section Run.
    Variable R : net -> Prop.
    Hypothesis R_reach : forall N, R N -> net_reach PN N.
    Hypothesis R_tau : forall N, R N -> pend N <> PIdle -> R (net_step N NTau).
    Hypothesis R_one : forall N, R N -> forall n, nth_error (nodes N) ptop = Some n -> nreach1 n.
    Variable Bd : nat.
    Hypothesis Hdata : forall N, R N ->
      forall n0, nth_error (nodes N) 0 = Some n0 -> dout (ntrace n0) <= Bd.

    (** data: no stage lengthens its input *)
    Lemma dout_le N : R N ->
      forall i n, nth_error (nodes N) i = Some n -> dout (ntrace n) <= Bd.
    Proof.
      intros Hc. pose proof (R_reach Hc) as Hr.
      induction i as [|i IH]; intros n Hn; pose proof (p_reach _ Hr Hn) as Hre.
      - exact (Hdata Hc Hn).
      - destruct (nth_error_pred _ _ Hn) as [U HU]. specialize (IH U HU).
        destruct (p_counts i Hr HU Hn) as (_ & Hd & _).
        destruct (p_kind (S i) Hr Hn) as [Hi _|s Hs _ E|_ _ E]; [lia| |].
        + rewrite dout_data_out, (stage_functional E (stage_ok_at _ Hs) Hre).
          pose proof (usem1_length s (data_in 0 (ntrace n))) as Hl.
          rewrite <- din_data_in in Hl. lia.
        + destruct (nk_flow E Hre) as (_ & _ & _ & H & _). unfold dout. rewrite H. cbn. lia.
    Qed.

    (** Pulls: at most one per greeting or datum received *)
    Lemma pout_le N i n : R N -> nth_error (nodes N) i = Some n -> pout (ntrace n) <= 1 + Bd.
    Proof.
      intros Hc Hn. pose proof (R_reach Hc) as Hr.
      pose proof (p_reach _ Hr Hn) as Hre. destruct i as [|i].
      - destruct (nr_flow (p_src_at Hr Hn) Hre) as (H & _). unfold pout. rewrite H. cbn. lia.
      - destruct (nth_error_pred _ _ Hn) as [U HU].
        destruct (p_counts i Hr HU Hn) as (H1 & H2 & _).
        pose proof (node_hout_le Hr i HU) as H3. pose proof (dout_le Hc i HU) as H4.
        assert (Hlast : S i <= ptop).
        { apply nth_error_lt in Hn. rewrite (p_len Hr) in Hn. lia. }
        pose proof (@pulls_bounded_from N Hr (fun nt Ht => top_bounded Hr Ht (R_one Hc Ht))
                      (ptop - S i) (S i) n ltac:(lia) ltac:(lia) Hn). lia.
    Qed.

    Lemma calls_le N i n : R N -> nth_error (nodes N) i = Some n ->
      n_call (ntrace n) <= 2 * Bd + 5.
    Proof.
      intros Hc Hn. pose proof (R_reach Hc) as Hr. rewrite (node_calls_port0 Hr i Hn).
      pose proof (node_dn_len Hr i Hn). pose proof (node_up_len Hr i Hn).
      pose proof (dout_le Hc i Hn). pose proof (pout_le i Hc Hn). lia.
    Qed.

    Lemma phi_le N : R N -> phi N <= 1 + 2 * (S ptop * (2 * Bd + 5)).
    Proof.
      intros Hc. pose proof (R_reach Hc) as Hr. pose proof (tot_ret_le Hr).
      assert (tot n_call N <= S ptop * (2 * Bd + 5)).
      { rewrite <- (p_len Hr). unfold tot. apply list_sum_bound. intros n Hin.
        apply In_nth_error in Hin. destruct Hin as [i Hi]. exact (calls_le i Hc Hi). }
      unfold phi. lia.
    Qed.

    Lemma R_taus m : forall N, R N -> R (taus m N).
    Proof.
      induction m as [|m IH]; intros N Hc; [exact Hc|]. cbn [taus]. apply IH.
      destruct (pend N) eqn:Hp; [now rewrite tau_idle | apply R_tau; congruence ..].
    Qed.

    (** the pending transfers finish, from every state of the run: [phi] rises by at least one with
        every internal transfer ([tau_phi]) and never exceeds the bound of [phi_le], so the room [d]
        left under the bound is fuel enough *)
    Lemma rests_from d : forall N, R N -> 1 + 2 * (S ptop * (2 * Bd + 5)) <= phi N + d ->
      exists m, m <= d /\ pend (taus m N) = PIdle.
    Proof.
      induction d as [|d IH]; intros N Hc Hd.
      all: destruct (pend N) eqn:Hp; [exists 0; split; [lia | exact Hp]|..].
      all: assert (Hne : pend N <> PIdle) by congruence.
      all: pose proof (tau_phi (R_reach Hc) Hne); pose proof (phi_le (R_tau Hc Hne)).
      1,2: lia.
      all: destruct (IH _ (R_tau Hc Hne)) as (m & Hm & Hp'); [lia|].
      all: exists (S m); split; [lia | exact Hp'].
    Qed.
  End Run.
End AnyPipe.

Section FiniteSource.
  Variable it : nat -> option val.
  Variable xs : list val.
  Hypothesis Hit : forall k, it k = nth_error xs k.

  Lemma map_it_xs l : map it l = map (fun k => nth_error xs k) l.
  Proof. apply map_ext. exact Hit. Qed.

  Lemma nr_prefix n : nsig n = sig_src it -> nreach n -> prefix (data_out 0 (ntrace n)) xs.
  Proof.
    intros E Hre. destruct (src_functional E Hre) as [pos Hpos].
    rewrite map_it_xs in Hpos. exact (finite_it_prefix _ _ _ Hpos).
  Qed.

  Lemma nr_done n : nsig n = sig_src it -> nreach n ->
    sk (nms n) 0 = SFinished -> data_out 0 (ntrace n) = xs.
  Proof.
    intros E Hre. destruct (nsig_inv E) as [c ->].
    unfold nreach, nms, ntrace in *. cbn [nop npar ngrd ncfg] in *. intros Hfin.
    pose proof (@Inv_from_iter.from_iter_done_exact it p_src eq_refl eq_refl eq_refl eq_refl c Hre) as H1.
    destruct (@Inv_from_iter.from_iter_order it p_src eq_refl eq_refl eq_refl eq_refl c Hre) as [H2 _].
    rewrite Hfin, H2, map_it_xs in H1. exact (finite_it_all _ _ _ H1).
  Qed.
End FiniteSource.

(** ** The pipeline under for_each and its closed runs *)

Section Pipe.
  Variable it : nat -> option val.
  Variable stages : list ustage.
  Hypothesis Hok : Forall ustage_ok stages.

  Definition sigs : list sigT3 := pipe_sigs it stages true.
  Definition NP : net := pipe_net it stages true.
  (** the index of for_each ([ptop] with [b = true]) *)
  Definition last : nat := S (length stages).
  Definition kick : nmove := NEnv last (MIn (ISub 0 0)).

  Lemma sigs_last : nth_error sigs last = Some sig_sink.
  Proof.
    unfold sigs, pipe_sigs, last. cbn [nth_error].
    replace (length stages) with (length (map sig_stage stages)) by apply map_length.
    apply nth_error_app_len.
  Qed.

  Lemma sigs_stage i s : nth_error stages i = Some s -> nth_error sigs (S i) = Some (sig_stage s).
  Proof.
    intros H. unfold sigs, pipe_sigs. cbn [nth_error].
    rewrite nth_error_app1 by (rewrite map_length; eapply nth_error_lt; eauto).
    now apply map_nth_error.
  Qed.

  (** the net after for_each has been applied, and then only internal transfers while there is one *)
  Inductive crun : net -> Prop :=
  | crun0 : crun (net_step NP kick)
  | crunS N : crun N -> pend N <> PIdle -> crun (net_step N NTau).

  Lemma NP_last : nth_error (nodes NP) last = Some (mk0 sig_sink).
  Proof. exact (map_nth_error mk0 _ _ sigs_last). Qed.

  Lemma kick_enabled : net_enabled NP kick = true.
  Proof.
    unfold net_enabled, kick. change (pend NP) with PIdle. change (gst NP) with (@nil (nat * gkind)).
    rewrite NP_last. unfold NP, pipe_net, net0. cbn [nodes].
    rewrite map_length, (psigs_length it stages true). unfold ext_input_ok, last, ptop.
    cbn [Nat.add]. rewrite Nat.eqb_refl. reflexivity.
  Qed.

  Lemma crun_reach N : crun N -> net_reach NP N.
  Proof.
    induction 1 as [|N Hc IH Hp].
    - apply nreachS; [apply nreach0 | apply kick_enabled].
    - apply nreachS; [exact IH | now apply tau_enabled].
  Qed.

  (** demand is never invented: by induction from for_each downward *)
  Lemma pulls_bounded N : net_reach NP N ->
    forall d i n, i + d = last -> 1 <= i -> nth_error (nodes N) i = Some n ->
      pout (ntrace n) <= hin (ntrace n) + din (ntrace n).
  Proof.
    intros Hr. apply (pulls_bounded_from Hok Hr). intros n Hn.
    destruct (nk_flow (p_sink_at Hok Hr Hn) (p_reach Hok _ Hr Hn)) as (H & _). lia.
  Qed.

  (** *** Every step is a call delivered or a call returned, so the run is finite *)

  Lemma tau_counts N : net_reach NP N -> pend N <> PIdle ->
    let N' := net_step N NTau in
    tot n_in N' + tot n_ret N' = S (tot n_in N + tot n_ret N) /\
    tot n_in N' + pto N' + tot n_call N <= tot n_in N + pto N + tot n_call N'.
  Proof.
    intros Hr Hp N'. destruct (tau_moves Hok Hr Hp) as (A1 & A2 & k & A3 & A4). fold N' in A1, A2, A3, A4.
    assert (pto N <= 1) by (unfold pto; destruct (pend N); lia). lia.
  Qed.

  (** *** The pipeline keeps the one-Pull-per-message discipline towards EVERY node: each node of a
      closed run is reachable in the environment whose sink sends a Pull only when it has credit *)
  Lemma all_one_pull N : crun N -> forall i n, nth_error (nodes N) i = Some n -> nreach1 n.
  Proof.
    induction 1 as [|N Hc IH Hp].
    - apply (one_pull_step Hok (nreach0 _) kick_enabled); [discriminate | apply one_pull_init].
    - apply (one_pull_step Hok (crun_reach Hc) (tau_enabled _ Hp)); [discriminate | exact IH].
  Qed.

  (** *** Termination, given a bound on what from_iter delivers *)

  (** [steps_max] is the bound of [phi_le]: two per call (made, returned) of each of the
      [length stages + 2] nodes, and the one of [phi] for "no call in flight" *)
  Definition cmax (B : nat) : nat := 2 * B + 5.
  Definition steps_max (B : nat) : nat := 1 + 2 * (S (S (length stages)) * cmax B).

  Lemma crun_taus m N : crun N -> crun (taus m N).
  Proof. apply (R_taus crun crunS). Qed.

  Section Bounded.
    Variable Bd : nat.
    Hypothesis Hdata : forall N, crun N ->
      forall n0, nth_error (nodes N) 0 = Some n0 -> dout (ntrace n0) <= Bd.

    (** once for_each is applied the net comes to rest by itself, after at most [steps_max] transfers *)
    Theorem terminates :
      exists m, m <= steps_max Bd /\ crun (taus m (net_step NP kick)) /\
                pend (taus m (net_step NP kick)) = PIdle.
    Proof.
      destruct (rests_from Hok crun crun_reach crunS (fun N Hc n Hn => all_one_pull Hc _ Hn) Hdata
                  (steps_max Bd) _ crun0) as (m & Hm & Hp); [unfold steps_max, cmax, ptop; cbn; lia|].
      exists m. split; [exact Hm|]. split; [exact (crun_taus m crun0) | exact Hp].
    Qed.
  End Bounded.

  Lemma r_len N : net_reach NP N -> length (nodes N) = S (S (length stages)).
  Proof. exact (p_len Hok (N:=N)). Qed.

  Lemma downstream_exists N i :
    net_reach NP N -> i < last -> exists D, nth_error (nodes N) (S i) = Some D.
  Proof. intros Hr Hi. exact (p_below Hok (i:=S i) Hr Hi). Qed.

  (** *** The net at rest *)

  Lemma route_src_dn d : route (S (S (length stages))) 0 (CDn 0 d) = KDn.
  Proof. reflexivity. Qed.

  (** an idle net has no pending call at all: the innermost one would be external ([pend_ok]), but
      every call of every node is on port 0 ([calls_sat]) and is routed to a neighbour *)
  Lemma rest_gst N : net_reach NP N -> pend N = PIdle -> gst N = [].
  Proof.
    intros Hr Hp. destruct (p_inv Hok Hr) as (Hnodes & Hst & Hwf & Hpend & Hlk).
    rewrite Hp in Hpend. destruct (gst N) as [|[j k] G'] eqn:EG; [reflexivity|exfalso].
    destruct k; try contradiction.
    assert (Hj : j < length (nodes N)) by (destruct Hwf as (Hko & _); exact Hko).
    destruct (nth_error (nodes N) j) as [n|] eqn:Hn.
    2: { apply nth_error_None in Hn. lia. }
    specialize (Hst j n Hn). rewrite kinds_of_cons_same in Hst.
    pose proof (node_cstack Hok Hr j Hn) as Hcs. pose proof (p_reach Hok j Hr Hn) as Hre.
    destruct (cstack (nms n)) as [|cl rest] eqn:Ec; [discriminate|].
    cbn [map] in Hst. inversion Hst as [[Hroute _]]. rewrite (r_len Hr) in Hroute.
    destruct (stack (ncfg n)) as [|[fr cl'] st] eqn:Es; [discriminate|].
    cbn in Hcs. inversion Hcs; subst cl'.
    assert (Hsat : forall P, calls_sat P (nop n) -> P cl).
    { intros P HP. pose proof (stack_sat HP Hre) as HF. rewrite Es in HF. now inversion HF. }
    destruct (p_kind Hok j Hr Hn) as [H0 E|s Hs Hi E|_ Hl E].
    - destruct (nr_flow E Hre) as (_ & HP). destruct (Hsat _ HP) as [d ->]. subst j.
      rewrite route_src_dn in Hroute. discriminate.
    - destruct (ns_flow E (stage_ok_at Hok _ Hs) Hre) as (_ & _ & _ & _ & _ & HP).
      destruct (Hsat _ HP) as [->|[[u ->]|[d ->]]]; unfold route in Hroute.
      + destruct j; [lia|]. discriminate.
      + destruct j; [lia|]. discriminate.
      + assert (Hlt : (S j <? S (S (length stages))) = true) by (apply Nat.ltb_lt; lia).
        rewrite Hlt in Hroute. discriminate.
    - destruct (nk_flow E Hre) as (_ & _ & _ & _ & HP). subst j. unfold last in Hroute.
      destruct (Hsat _ HP) as [->|[u ->]]; unfold route in Hroute; discriminate.
  Qed.

  Lemma node1_exists N : net_reach NP N -> exists D, nth_error (nodes N) 1 = Some D.
  Proof. intros Hr. apply downstream_exists; [exact Hr | unfold last; lia]. Qed.

  Lemma src_one_pull N : crun N ->
    exists c1 : cfg (from_iter_op it),
      nth_error (nodes N) 0 = Some (mk_node p_src g_std c1) /\ reach p_src1 g_std c1.
  Proof.
    intros Hc. pose proof (crun_reach Hc) as Hr.
    destruct (nth_error (nodes N) 0) as [n0|] eqn:H0.
    2: { apply nth_error_None in H0. rewrite (r_len Hr) in H0. lia. }
    pose proof (p_src_at Hok Hr H0) as E.
    destruct (nsig_inv E) as [c1 ->]. exists c1. split; [reflexivity|].
    exact (all_one_pull Hc 0 H0).
  Qed.

  Lemma nstep_subd N i n m : net_reach NP N -> nth_error (nodes N) i = Some n ->
    nenabled n m = true -> subd (nms (nstep n m)) 0 = true.
  Proof.
    intros Hr Hn He. destruct (node_hyps Hok Hr i Hn) as (Hs & Hns & _).
    destruct (p_inv Hok Hr) as ([_ Hnd] & _). destruct (Hnd i n Hn) as [Hre Hinit].
    assert (Hre' : nreach (nstep n m)) by (unfold nreach, nstep; cbn; now apply reachS).
    destruct (Hs _ Hre') as [Hv Hd].
    pose proof (step_summary _ _ _ _ He Hv Hd) as Hsum.
    destruct (sum_core Hsum) as [Hsd _].
    change (nms (nstep n m)) with (ms (step (npar n) (ncfg n) m)). rewrite Hsd.
    exact (subd_after_move m Hns Hinit He).
  Qed.

  Lemma sink_subd N : crun N ->
    exists n, nth_error (nodes N) last = Some n /\ subd (nms n) 0 = true.
  Proof.
    induction 1 as [|N Hc IH Hp].
    - unfold net_step, kick, NP, pipe_net, net0. cbn [pend nodes gst]. fold sigs.
      rewrite (map_nth_error mk0 _ _ sigs_last). rewrite after_step_nodes. cbn [nodes].
      rewrite set_nth_nth, Nat.eqb_refl, (map_nth_error mk0 _ _ sigs_last).
      eexists. split; [reflexivity|]. reflexivity.
    - destruct IH as (n0 & H0 & Hs0). pose proof (crun_reach Hc) as Hr.
      destruct (step_shape Hok NTau Hr (tau_enabled _ Hp)) as (x & n & m & N1 & Hn & He & Hnodes & Hstep & _).
      rewrite Hstep, after_step_nodes, Hnodes, set_nth_nth.
      destruct (Nat.eqb_spec last x) as [<-|Hne].
      + rewrite H0. eexists. split; [reflexivity|]. exact (nstep_subd last m Hr Hn He).
      + exists n0. split; assumption.
  Qed.


  (** *** At rest for_each has seen the end *)

  Section RestChains.
    Variable N : net.
    Hypothesis Hc : crun N.
    Hypothesis Hp : pend N = PIdle.
    Let Hr : net_reach NP N := crun_reach Hc.

    (** nobody is still waiting for a greeting: from_iter greets inside the subscribing call *)
    Lemma no_wait : forall i U D,
      nth_error (nodes N) i = Some U -> nth_error (nodes N) (S i) = Some D ->
      us (nms D) 0 <> USubd.
    Proof.
      induction i as [|i IH]; intros U D HU HD Hw;
        pose proof (rest_link Hok Hr Hp _ HU HD) as Hl; unfold link in Hl; rewrite Hw in Hl;
        destruct Hl as [Hsub Hsk]; pose proof (p_reach Hok _ Hr HU) as Hre.
      - pose proof (p_src_at Hok Hr HU) as E.
        exact (nr_subd E Hre Hsub Hsk).
      - destruct (nth_error_pred _ _ HU) as [U' HU'].
        destruct (p_kind Hok (S i) Hr HU) as [H0 _|s Hs _ E|_ Hl E]; [lia| |].
        + destruct (ns_flow E (stage_ok_at Hok _ Hs) Hre) as (_ & _ & _ & Hwait & _).
          exact (IH U' U HU' HU (Hwait (rest_stack Hok Hr (rest_gst Hr Hp) _ HU) Hsub Hsk)).
        + apply nth_error_lt in HD. rewrite (r_len Hr) in HD. unfold last in Hl. lia.
    Qed.

    (** if for_each's source were still live, its one outstanding Pull would be outstanding at
        every link, all the way down *)
    Lemma live_chain nl : nth_error (nodes N) last = Some nl -> us (nms nl) 0 = ULive ->
      forall d j n U, j + d = length stages ->
        nth_error (nodes N) (S j) = Some n -> nth_error (nodes N) j = Some U ->
        us (nms n) 0 = ULive /\ pout (ntrace n) = 1 + dout (ntrace U) /\ sk (nms U) 0 = SLive.
    Proof.
      intros Hnl Hlive. induction d as [|d IH]; intros j n U Hjd Hn HU;
        pose proof (p_reach Hok _ Hr Hn) as Hre;
        destruct (rest_counts Hok Hr Hp _ HU Hn) as (W1 & W2 & W3 & _);
        pose proof (rest_link Hok Hr Hp _ HU Hn) as Hl; unfold link in Hl.
      - assert (Ej : S j = last) by (unfold last; lia). rewrite Ej, Hnl in Hn. inversion Hn; subst n.
        rewrite Hlive in Hl. destruct Hl as [_ Hsk]. split; [exact Hlive|]. split; [|exact Hsk].
        destruct (nk_flow (p_sink_at Hok Hr Hnl) Hre) as (Hpull & _).
        assert (Hg : hout (ntrace U) = 1) by (apply (node_greeted Hok Hr j HU); congruence). lia.
      - destruct (@downstream_exists N (S j) Hr ltac:(unfold last; lia)) as [D HD].
        destruct (IH (S j) D n ltac:(lia) HD Hn) as (_ & HpD & Hskn).
        destruct (p_stage_at Hok Hr Hn ltac:(unfold last in *; lia)) as (s & Hs & E).
        destruct (ns_flow E (stage_ok_at Hok _ Hs) Hre) as (_ & _ & Hrest & _).
        destruct (Hrest (rest_stack Hok Hr (rest_gst Hr Hp) _ Hn) Hskn) as [Heq Husn].
        destruct (rest_counts Hok Hr Hp _ Hn HD) as (_ & _ & W3' & _).
        rewrite Husn in Hl. destruct Hl as [_ HskU].
        split; [exact Husn|]. split; [lia | exact HskU].
    Qed.

    Lemma not_live nl : nth_error (nodes N) last = Some nl -> us (nms nl) 0 <> ULive.
    Proof.
      intros Hnl Hlive.
      destruct (node1_exists Hr) as [D HD].
      destruct (src_one_pull Hc) as (c1 & H0 & Hre1).
      destruct (@live_chain nl Hnl Hlive (length stages) 0 D _ eq_refl HD H0) as (_ & Hpo & Hsk).
      destruct (rest_counts Hok Hr Hp _ H0 HD) as (_ & _ & W3 & _).
      pose proof (rf_served (source_flow1 it) Hre1) as Hserved.
      change (ntrace (mk_node p_src g_std c1)) with (trace c1) in *.
      change (nms (mk_node p_src g_std c1)) with (ms c1) in *.
      pose proof (rest_stack Hok Hr (rest_gst Hr Hp) _ H0) as Hst. cbn [ncfg] in Hst.
      specialize (Hserved Hst Hsk). lia.
    Qed.

    Theorem rest_done nl : nth_error (nodes N) last = Some nl -> us (nms nl) 0 = UEnded.
    Proof.
      intros Hnl. pose proof (p_reach Hok _ Hr Hnl) as Hre.
      destruct (nk_flow (p_sink_at Hok Hr Hnl) Hre) as (_ & Hns & Hsub & _).
      destruct (sink_subd Hc) as (n' & Hn' & Hs'). rewrite Hnl in Hn'. inversion Hn'; subst n'.
      destruct (nth_error_pred _ _ Hnl) as [U HU].
      pose proof (no_wait _ HU Hnl) as Hnw. pose proof (not_live Hnl) as Hnlv.
      specialize (Hsub Hs').
      destruct (us (nms nl) 0); congruence.
    Qed.

  End RestChains.

  (** at rest, whatever the iterator: f has been called on the list function of what from_iter
      delivered, and for_each has seen the end *)
  Theorem rest_value N : crun N -> pend N = PIdle ->
    forall nf n0, nth_error (nodes N) last = Some nf -> nth_error (nodes N) 0 = Some n0 ->
      us (nms nf) 0 = UEnded /\
      Inv_for_each.user_calls (ntrace nf) = usem stages (data_out 0 (ntrace n0)).
  Proof.
    intros Hc Hp nf n0 Hnf Hn0. split; [exact (rest_done Hc Hp Hnf)|].
    exact (proj1 (@pipeline_for_each it stages N Hok (crun_reach Hc) Hp nf n0 Hnf Hn0)).
  Qed.

  Section Finite.
    Variable xs : list val.
    Hypothesis Hit : forall k, it k = nth_error xs k.

    Lemma data_fin N : crun N ->
      forall n0, nth_error (nodes N) 0 = Some n0 -> dout (ntrace n0) <= length xs.
    Proof.
      intros Hc n0 Hn0. pose proof (crun_reach Hc) as Hr. pose proof (p_reach Hok _ Hr Hn0) as Hre.
      pose proof (p_src_at Hok Hr Hn0) as E.
      rewrite dout_data_out. exact (prefix_length (nr_prefix xs Hit E Hre)).
    Qed.

    Section FullAt.
      Variable N : net.
      Hypothesis Hc : crun N.
      Hypothesis Hp : pend N = PIdle.
      Let Hr : net_reach NP N := crun_reach Hc.

      (** the stream ended because the whole input had been consumed, or because a take
          had its quota: either way every stage's output is its list function of the WHOLE input *)
      Lemma full_at : forall i n, i <= length stages -> nth_error (nodes N) i = Some n ->
        sk (nms n) 0 = SFinished -> data_out 0 (ntrace n) = usem (firstn i stages) xs.
      Proof.
        induction i as [|i IH]; intros n Hi Hn Hfin; pose proof (p_reach Hok _ Hr Hn) as Hre.
        - pose proof (p_src_at Hok Hr Hn) as E.
          cbn. exact (nr_done xs Hit E Hre Hfin).
        - destruct (nth_error_pred _ _ Hn) as [U HU].
          destruct (rest_counts Hok Hr Hp _ HU Hn) as (_ & _ & _ & Wd).
          pose proof (rest_link Hok Hr Hp _ HU Hn) as Hl. unfold link in Hl.
          destruct (p_stage_at Hok Hr Hn Hi) as (s & Hs & E).
          rewrite (firstn_S_nth stages i Hs), usem_snoc.
          rewrite (stage_functional E (stage_ok_at Hok _ Hs) Hre), Wd.
          destruct (ns_flow E (stage_ok_at Hok _ Hs) Hre) as (_ & _ & _ & _ & Hf & _).
          destruct (Hf (rest_stack Hok Hr (rest_gst Hr Hp) _ Hn) Hfin) as [Hue|(k & Hb & Hk)].
          + rewrite Hue in Hl. destruct Hl as [_ HskU].
            now rewrite (IH U ltac:(lia) HU HskU).
          + destruct s as [f|cd|r seed|k'|k']; try discriminate. cbn in Hb. inversion Hb; subst k'.
            cbn [usem1].
            destruct (src_one_pull Hc) as (c1 & H0 & _).
            pose proof (p_reach Hok _ Hr H0) as Hre0.
            pose proof (p_src_at Hok Hr H0) as E0.
            pose proof (nr_prefix xs Hit E0 Hre0) as Hpre.
            remember (data_out 0 (ntrace (mk_node p_src g_std c1))) as l eqn:Hl0. symmetry in Hl0.
            rewrite (pipeline_functional Hok Hr Hp (k:=i) ltac:(lia) HU H0), Hl0.
            apply firstn_full_prefix; [exact (usem_prefix _ Hpre)|].
            rewrite <- Hl0, <- (pipeline_functional Hok Hr Hp (k:=i) ltac:(lia) HU H0), <- Wd.
            change (firstn k (data_in 0 (ntrace n))) with (usem1 (UTake k) (data_in 0 (ntrace n))).
            rewrite <- (stage_functional E (stage_ok_at Hok _ Hs) Hre), <- dout_data_out. exact Hk.
      Qed.
    End FullAt.

    (** pipe!(from_iter(xs), stages.., for_each(f)): after the one environment move that applies
        for_each, at most [steps_max (length xs)] internal transfers bring the net to rest; every
        intermediate state is one of the reachable states the safety theorems speak about; at rest
        for_each has received the end of the stream, and f has been called on exactly [usem stages xs] *)
    Theorem pipeline_completes :
      exists m N, m <= steps_max (length xs) /\ N = taus m (net_step NP kick) /\
        net_reach NP N /\ pend N = PIdle /\ gst N = [] /\
        exists nf, nth_error (nodes N) last = Some nf /\
          us (nms nf) 0 = UEnded /\ Inv_for_each.user_calls (ntrace nf) = usem stages xs.
    Proof.
      destruct (@terminates (length xs) data_fin) as (m & Hm & Hc & Hp).
      exists m, (taus m (net_step NP kick)). split; [exact Hm|]. split; [reflexivity|].
      pose proof (crun_reach Hc) as Hr. split; [exact Hr|]. split; [exact Hp|].
      split; [exact (rest_gst Hr Hp)|].
      destruct (sink_subd Hc) as (nf & Hnf & _). exists nf. split; [exact Hnf|].
      pose proof (rest_done Hc Hp Hnf) as Hend. split; [exact Hend|].
      destruct (nth_error_pred _ _ Hnf) as [U HU].
      destruct (rest_counts Hok Hr Hp _ HU Hnf) as (_ & _ & _ & Wd).
      pose proof (rest_link Hok Hr Hp _ HU Hnf) as Hl. unfold link in Hl. rewrite Hend in Hl.
      destruct Hl as [_ HskU].
      rewrite (sink_functional (p_sink_at Hok Hr Hnf) (p_reach Hok _ Hr Hnf)), Wd.
      rewrite (full_at Hc Hp (le_n _) HU HskU). now rewrite firstn_all.
    Qed.
  End Finite.

  (** ** Any iterator, cut by a take: "take over an unbounded iterator stops"

      [stages = pre ++ UTake n :: post] where the stages before the take pass every datum on (map,
      scan).  Then from_iter is pulled at most [n] times, whatever the iterator, so the run is finite;
      at rest for_each has seen the end and f was called on the list function of the at most [n]
      items consumed. *)
  Definition oneshot (s : ustage) : Prop :=
    match s with UMap _ | UScan _ _ => True | _ => False end.

  Section TakeBounded.
    Variable pre post : list ustage.
    Variable n : nat.
    Hypothesis Hst : stages = pre ++ UTake n :: post.
    Hypothesis Hone : Forall oneshot pre.

    Lemma stage_at_pre j s : nth_error stages j = Some s -> j < length pre -> oneshot s.
    Proof.
      intros Hs Hj. rewrite Hst, nth_error_app1 in Hs by exact Hj.
      rewrite Forall_forall in Hone. apply Hone. exact (nth_error_In _ _ Hs).
    Qed.

    Lemma stage_at_take : nth_error stages (length pre) = Some (UTake n).
    Proof. rewrite Hst. apply nth_error_app_len. Qed.

    Lemma oneshot_pulls nd s : nsig nd = sig_stage s -> ustage_ok s -> nreach nd -> oneshot s ->
      pout (ntrace nd) <= pin (ntrace nd).
    Proof.
      intros E Hs Hre Ho. destruct (ns_flow E Hs Hre) as (Hle & _).
      pose proof (stage_functional E Hs Hre) as Hf.
      assert (Hd : dout (ntrace nd) = din (ntrace nd)).
      { rewrite dout_data_out, din_data_in, Hf. destruct s as [f|cd|r seed|k|k]; try contradiction; cbn.
        - apply map_length.
        - apply scan_list_length. }
      lia.
    Qed.

    Lemma take_node_pulls N nd : crun N -> nth_error (nodes N) (S (length pre)) = Some nd ->
      pout (ntrace nd) <= n.
    Proof.
      intros Hc Hn. pose proof (crun_reach Hc) as Hr.
      destruct (p_kind Hok _ Hr Hn) as [H0 _|s Hs _ E|_ Hl _]; [lia| |].
      - cbn [pred] in Hs. rewrite stage_at_take in Hs. inversion Hs; subst s.
        pose proof (all_one_pull Hc _ Hn) as H1.
        destruct (nsig_inv E) as [c ->]. unfold nreach1, ntrace in *. cbn [nop npar ngrd ncfg] in *.
        assert (Hk : 1 <= n) by exact (stage_ok_at Hok _ stage_at_take).
        exact (@take_pulls_bounded n (with_one_pull p_mid) eq_refl eq_refl eq_refl eq_refl Hk eq_refl c H1).
      - unfold last in Hl. rewrite Hst, app_length in Hl. cbn in Hl. lia.
    Qed.

    Lemma pre_pulls N : crun N -> forall d j nd, j + d = length pre ->
      nth_error (nodes N) j = Some nd -> pin (ntrace nd) <= n.
    Proof.
      intros Hc. pose proof (crun_reach Hc) as Hr.
      assert (Hlen : length pre < length stages) by (rewrite Hst, app_length; cbn; lia).
      induction d as [|d IH]; intros j nd Hjd Hn.
      - assert (Ej : j = length pre) by lia. subst j.
        destruct (@downstream_exists N (length pre) Hr ltac:(unfold last; lia)) as [D HD].
        destruct (p_counts Hok _ Hr Hn HD) as (_ & _ & H3).
        pose proof (take_node_pulls Hc HD). lia.
      - destruct (@downstream_exists N j Hr ltac:(unfold last; lia)) as [D HD].
        destruct (p_counts Hok _ Hr Hn HD) as (_ & _ & H3).
        specialize (IH (S j) D ltac:(lia) HD).
        pose proof (p_reach Hok _ Hr HD) as HreD.
        destruct (p_stage_at Hok Hr HD ltac:(unfold last in *; lia)) as (s & Hs & E).
        pose proof (oneshot_pulls E (stage_ok_at Hok _ Hs) HreD (stage_at_pre Hs ltac:(lia))). lia.
    Qed.

    Lemma data_take N : crun N ->
      forall n0, nth_error (nodes N) 0 = Some n0 -> dout (ntrace n0) <= n.
    Proof.
      intros Hc n0 Hn0. pose proof (crun_reach Hc) as Hr. pose proof (p_reach Hok _ Hr Hn0) as Hre.
      pose proof (p_src_at Hok Hr Hn0) as E.
      destruct (nr_lazy E Hre) as [H1 _].
      pose proof (@pre_pulls N Hc (length pre) 0 n0 eq_refl Hn0). lia.
    Qed.

    (** whatever the iterator - unbounded too - the run stops: at most [steps_max n] transfers, at most
        [n] calls of next(), for_each has seen the end, f was called on the list function of what was
        consumed *)
    Theorem take_stops :
      exists m N, m <= steps_max n /\ N = taus m (net_step NP kick) /\
        net_reach NP N /\ pend N = PIdle /\
        exists nf n0, nth_error (nodes N) last = Some nf /\ nth_error (nodes N) 0 = Some n0 /\
          us (nms nf) 0 = UEnded /\
          Inv_for_each.user_calls (ntrace nf) = usem stages (data_out 0 (ntrace n0)) /\
          length (Inv_from_iter.nexts (ntrace n0)) <= n.
    Proof.
      destruct (@terminates n data_take) as (m & Hm & Hc & Hp).
      exists m, (taus m (net_step NP kick)). split; [exact Hm|]. split; [reflexivity|].
      pose proof (crun_reach Hc) as Hr. split; [exact Hr|]. split; [exact Hp|].
      destruct (sink_subd Hc) as (nf & Hnf & _).
      destruct (nth_error (nodes (taus m (net_step NP kick))) 0) as [n0|] eqn:Hn0.
      2: { apply nth_error_None in Hn0. rewrite (r_len Hr) in Hn0. lia. }
      exists nf, n0. split; [exact Hnf|]. split; [reflexivity|].
      destruct (rest_value Hc Hp Hnf Hn0) as [H1 H2]. split; [exact H1|]. split; [exact H2|].
      pose proof (p_reach Hok _ Hr Hn0) as Hre.
      pose proof (p_src_at Hok Hr Hn0) as E.
      destruct (nr_lazy E Hre) as [_ H3].
      pose proof (@pre_pulls _ Hc (length pre) 0 n0 eq_refl Hn0). lia.
    Qed.
  End TakeBounded.

End Pipe.

Print Assumptions pipeline_completes.
Print Assumptions take_stops.
