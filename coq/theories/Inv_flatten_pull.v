(** * Inv_flatten_pull: property C14 (demand conservation) for flatten, in the
      pull regime, for any number of inner sources and any depth of re-entrancy,
      read off the invariant of Inv_flatten.v.

    Regime: [nsinks p = 1], [resub p = false], [no_nest p = false],
    [c14 p = true], [pullable p = true] (an upstream, outer or inner, only
    answers a Pull it owes: with one Data, or with its end), [one_pull p = true]
    (the sink sends at most one Pull per message it received),
    [late_ok p = false]; guard [g_flatten].

    There is exactly one *token* (the one unit of demand):
    - no inner is stored: the token is with the sink ([credit 0 = 1],
      nothing owed, [npull 0 = ndata 0]) or with the outer
      ([owed 0 = 1], [npull 0 = 1 + ndata 0]); no inner owes anything;
    - inner [S k] is stored and live: the token is with the sink or
      with that inner ([owed (S k) = 1]); the outer and every other
      inner owe nothing.  In particular the outer cannot speak (it
      only answers Pulls), so in this regime an inner is never
      switched away from;
    - the outer has answered the Pull with inner [S k], which has
      been subscribed and has not greeted: the token is in transit
      (nobody owes, the sink has no credit, [npull 0 = 1 + ndata 0]);
      only the greeting is enabled, and the greeting handler pulls
      the inner at once, which puts the token on port [S k];
    - when the stored inner answers the Pull with Terminate the handler pulls
      the outer in the same activation: the token moves to port 0;
    - the port holding the token is among the subscribed [ports], so at a
      quiescent point "nothing is owed on any port" implies that the sink holds
      the token, i.e. [npull 0 = ndata 0]: [VUnanswered] never fires. *)
From CB Require Import Ports Inv_flatten.

Set Implicit Arguments.

Section FlattenPull.
  Variable p : mparams.
  Hypothesis Hns : nsinks p = 1.
  Hypothesis Hnonest : no_nest p = false.
  Hypothesis Hc14 : c14 p = true.
  Hypothesis Hpullable : pullable p = true.
  Hypothesis Hone : one_pull p = true.
  Hypothesis Hlate : late_ok p = false.
  Notation o := flatten_op.
  Notation gfl := g_flatten.

  Lemma pinv_reach (c : cfg o) : reach p gfl c -> Inv p c.
  Proof. apply inv_reach; auto. Qed.

  (** ** The conservation law the invariant establishes.

      While the sink and the outer are live there is exactly one token:
      [credit 0 + npull 0 = 1 + ndata 0] (the sink holds the credit iff every
      Pull it sent has been answered) and the run is in one of three shapes. *)
  Theorem pull_counts_sec (c : cfg o) :
    reach p gfl c -> sk (ms c) 0 = SLive -> us (ms c) 0 = ULive ->
    credit (ms c) 0 + npull (ms c) 0 = S (ndata (ms c) 0) /\
    In 0 (ports (ms c)) /\
    ((* no inner stored: the token is with the sink or with the outer *)
     (fl_inner (cst c) = None /\
      (forall i, us (ms c) (S i) <> ULive /\ us (ms c) (S i) <> USubd) /\
      credit (ms c) 0 + owed (ms c) 0 = 1 /\ (forall i, owed (ms c) (S i) = 0))
     \/
     (* inner [S k] stored and live: the token is with the sink or with it *)
     (exists k, fl_inner (cst c) = Some (S k) /\ us (ms c) (S k) = ULive /\
                (forall i, i <> k -> us (ms c) (S i) <> ULive /\ us (ms c) (S i) <> USubd) /\
                In (S k) (ports (ms c)) /\ owed (ms c) 0 = 0 /\
                credit (ms c) 0 + owed (ms c) (S k) = 1 /\
                (forall i, i <> k -> owed (ms c) (S i) = 0))
     \/
     (* inner [S k] subscribed, its greeting is the only enabled move: the
        token is in transit (the greeting handler pulls [S k]) *)
     (exists k rest, stack c = (FlDone, CSub (S k)) :: rest /\ us (ms c) (S k) = USubd /\
                     (forall i, us (ms c) (S i) <> ULive) /\
                     (forall i, i <> k -> us (ms c) (S i) <> USubd) /\
                     In (S k) (ports (ms c)) /\ credit (ms c) 0 = 0 /\
                     (forall i, owed (ms c) i = 0))).
  Proof.
    intros Hr Hlive Hl0.
    assert (Hp0 : forall d i, fbase d (ms c) -> us (ms c) i <> UNone -> In i (ports (ms c)))
      by (intros d i B; apply B).
    destruct (i_ph (pinv_reach Hr))
      as [? ? ? Hsk|? ? ? Hsk|ob ik ? B ? ? Hns' ? Hin ? Hcnt|? ? ? Hsk
          |? ? ? ? ? ? ? ? ? ? ? ? ? ? E|k rest Hst ? B ? ? Hns' ? ? Husk Hnl Htr
          |? ? ? ? ? ? ? ? ? ? Hnl|? ? ? ? ? ? Hsk]; try congruence.
    - destruct (Hcnt Hc14) as (_ & T1 & T2 & T3). split; [exact T3|].
      split; [apply (Hp0 _ _ B); congruence|].
      destruct ik as [k|]; [destruct Hin as (Ein & Husk & Honly) | destruct Hin as (Ein & Hnl)].
      + right; left. exists k. repeat split; auto.
        * apply (Hp0 _ _ B). congruence.
        * apply T2. discriminate.
      + left. repeat split; auto.
    - destruct (Htr Hc14) as (T1 & T2 & T3). split; [lia|].
      split; [apply (Hp0 _ _ B); congruence|].
      right; right. exists k, rest. repeat split; auto.
      apply (Hp0 _ _ B). congruence.
  Qed.

  (** while the sink and the outer are live the token is with the sink or on a live,
      subscribed port [t]; or it is in transit, and then a call is pending *)
  Lemma token_where (c : cfg o) :
    reach p gfl c -> sk (ms c) 0 = SLive -> us (ms c) 0 = ULive ->
    (exists t, token_at (ms c) t /\ us (ms c) t = ULive /\ In t (ports (ms c))) \/
    (transit (ms c) /\ stack c <> []).
  Proof.
    intros Hr Hlive Hl0.
    destruct (i_ph (pinv_reach Hr))
      as [? ? ? Hsk|? ? ? Hsk|ob ik ? B ? ? ? Hout Hin Hoi Hcnt|? ? ? Hsk
          |? ? ? ? ? ? ? ? ? ? ? ? ? ? E|? ? Hst ? ? ? ? ? ? ? ? ? Htr|? ? ? ? ? ? ? ? ? ? Hnl
          |? ? ? ? ? ? Hsk]; try congruence.
    - left. exists (holder ik). pose proof (port_live Hout Hin Hoi) as Hpl.
      split; [apply (Hcnt Hc14) | split; [exact Hpl | apply B; congruence]].
    - right. split; [now apply Htr | congruence].
  Qed.

  Lemma token_facts m t : token_at m t ->
    credit m 0 <= 1 /\ (forall i, owed m i <= 1) /\
    (forall i, 0 < owed m i -> i = t /\ credit m 0 = 0 /\ npull m 0 = S (ndata m 0)) /\
    (0 < credit m 0 -> npull m 0 = ndata m 0 /\ forall i, owed m i = 0).
  Proof.
    intros (T1 & T2 & T3).
    assert (Hz : forall i, owed m i = 0 \/ i = t).
    { intros i. destruct (Nat.eq_dec i t); auto. }
    split; [lia|]. split; [|split].
    - intros i. destruct (Hz i) as [->| ->]; lia.
    - intros i Hi. destruct (Hz i) as [E| ->]; lia.
    - intros Hc. split; [lia|]. intros i. destruct (Hz i) as [E| ->]; lia.
  Qed.

  (** at most one port is owed anything, and at most one answer; the port that
      owes is live and subscribed, and then the sink holds no credit *)
  Corollary pull_token_sec (c : cfg o) :
    reach p gfl c -> sk (ms c) 0 = SLive -> us (ms c) 0 = ULive ->
    credit (ms c) 0 <= 1 /\
    (forall i, owed (ms c) i <= 1) /\
    (forall i j, 0 < owed (ms c) i -> 0 < owed (ms c) j -> i = j) /\
    (forall i, 0 < owed (ms c) i ->
       us (ms c) i = ULive /\ In i (ports (ms c)) /\ credit (ms c) 0 = 0 /\
       npull (ms c) 0 = S (ndata (ms c) 0)) /\
    (0 < credit (ms c) 0 -> npull (ms c) 0 = ndata (ms c) 0 /\ forall i, owed (ms c) i = 0).
  Proof.
    intros Hr Hlive Hl0.
    destruct (token_where Hr Hlive Hl0) as [(t & T & Hl & Hp) | ((T1 & T2 & T3) & _)].
    - destruct (token_facts T) as (F1 & F2 & F3 & F4).
      split; [exact F1|]. split; [exact F2|]. split; [|split; [|exact F4]].
      + intros i j Hi Hj. destruct (F3 i Hi) as [-> _], (F3 j Hj) as [-> _]. reflexivity.
      + intros i Hi. destruct (F3 i Hi) as (-> & ? & ?). auto.
    - split; [lia|]. split; [intros i; rewrite T2; lia|].
      split; [intros i j Hi; rewrite T2 in Hi; lia|].
      split; [intros i Hi; rewrite T2 in Hi; lia | lia].
  Qed.

  (** at a quiescent point with a live sink every Pull has been answered, or
      the one unanswered Pull is owed by a live, subscribed upstream (which
      answers it without further prompting from the sink) *)
  Corollary pull_quiescent_sec (c : cfg o) :
    reach p gfl c -> stack c = [] -> sk (ms c) 0 = SLive ->
    us (ms c) 0 = ULive /\
    ((credit (ms c) 0 = 1 /\ npull (ms c) 0 = ndata (ms c) 0 /\ forall i, owed (ms c) i = 0) \/
     (credit (ms c) 0 = 0 /\ npull (ms c) 0 = S (ndata (ms c) 0) /\
      exists i, In i (ports (ms c)) /\ us (ms c) i = ULive /\ owed (ms c) i = 1 /\
                forall j, j <> i -> owed (ms c) j = 0)).
  Proof.
    intros Hr Hst Hlive.
    assert (Hl0 : us (ms c) 0 = ULive).
    { destruct (i_ph (pinv_reach Hr))
        as [? ? ? Hsk|? ? ? Hsk|ob ik ? ? ? ? ? [_ Hus0] ? ? Hcnt|? ? ? Hsk|? ? ? E|? ? E|? ? ? E|? ? E];
        try congruence.
      - now destruct (Hcnt Hc14) as [-> _].
      - rewrite Hlive in Hsk. discriminate. }
    split; [exact Hl0|].
    destruct (token_where Hr Hlive Hl0) as [(t & (T1 & T2 & T3) & Hl & Hp) | (_ & Hne)];
      [|congruence].
    destruct (credit (ms c) 0) as [|[|n]] eqn:Ec; [right | left | lia].
    - split; [reflexivity|]. split; [lia|]. exists t. repeat split; auto; lia.
    - split; [reflexivity|]. split; [lia|]. intros i.
      destruct (Nat.eq_dec i t) as [->|]; [lia | auto].
  Qed.

End FlattenPull.

(** C14 for flatten (together with C01-C05, C17): in the pull regime no
    violation at all is reported in any reachable configuration - in particular
    never [VOverData] (the sink gets at most as many Data as it sent Pulls),
    never [VOverPull] (no second outstanding Pull to the outer or to an inner)
    and never [VUnanswered] (at a quiescent point a Pull without answer is owed
    by a subscribed upstream) - and there is no panic. *)
Theorem flatten_safe_pull p :
  nsinks p = 1 -> resub p = false -> no_nest p = false ->
  c14 p = true -> pullable p = true -> one_pull p = true -> late_ok p = false ->
  forall c : cfg flatten_op, reach p g_flatten c -> viols (ms c) = [] /\ dead c = false.
Proof.
  intros H1 _ H3 _ H5 H6 H7 c Hr.
  destruct (inv_reach H1 H3 H7 (fun _ => conj H5 H6) Hr) as [Hd Hph].
  destruct (ph_base Hph) as [d B]. split; [apply B | exact Hd].
Qed.
Print Assumptions flatten_safe_pull.

(** the conservation law: while the sink and the outer are live,
    [credit 0 + npull 0 = 1 + ndata 0], and
    - no inner is stored, no inner is live or half-subscribed, and
      [credit 0 + owed 0 = 1], inners owe nothing; or
    - inner [S k] is stored and live, it is the only inner that is, and
      [credit 0 + owed (S k) = 1], the outer and the other inners owe nothing; or
    - inner [S k] has just been subscribed (top of the stack) and only its
      greeting is enabled: nobody owes, the sink has no credit (the greeting
      handler pulls [S k] in the same activation). *)
Theorem flatten_pull_counts p :
  nsinks p = 1 -> resub p = false -> no_nest p = false ->
  c14 p = true -> pullable p = true -> one_pull p = true -> late_ok p = false ->
  forall c : cfg flatten_op, reach p g_flatten c ->
    sk (ms c) 0 = SLive -> us (ms c) 0 = ULive ->
    credit (ms c) 0 + npull (ms c) 0 = S (ndata (ms c) 0) /\
    In 0 (ports (ms c)) /\
    ((fl_inner (cst c) = None /\
      (forall i, us (ms c) (S i) <> ULive /\ us (ms c) (S i) <> USubd) /\
      credit (ms c) 0 + owed (ms c) 0 = 1 /\ (forall i, owed (ms c) (S i) = 0))
     \/
     (exists k, fl_inner (cst c) = Some (S k) /\ us (ms c) (S k) = ULive /\
                (forall i, i <> k -> us (ms c) (S i) <> ULive /\ us (ms c) (S i) <> USubd) /\
                In (S k) (ports (ms c)) /\ owed (ms c) 0 = 0 /\
                credit (ms c) 0 + owed (ms c) (S k) = 1 /\
                (forall i, i <> k -> owed (ms c) (S i) = 0))
     \/
     (exists k rest, stack c = (FlDone, CSub (S k)) :: rest /\ us (ms c) (S k) = USubd /\
                     (forall i, us (ms c) (S i) <> ULive) /\
                     (forall i, i <> k -> us (ms c) (S i) <> USubd) /\
                     In (S k) (ports (ms c)) /\ credit (ms c) 0 = 0 /\
                     (forall i, owed (ms c) i = 0))).
Proof.
  intros H1 _ H3 H4 H5 H6 H7 c Hr. exact (pull_counts_sec H1 H3 H4 H5 H6 H7 Hr).
Qed.
Print Assumptions flatten_pull_counts.

(** one token: at most one port is owed an answer, and only one; it is live
    and subscribed and the sink then holds no credit; if the sink holds the
    credit every Pull has been answered and nothing is owed *)
Theorem flatten_pull_token p :
  nsinks p = 1 -> resub p = false -> no_nest p = false ->
  c14 p = true -> pullable p = true -> one_pull p = true -> late_ok p = false ->
  forall c : cfg flatten_op, reach p g_flatten c ->
    sk (ms c) 0 = SLive -> us (ms c) 0 = ULive ->
    credit (ms c) 0 <= 1 /\
    (forall i, owed (ms c) i <= 1) /\
    (forall i j, 0 < owed (ms c) i -> 0 < owed (ms c) j -> i = j) /\
    (forall i, 0 < owed (ms c) i ->
       us (ms c) i = ULive /\ In i (ports (ms c)) /\ credit (ms c) 0 = 0 /\
       npull (ms c) 0 = S (ndata (ms c) 0)) /\
    (0 < credit (ms c) 0 -> npull (ms c) 0 = ndata (ms c) 0 /\ forall i, owed (ms c) i = 0).
Proof.
  intros H1 _ H3 H4 H5 H6 H7 c Hr. exact (pull_token_sec H1 H3 H4 H5 H6 H7 Hr).
Qed.
Print Assumptions flatten_pull_token.

(** at a quiescent point with a live sink (then the outer is live too): every
    Pull has been answered, or the single unanswered one is owed by exactly
    one live subscribed upstream *)
Theorem flatten_pull_quiescent p :
  nsinks p = 1 -> resub p = false -> no_nest p = false ->
  c14 p = true -> pullable p = true -> one_pull p = true -> late_ok p = false ->
  forall c : cfg flatten_op, reach p g_flatten c -> stack c = [] -> sk (ms c) 0 = SLive ->
    us (ms c) 0 = ULive /\
    ((credit (ms c) 0 = 1 /\ npull (ms c) 0 = ndata (ms c) 0 /\ forall i, owed (ms c) i = 0) \/
     (credit (ms c) 0 = 0 /\ npull (ms c) 0 = S (ndata (ms c) 0) /\
      exists i, In i (ports (ms c)) /\ us (ms c) i = ULive /\ owed (ms c) i = 1 /\
                forall j, j <> i -> owed (ms c) j = 0)).
Proof.
  intros H1 _ H3 H4 H5 H6 H7 c Hr. exact (pull_quiescent_sec H1 H3 H4 H5 H6 H7 Hr).
Qed.
Print Assumptions flatten_pull_quiescent.

(** * Non-vacuity: conformant scripts of the pull regime *)
Definition fl_p_pull : mparams :=
  {| nsinks := 1; late_ok := false; pullable := true; one_pull := true;
     resub := false; no_nest := false; c14 := true |}.

(** Everything re-entrant, one single activation tree: the sink pulls from
    inside its greeting; the outer answers that Pull synchronously with inner
    1 (port 2), which greets inside its subscription and is pulled at once;
    it answers synchronously with Data 10; the sink pulls from inside its data
    handler; the inner answers with Terminate, so the outer is pulled again
    (from inside the inner's Terminate); it answers with inner 2 (port 3):
    Data 20, Pull, Terminate; the outer is pulled a third time and answers
    with Terminate: the sink is completed; 14 pending calls unwind. *)
Definition fl_nested_script : list move :=
  [MIn (ISub 0 0); MIn (IDn 0 DH); MIn (IUp 0 UP);
   MIn (IDn 0 (DD (VN 1))); MIn (IDn 2 DH); MIn (IDn 2 (DD (VN 10))); MIn (IUp 0 UP);
   MIn (IDn 2 DT);
   MIn (IDn 0 (DD (VN 2))); MIn (IDn 3 DH); MIn (IDn 3 (DD (VN 20))); MIn (IUp 0 UP);
   MIn (IDn 3 DT);
   MIn (IDn 0 DT);
   MRet; MRet; MRet; MRet; MRet; MRet; MRet; MRet; MRet; MRet; MRet; MRet; MRet; MRet].

Example flatten_pull_nested :
  all_enabled fl_p_pull g_flatten (cfg0 flatten_op) fl_nested_script = true /\
  let c := run fl_p_pull flatten_op fl_nested_script in
  stack c = [] /\ sk (ms c) 0 = SFinished /\
  data_out 0 (trace c) = [VN 10; VN 20] /\ npull (ms c) 0 = 3 /\ ndata (ms c) 0 = 2 /\
  ports (ms c) = [3; 2; 0] /\ viols (ms c) = [] /\ dead c = false.
Proof. vm_compute. repeat split. Qed.

(** The same traffic with every activation returning before the next message
    (all peers asynchronous): five quiescent points with a live sink and an
    unanswered Pull, owed in turn by the outer, inner 1, inner 1 (second
    Pull), the outer again (re-issued when inner 1 completed) and inner 2 -
    [VUnanswered] does not fire; the script stops at such a point. *)
Definition fl_flat_script : list move :=
  [MIn (ISub 0 0); MIn (IDn 0 DH); MRet; MRet;
   MIn (IUp 0 UP); MRet;                                   (* owed by the outer *)
   MIn (IDn 0 (DD (VN 1))); MIn (IDn 2 DH); MRet; MRet;    (* owed by inner 1 *)
   MIn (IDn 2 (DD (VN 10))); MRet;                         (* answered *)
   MIn (IUp 0 UP); MRet;                                   (* owed by inner 1 *)
   MIn (IDn 2 DT); MRet;                                   (* owed by the outer *)
   MIn (IDn 0 (DD (VN 2))); MIn (IDn 3 DH); MRet; MRet].   (* owed by inner 2 *)

Example flatten_pull_flat :
  all_enabled fl_p_pull g_flatten (cfg0 flatten_op) fl_flat_script = true /\
  let c := run fl_p_pull flatten_op fl_flat_script in
  stack c = [] /\ sk (ms c) 0 = SLive /\ fl_inner (cst c) = Some 3 /\
  data_out 0 (trace c) = [VN 10] /\ npull (ms c) 0 = 2 /\ ndata (ms c) 0 = 1 /\
  credit (ms c) 0 = 0 /\ owed (ms c) 0 = 0 /\ owed (ms c) 2 = 0 /\ owed (ms c) 3 = 1 /\
  viols (ms c) = [] /\ dead c = false.
Proof. vm_compute. repeat split. Qed.

(** The sink disposes from inside its data handler while holding the credit:
    the stored inner, then the outer are told to stop; nothing is left live. *)
Definition fl_dispose_script : list move :=
  [MIn (ISub 0 0); MIn (IDn 0 DH); MIn (IUp 0 UP);
   MIn (IDn 0 (DD (VN 7))); MIn (IDn 8 DH); MIn (IDn 8 (DD (VN 70)));
   MIn (IUp 0 UT); MRet; MRet;
   MRet; MRet; MRet; MRet; MRet; MRet].

Example flatten_pull_dispose :
  all_enabled fl_p_pull g_flatten (cfg0 flatten_op) fl_dispose_script = true /\
  let c := run fl_p_pull flatten_op fl_dispose_script in
  stack c = [] /\ sk (ms c) 0 = SDisposed /\ us (ms c) 0 = UStopped /\ us (ms c) 8 = UStopped /\
  data_out 0 (trace c) = [VN 70] /\ npull (ms c) 0 = 1 /\ ndata (ms c) 0 = 1 /\
  viols (ms c) = [] /\ dead c = false.
Proof. vm_compute. repeat split. Qed.
