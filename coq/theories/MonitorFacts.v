(** * MonitorFacts: what a step does to the maps of the monitor state, for every component.

    [sk], [us], [credit], [subd] and [refused] map a port to a status, and MonitorSound.v says how
    one event moves each ([sk_next] ..).  A step appends the move, observations and the event of
    the component's action; [fld_result] is the resulting equation for any such map. *)
From CB Require Import MachineFacts Spec MonitorSound.

Set Implicit Arguments.

(** [nx] says how one event moves the map [f]; observations do not move it *)
Record field (p : mparams) A (f : mstate -> nat -> A) (nx : A -> nat -> event -> A) : Prop := {
  f_event : forall m ev s, f (mon_event p m ev) s = nx (f m s) s ev;
  f_obs : forall k s ob, nx k s (EObs ob) = k;
}.

Definition sk_field p : field p sk sk_next := Build_field _ _ _ (sk_mon_event p) (fun _ _ _ => eq_refl).
Definition us_field p : field p us us_next := Build_field _ _ _ (us_mon_event p) (fun _ _ _ => eq_refl).
Definition refused_field p : field p refused refused_next :=
  Build_field _ _ _ (refused_mon_event p) (fun _ _ _ => eq_refl).
Definition credit_field p : field p credit cr_next :=
  Build_field _ _ _ (credit_mon_event p) (fun _ _ _ => eq_refl).
Definition subd_field p : field p subd subd_next :=
  Build_field _ _ _ (subd_mon_event p) (fun _ _ _ => eq_refl).

Section Field.
  Variable p : mparams.
  Variable o : op.
  Variable g : mstate -> input -> bool.
  Variable A : Type.
  Variable f : mstate -> nat -> A.
  Variable nx : A -> nat -> event -> A.
  Hypothesis Hf : field p f nx.

  Lemma fld_obs os : forall m s, f (fold_left (mon_event p) (map EObs os) m) s = f m s.
  Proof.
    induction os as [|ob os IH]; intros m s; cbn [map fold_left]; [reflexivity|].
    now rewrite IH, (f_event Hf), (f_obs Hf).
  Qed.

  Lemma fld_move m mv s : f (mon_move p m mv) s = nx (f m s) s (move_event mv).
  Proof. destruct mv as [i|]; [exact (f_event Hf m (EIn i) s) | exact (f_event Hf m ERet s)]. Qed.

  (** the state a call is checked in: after the move and the observations *)
  Lemma fld_pre m mv os s :
    f (fold_left (mon_event p) (map EObs os) (mon_move p m mv)) s = nx (f m s) s (move_event mv).
  Proof. now rewrite fld_obs, fld_move. Qed.

  Lemma fld_settle m os (a : act (Fr o)) s :
    f (ms_settle p o m os a) s = nx (f m s) s (act_event o a).
  Proof.
    unfold ms_settle. destruct a as [| |cl k]; cbn [act_event]; now rewrite (f_event Hf), fld_obs.
  Qed.

  Lemma fld_step m mv os (a : act (Fr o)) s :
    f (ms_settle p o (mon_move p m mv) os a) s
    = nx (nx (f m s) s (move_event mv)) s (act_event o a).
  Proof. now rewrite fld_settle, fld_move. Qed.

  Lemma fld_result (c : cfg o) mv s :
    enabled p g c mv = true ->
    f (ms (step p c mv)) s
    = nx (nx (f (ms c) s) s (move_event mv)) s (act_event o (snd (result c mv))).
  Proof. intros He. rewrite (st_ms (en_step He)). apply fld_step. Qed.
End Field.
Arguments fld_result [p o g A f nx] Hf [c mv] s _.

Lemma subd_next_act o (a : act (Fr o)) b s : subd_next b s (act_event o a) = b.
Proof. now destruct a. Qed.

Lemma subd_next_true b s ev :
  subd_next b s ev = true -> b = true \/ exists aux, ev = EIn (ISub s aux).
Proof.
  destruct ev as [[s' aux| | |]| | | | |]; cbn; auto.
  destruct (Nat.eqb_spec s s') as [->|]; eauto.
Qed.

Lemma subd_next_mono s ev : subd_next true s ev = true.
Proof. destruct ev as [[s' aux| | |]| | | | |]; cbn; auto. now destruct (Nat.eqb s s'). Qed.

Lemma us_next_subd k i ev : us_next k i ev = USubd -> k = USubd \/ ev = ECall (CSub i).
Proof.
  destruct ev as [[| |i' [| | |]|]|[i'|i' u|]| | | |]; cbn; auto;
    destruct (Nat.eqb_spec i i') as [->|]; cbn; auto; try discriminate.
  destruct (umsg_is_term u); auto; discriminate.
Qed.

Lemma input_refused p m inp g :
  g m inp = g_std m inp -> g m inp = true -> refused (mon_input p m inp) = refused m.
Proof.
  intros Hg He. rewrite Hg in He.
  destruct inp as [s [|aux]|s [|e|]|i [|v|e|]|s]; cbn in *; try reflexivity; discriminate.
Qed.

Section Reach.
  Variable p : mparams.
  Variable o : op.
  Variable g : mstate -> input -> bool.

  Lemma move_refused (c : cfg o) mv :
    (forall m inp, g m inp = g_std m inp) -> enabled p g c mv = true ->
    refused (mon_move p (ms c) mv) = refused (ms c).
  Proof.
    intros Hg He. destruct mv as [inp|]; [|reflexivity].
    exact (input_refused p (ms c) inp g (Hg _ _) (en_guard _ _ _ _ He)).
  Qed.

  (** only interval's nursery refuses a subscription *)
  Lemma reach_refused :
    (forall m inp, g m inp = g_std m inp) ->
    forall c : cfg o, reach p g c -> forall s, refused (ms c) s = None.
  Proof.
    intros Hg. apply (@reach_invariant p o g (fun c => forall s, refused (ms c) s = None)); [reflexivity|].
    intros c mv _ IH He s.
    rewrite (st_ms (en_step He)), (fld_settle o (refused_field p)), (move_refused c mv Hg He), IH.
    now destruct (snd (result c mv)).
  Qed.

  (** once a sink has been completed the monitor keeps saying so: only its own Terminate or Error
      upwards would change that, and a completed sink is not enabled to send one *)
  Lemma finished_step (c : cfg o) mv s :
    enabled p g c mv = true -> sk (ms c) s = SFinished -> sk (ms (step p c mv)) s = SFinished.
  Proof.
    intros He Hf. rewrite (fld_result (sk_field p) s He), Hf.
    assert (E : sk_next SFinished s (move_event mv) = SFinished).
    { destruct mv as [[| s' u | |]|]; try reflexivity. cbn.
      destruct (Nat.eqb_spec s s') as [<-|]; [|reflexivity].
      destruct (en_up _ _ _ _ _ He) as (_ & Hl & _). congruence. }
    rewrite E. destruct (snd (result c mv)) as [| |[| |s' d] k]; try reflexivity.
    cbn. destruct (Nat.eqb s s'); [now destruct d | reflexivity].
  Qed.

  Lemma enabled_cfg0 mv :
    nsinks p = 1 -> enabled p g (cfg0 o) mv = true -> exists aux, mv = MIn (ISub 0 aux).
  Proof.
    intros Hn He. destruct mv as [[s aux|s u|i d|s]|];
      [|discriminate (enabled_deliverable _ _ _ _ He)..|discriminate He].
    destruct (en_sub _ _ _ _ _ He) as (_ & Hlt & _). rewrite Hn in Hlt.
    apply Nat.lt_1_r in Hlt. subst s. now exists aux.
  Qed.

  Lemma reach_unsubscribed (c : cfg o) :
    nsinks p = 1 -> reach p g c -> subd (ms c) 0 = false -> c = cfg0 o.
  Proof.
    intros Hns Hr. induction Hr as [|c mv Hr IH He]; intros Hs; [reflexivity|]. exfalso.
    rewrite (fld_result (subd_field p) 0 He), subd_next_act in Hs.
    destruct (subd (ms c) 0); [now rewrite subd_next_mono in Hs|].
    rewrite (IH eq_refl) in He. destruct (enabled_cfg0 _ Hns He) as [aux ->]. discriminate Hs.
  Qed.

  (** A component that answers its subscription at once *)

  (** by subscribing to its upstream 0: a pass-through operator *)
  Definition subs_up : Prop :=
    forall aux s, exists s' os k, handle o (ISub 0 aux) s = (s', os, ACall (CSub 0) k).

  (** by a greeting, or by a refusal: a source *)
  Definition greets_now : Prop :=
    forall aux s,
      exists s' os k d, handle o (ISub 0 aux) s = (s', os, ACall (CDn 0 d) k) /\ forall v, d <> DD v.

  (** once subscribed, a map that never returns to [bad] and that this answer takes away from
      [bad] is not [bad] *)
  Lemma sub_answered A (f : mstate -> nat -> A) nx (Hf : field p f nx) (bad : A) :
    (forall k ev, nx k 0 ev = bad -> k = bad) ->
    (forall aux s k, nx k 0 (act_event o (snd (handle o (ISub 0 aux) s))) <> bad) ->
    forall c : cfg o, reach p g c -> subd (ms c) 0 = true -> f (ms c) 0 <> bad.
  Proof.
    intros Hkeep Hans c Hr. induction Hr as [|c mv Hr IH He]; [discriminate|].
    rewrite (fld_result (subd_field p) 0 He), subd_next_act, (fld_result Hf 0 He).
    intros Hs. apply subd_next_true in Hs. destruct Hs as [Hs|[aux E]].
    - intros E. now apply Hkeep, Hkeep, IH in E.
    - destruct mv as [i|]; [injection E as ->|discriminate]. apply Hans.
  Qed.

  Lemma subd_us : subs_up ->
    forall c : cfg o, reach p g c -> subd (ms c) 0 = true -> us (ms c) 0 <> UNone.
  Proof.
    intros Hsub. apply (sub_answered (us_field p)).
    - intros k ev E. now apply us_next_none in E.
    - intros aux s k. destruct (Hsub aux s) as (s' & os & fr & ->). discriminate.
  Qed.

  Lemma subd_sk : greets_now ->
    forall c : cfg o, reach p g c -> subd (ms c) 0 = true -> sk (ms c) 0 <> SNone.
  Proof.
    intros Hgr. apply (sub_answered (sk_field p)).
    - intros k ev E. now apply sk_next_none in E.
    - intros aux s k. destruct (Hgr aux s) as (s' & os & fr & d & -> & Hd). cbn.
      destruct d as [|v|e|]; [|now destruct (Hd v)|..]; now destruct k.
  Qed.

  (** with [late_ok p = false]: an upstream that is subscribed and has not greeted is the
      callee of a pending subscribing call *)
  Lemma subd_pending (c : cfg o) :
    late_ok p = false -> reach p g c ->
    forall k, us (ms c) k = USubd -> In (CSub k) (map snd (stack c)).
  Proof.
    intros Hlate Hr. induction Hr as [|c mv Hr IH He]; intros k Hk; [discriminate|].
    rewrite (fld_result (us_field p) k He) in Hk. rewrite (st_stack (en_step He)).
    assert (Hbase : us_next (us (ms c) k) k (move_event mv) = USubd -> In (CSub k) (map snd (base c mv))).
    { intros H. apply us_next_subd in H. destruct H as [H|H]; [|now destruct mv].
      pose proof (IH k H) as Hin. destruct mv as [i|]; [exact Hin|].
      destruct (en_ret _ _ _ He) as (k1 & cl1 & rest1 & Hst & Hl). cbn. rewrite Hst in Hin |- *.
      destruct Hin as [Hin|Hin]; [|exact Hin]. cbn in Hin. destruct (Hl Hlate k Hin H). }
    destruct (snd (result c mv)) as [| |cl kk]; cbn [act_event map snd] in *; auto.
    apply us_next_subd in Hk. destruct Hk as [Hk|[= ->]]; [right; auto|now left].
  Qed.
End Reach.
Arguments move_refused [p o g c mv] _ _.
Arguments finished_step [p o g c mv s] _ _.

Lemma mon_input_task p m i : task (mon_input p m i) = task m.
Proof. destruct i as [s [|aux]|s [|e|]|i [|v|e|]|s]; reflexivity. Qed.

Lemma mon_move_task p m mv : task (mon_move p m mv) = task m.
Proof. destruct mv; [apply mon_input_task | reflexivity]. Qed.

Lemma mon_call_upd_task m cl : task (mon_call_upd m cl) = task m.
Proof. apply mon_call_upd_frame. Qed.

Lemma call_stop_upd m j u : umsg_is_term u = true -> mon_call_upd m (CUp j u) = set_us m j UStopped.
Proof. destruct u; [discriminate|reflexivity..]. Qed.

Lemma call_greet_upd m :
  sk m 0 = SNone -> mon_call_upd m (CDn 0 DH) = set_credit (set_sk m 0 SLive) 0 (S (credit m 0)).
Proof. cbn. now intros ->. Qed.

Lemma call_term_upd m : sk m 0 = SLive -> mon_call_upd m (CDn 0 DT) = set_sk m 0 SFinished.
Proof. cbn. now intros ->. Qed.

Lemma check_cup_live p m j u : c14 p = false -> us m j = ULive -> check_call p m (CUp j u) = [].
Proof. intros Hc Hj. cbn. rewrite Hj, Hc. destruct u; reflexivity. Qed.

(** a message of sink 0: what the invariants look at *)
Lemma in_up p m u :
  let m' := mon_input p m (IUp 0 u) in
  us m' = us m /\ ports m' = ports m /\ ndata m' = ndata m /\
  sk m' = (if umsg_is_term u then upd (sk m) 0 SDisposed else sk m) /\
  err_due m' = (if umsg_is_term u then upd (err_due m) 0 None else err_due m).
Proof. destruct u; repeat split. Qed.

Lemma in_end p m i d : dmsg_is_term d = true ->
  let m' := mon_input p m (IDn i d) in
  sk m' = sk m /\ us m' = upd (us m) i UEnded /\ ports m' = ports m /\ ndata m' = ndata m.
Proof. destruct d; try discriminate; intros _; repeat split. Qed.
