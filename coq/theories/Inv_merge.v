(** * Inv_merge: the invariant of merge, for every member count n >= 1 *)
From CB Require Import ProofLib Spec MonitorFacts CountFacts.

Set Implicit Arguments.

(** ** C08: the data of all members, in arrival order *)
Fixpoint all_in (tr : list event) : list val :=
  match tr with
  | [] => []
  | EIn (IDn _ (DD v)) :: tr' => v :: all_in tr'
  | _ :: tr' => all_in tr'
  end.

Lemma all_in_app tr1 tr2 : all_in (tr1 ++ tr2) = all_in tr1 ++ all_in tr2.
Proof.
  induction tr1 as [|e tr1 IH]; cbn; [reflexivity|].
  destruct e as [[s a|s u|j [|v|e|]|s]|c| | |ob|]; cbn; try exact IH. now rewrite IH.
Qed.

Ltac split_handler H :=
  repeat match type of H with
         | context [if ?b then _ else _] => destruct b
         | context [match find_from ?a ?b ?c with _ => _ end] => destruct (find_from a b c)
         end.

Lemma mg_resume_out n k s s' os a :
  mg_resume n k s = (s', os, a) ->
  os = [] /\ data_out 0 [act_event (merge_op n) a] = [].
Proof.
  intros H. destruct k as [|i|u j|i e j]; cbn in H;
    unfold mg_subloop, mg_bcast, mg_errloop in H; split_handler H;
    injection H as <- <- <-; split; reflexivity.
Qed.

Lemma mg_handle_out n inp s s' os a :
  mg_handle n inp s = (s', os, a) ->
  os = [] /\
  data_out 0 [act_event (merge_op n) a] =
  match inp with IDn i (DD v) => if i <? n then [v] else [] | _ => [] end.
Proof.
  intros H. destruct inp as [[|t] aux|[|t] u|i [|v|e|]|t]; cbn in H |- *;
    unfold mg_subloop, mg_bcast, mg_errloop in H; split_handler H;
    injection H as <- <- <-; split; reflexivity.
Qed.

Lemma all_in_act o (a : act (Fr o)) : all_in [act_event o a] = [].
Proof. destruct a; reflexivity. Qed.

Lemma all_in_move mv l :
  all_in (move_event mv :: l) =
  match mv with MIn (IDn _ (DD v)) => v :: all_in l | _ => all_in l end.
Proof. now destruct mv as [[s aux|s u|j [|v|e|]|s]|]. Qed.

(** what an enabled step adds to the trace: the move, then a call or the end of the
    activation; only the delivery of a member's datum is a call that carries a datum *)
Lemma mg_step_trace {n p g} {c : cfg (merge_op n)} {mv} :
  enabled p g c mv = true ->
  exists a, trace (step p c mv) = trace c ++ [move_event mv; act_event (merge_op n) a] /\
    data_out 0 [act_event (merge_op n) a] =
    match mv with MIn (IDn i (DD v)) => if i <? n then [v] else [] | _ => [] end.
Proof.
  intros He. pose proof (stepped_trace (en_step He)) as Htr.
  destruct (result c mv) as [[s' os] a] eqn:Hh. cbn [fst snd] in Htr. exists a.
  destruct mv as [i|]; cbn [result] in Hh.
  - destruct (mg_handle_out _ _ _ Hh) as [-> Hout].
    split; [exact Htr|]. rewrite Hout. now destruct i as [s0 aux|s0 u|j [|v|e|]|s0].
  - destruct (enabled_ret_stack _ _ _ He) as (k & cl & rest & Hst). rewrite Hst in Hh.
    destruct (mg_resume_out _ _ _ Hh) as [-> Hout]. split; [exact Htr|exact Hout].
Qed.

Definition tpeer (st : list (mg_fr * call)) (q : peer) : bool :=
  match st with
  | [] => true
  | (_, cl) :: _ => peer_eqb (peer_of cl) q
  end.

Section MergeInv.
  Variable n : nat.
  Hypothesis Hn : 1 <= n.
  Variable p : mparams.
  Hypothesis Hns : nsinks p = 1.
  Hypothesis Hresub : resub p = false.
  Hypothesis Hnonest : no_nest p = false.
  Hypothesis Hc14 : c14 p = false.
  Let o := merge_op n.
  Notation gm := g_std.

  (** member [k] has ended by Terminate *)
  Definition done (m : mstate) (s : mg_st) (k : nat) : bool :=
    match us m k with UEnded => negb (mg_tbs s k) | _ => false end.

  (** frames that may be pending below the innermost one *)
  Definition qf (f : mg_fr * call) : Prop :=
    match f with
    | (MgDone, CDn 0 DH) => True
    | (MgDone, CDn 0 (DD _)) => True
    | (MgBcast UP _, CUp _ UP) => True
    | _ => False
    end.

  (** the subscription loop, suspended at member [i]: only at the bottom *)
  Definition qsub (m : mstate) (f : mg_fr * call) : Prop :=
    match f with
    | (MgSubLoop i', CSub i) => i' = S i /\ forall k, i' <= k -> us m k = UNone
    | _ => False
    end.

  Fixpoint qstack (m : mstate) (st : list (mg_fr * call)) : Prop :=
    match st with
    | [] => True
    | f :: rest => (qf f /\ qstack m rest) \/ (qsub m f /\ rest = [])
    end.

  Definition quiet_conds (s : mg_st) (m : mstate) : Prop :=
    (mg_ended s = true -> sk_over (sk m 0) = true /\ forall k, us m k <> ULive) /\
    (forall t, err_due m t = None).

  Definition inert (m : mstate) (cl : call) : Prop :=
    match cl with
    | CUp i UT => us m i = UStopped
    | CDn 0 (DE _) | CDn 0 DT => sk m 0 = SFinished
    | _ => False
    end.

  (** the stack holds quiet frames only; or above them a call whose callee can no longer
      answer (a stopped member, the finished sink); or one of the two stopping loops,
      suspended in the call that stopped member [j]: no member below [S j] is live, and
      every member from [S j] on whose talkback is still in its cell is (in the second loop,
      the failed member [i] excepted) *)
  Inductive shape (s : mg_st) (m : mstate) : list (mg_fr * call) -> Prop :=
  | Sh_quiet st : qstack m st -> quiet_conds s m -> shape s m st
  | Sh_inert cl rest :
      qstack m rest -> quiet_conds s m -> inert m cl ->
      shape s m ((MgDone, cl) :: rest)
  | Sh_bcast u j rest :
      qstack m rest -> umsg_is_term u = true -> j < n ->
      mg_ended s = true -> sk m 0 = SDisposed -> us m j = UStopped ->
      (forall k, k < S j -> us m k <> ULive) ->
      (forall k, S j <= k -> k < n -> mg_tbs s k = true -> us m k = ULive) ->
      (forall t, err_due m t = None) ->
      shape s m ((MgBcast u (S j), CUp j u) :: rest)
  | Sh_err i e j rest :
      qstack m rest -> j < n -> i < n ->
      mg_ended s = true -> sk m 0 = SLive -> us m j = UStopped -> us m i = UEnded ->
      (forall k, k < S j -> us m k <> ULive) ->
      (forall k, S j <= k -> k < n -> k <> i -> mg_tbs s k = true -> us m k = ULive) ->
      existsb (Nat.eqb e) (errs_in m) = true ->
      err_due m 0 = Some e -> (forall t, t <> 0 -> err_due m t = None) ->
      shape s m ((MgErrLoop i e (S j), CUp j UT) :: rest).

  Record Core (s : mg_st) (m : mstate) : Prop := {
    c_sk_other : forall t, t <> 0 -> sk m t = SNone;
    c_us_big : forall k, n <= k -> us m k = UNone;
    c_live_tb : forall k, us m k = ULive -> mg_tbs s k = true;
    c_tb_live : mg_ended s = false -> forall k, k < n -> mg_tbs s k = true -> us m k = ULive;
    c_over : sk_over (sk m 0) = true -> mg_ended s = true \/ mg_end s = n;
    c_count : mg_end s = count (done m s) n;
    c_start : sk m 0 = SNone <-> mg_start s = 0;
    c_greeted : forall k, us m k <> UNone -> us m k <> USubd -> mg_start s <> 0;
    c_ended : mg_ended s = true -> mg_start s <> 0;
    c_fin : mg_end s = n -> sk_over (sk m 0) = true;
    c_disp : sk m 0 = SDisposed -> exists i, i < n /\ us m i <> UEnded;
    (** a talkback still in its cell belongs to a member that is live or has failed: whoever
        stops a member (sink broadcast, failing sibling) takes its talkback out *)
    c_tb_set : forall k, mg_tbs s k = true -> us m k = ULive \/ us m k = UEnded;
  }.

  Record Inv (c : cfg o) : Prop := {
    i_viols : viols (ms c) = [];
    i_dead : dead c = false;
    i_task : forall t, task (ms c) t = false;
    i_core : Core (cst c) (ms c);
    i_shape : shape (cst c) (ms c) (stack c);
  }.

  Lemma inv0 : Inv (cfg0 o).
  Proof.
    constructor; cbn; auto.
    - constructor; cbn; auto; try discriminate; try tauto; try lia.
      symmetry. apply count_zero. reflexivity.
    - apply Sh_quiet; [exact I|]. split; [discriminate|reflexivity].
  Qed.

  Lemma qstack_mono {m m' st} :
    (forall k, us m k = UNone -> us m' k = UNone) -> qstack m st -> qstack m' st.
  Proof.
    intros H. induction st as [|f st IH]; cbn; [auto|].
    intros [[H1 H2]|[H1 H2]]; [left; auto|right]. split; [|exact H2].
    destruct f as [[|i1|u j|i2 e j] [i|i u1|t d]]; cbn in *; auto.
    destruct H1 as [E H1]. split; [exact E|]. intros k Hk. apply H. now apply H1.
  Qed.

  Lemma qstack_same {m m' st} : us m' = us m -> qstack m st -> qstack m' st.
  Proof. intros E. apply qstack_mono. intros k Hk. now rewrite E. Qed.

  (** a member's status changes, but not from [UNone] *)
  Lemma qstack_upd {m m' st j x} :
    us m j <> UNone -> us m' = upd (us m) j x -> qstack m st -> qstack m' st.
  Proof.
    intros Hj E. apply qstack_mono. intros k Hk. rewrite E. unfold upd.
    destruct (Nat.eqb_spec k j); congruence.
  Qed.

  Lemma quiet_same {s m m'} :
    sk m' = sk m -> us m' = us m -> err_due m' = err_due m -> quiet_conds s m -> quiet_conds s m'.
  Proof. unfold quiet_conds. intros -> -> ->. auto. Qed.

  Lemma shape_same {s m m' st} :
    sk m' = sk m -> us m' = us m -> err_due m' = err_due m -> errs_in m' = errs_in m ->
    shape s m st -> shape s m' st.
  Proof.
    intros E1 E2 E3 E4 H.
    pose proof (fun st0 => @qstack_same m m' st0 E2) as Q.
    pose proof (@quiet_same s m m' E1 E2 E3) as Q'.
    destruct H; [apply Sh_quiet|apply Sh_inert|apply Sh_bcast|apply Sh_err];
      unfold inert in *; rewrite ?E1, ?E2, ?E3, ?E4; auto.
  Qed.

  Lemma all_ended {s m} : Core s m -> mg_end s = n -> forall k, k < n -> us m k = UEnded.
  Proof.
    intros HC E k Hk. rewrite (c_count HC) in E. pose proof (count_full _ E Hk) as Hd.
    unfold done in Hd. destruct (us m k); try discriminate; reflexivity.
  Qed.

  Lemma none_live {s m} : Core s m -> mg_end s = n -> forall k, us m k <> ULive.
  Proof.
    intros HC E k. destruct (Nat.lt_ge_cases k n) as [Hk|Hk].
    - rewrite (all_ended HC E Hk). discriminate.
    - rewrite (c_us_big HC) by assumption. discriminate.
  Qed.

  Lemma quiesce_ok {s m} : Core s m -> quiet_conds s m -> check_quiescent p m = [].
  Proof.
    intros HC [Hq1 Hq2]. apply quiescent_nil; [|exact Hq2|rewrite Hc14; discriminate].
    intros _ Hov i _.
    assert (H : us m i <> ULive)
      by (destruct (c_over HC Hov) as [E|E]; [now apply Hq1 | now apply (none_live HC)]).
    destruct (us m i); try reflexivity. congruence.
  Qed.

  Ltac ucase :=
    unfold upd in *;
    repeat match goal with
           | |- context [Nat.eqb ?x ?k] =>
               destruct (Nat.eqb_spec x k); [first [subst x|subst k|idtac]|]
           | H : context [Nat.eqb ?x ?k] |- _ =>
               destruct (Nat.eqb_spec x k); [first [subst x|subst k|idtac]|]
           end.

  (** the clause [c_tb_set] across a pointwise change; [H0] is the clause before the step *)
  Ltac tbset H0 :=
    let k := fresh "k" in let H := fresh "H" in
    intros k H; ucase; try discriminate; auto;
    try (let X := fresh "X" in destruct (H0 _ H) as [X|X]; congruence).

  Definition fresh : mg_st :=
    {| mg_tbs := fun _ => false; mg_start := 0; mg_end := 0; mg_ended := false |}.
  Definition set_ended (s : mg_st) : mg_st :=
    {| mg_tbs := mg_tbs s; mg_start := mg_start s; mg_end := mg_end s; mg_ended := true |}.
  Definition endif (u : umsg) (s : mg_st) : mg_st :=
    if umsg_is_term u then set_ended s else s.
  (** the talkback of member [j] taken out of its cell (an ending message on its way to [j]) *)
  Definition clr (s : mg_st) (j : nat) : mg_st :=
    {| mg_tbs := upd (mg_tbs s) j false; mg_start := mg_start s; mg_end := mg_end s;
       mg_ended := mg_ended s |}.
  Definition clrif (u : umsg) (s : mg_st) (j : nat) : mg_st :=
    if umsg_is_term u then clr s j else s.
  Definition greet (s : mg_st) (i : nat) : mg_st :=
    {| mg_tbs := upd (mg_tbs s) i true; mg_start := S (mg_start s); mg_end := mg_end s;
       mg_ended := mg_ended s |}.
  Definition term (s : mg_st) (i : nat) : mg_st :=
    {| mg_tbs := upd (mg_tbs s) i false; mg_start := mg_start s; mg_end := S (mg_end s);
       mg_ended := mg_ended s |}.

  Lemma T_same {s m m'} : Core s m -> sk m' = sk m -> us m' = us m -> Core s m'.
  Proof.
    intros [] E1 E2. constructor; rewrite ?E1, ?E2; auto.
    rewrite c_count0. apply count_ext. intros k _. unfold done. now rewrite E2.
  Qed.

  Lemma T_stop {s m m' j} :
    Core s m -> mg_ended s = true -> us m j = ULive ->
    sk m' = sk m -> us m' = upd (us m) j UStopped -> Core (clr s j) m'.
  Proof.
    intros [] He Hj E1 E2.
    constructor; rewrite ?E1, ?E2; cbn [clr mg_tbs mg_start mg_end mg_ended]; auto.
    - intros k Hk. ucase; [|auto]. rewrite c_us_big0 in Hj by assumption. discriminate.
    - intros k H. ucase; [discriminate|auto].
    - congruence.
    - rewrite c_count0. apply count_ext. intros k _. unfold done. rewrite E2.
      cbn [clr mg_tbs]. ucase; [rewrite Hj|]; reflexivity.
    - intros H. destruct (c_disp0 H) as (i & Hi & Hne). exists i. split; [exact Hi|].
      ucase; [discriminate|exact Hne].
    - tbset c_tb_set0.
  Qed.

  Lemma T_dispose {s m m'} :
    Core s m -> sk m 0 = SLive -> (exists i, i < n /\ us m i <> UEnded) ->
    sk m' = upd (sk m) 0 SDisposed -> us m' = us m -> Core (set_ended s) m'.
  Proof.
    intros [] Hsk Hex E1 E2.
    assert (Hst : mg_start s <> 0) by (intros H; apply c_start0 in H; congruence).
    constructor; rewrite ?E1, ?E2; cbn; auto.
    - intros t Ht. rewrite upd_other by assumption. auto.
    - discriminate.
    - rewrite c_count0. apply count_ext. intros k _. unfold done. cbn. now rewrite E2.
    - split; [discriminate|tauto].
  Qed.

  Lemma T_fail {s m m' i} :
    Core s m -> us m i = ULive -> sk m 0 = SLive ->
    sk m' = sk m -> us m' = upd (us m) i UEnded -> Core (set_ended s) m'.
  Proof.
    intros [] Hi Hsk E1 E2.
    assert (Hst : mg_start s <> 0) by (intros H; apply c_start0 in H; congruence).
    constructor; rewrite ?E1, ?E2; cbn; auto.
    - intros k Hk. ucase; [|auto]. rewrite c_us_big0 in Hi by assumption. discriminate.
    - intros k H. ucase; [discriminate|auto].
    - discriminate.
    - rewrite c_count0. apply count_ext. intros k _. unfold done. cbn. rewrite E2.
      ucase; [|reflexivity]. rewrite Hi, (c_live_tb0 _ Hi). reflexivity.
    - intros H. congruence.
    - tbset c_tb_set0.
  Qed.

  Lemma T_finish {s m m'} :
    Core s m -> mg_ended s = true -> sk m 0 <> SNone ->
    sk m' = upd (sk m) 0 SFinished -> us m' = us m -> Core s m'.
  Proof.
    intros [] He Hsk E1 E2. constructor; rewrite ?E1, ?E2; auto.
    - intros t Ht. rewrite upd_other by assumption. auto.
    - rewrite c_count0. apply count_ext. intros k _. unfold done. now rewrite E2.
    - rewrite upd_same. split; [discriminate|]. intros H. apply c_start0 in H. congruence.
    - rewrite upd_same. discriminate.
  Qed.

  (** a late greeter is stopped at once: [x] is the status in between *)
  Lemma T_late {s m m' i x} :
    Core s m -> mg_ended s = true -> us m i = USubd ->
    sk m' = sk m -> us m' = upd (upd (us m) i x) i UStopped -> Core s m'.
  Proof.
    intros [] He Hi E1 E2. constructor; rewrite ?E1, ?E2; auto.
    - intros k Hk. ucase; [|auto]. rewrite c_us_big0 in Hi by assumption. discriminate.
    - intros k H. ucase; [discriminate|auto].
    - congruence.
    - rewrite c_count0. apply count_ext. intros k _. unfold done. rewrite E2.
      ucase; [rewrite Hi|]; reflexivity.
    - intros H. destruct (c_disp0 H) as (i0 & Hi0 & Hne). exists i0. split; [exact Hi0|].
      ucase; [discriminate|exact Hne].
    - tbset c_tb_set0.
  Qed.

  Lemma T_greet {s m m' i} :
    Core s m -> mg_ended s = false -> us m i = USubd -> i < n ->
    us m' = upd (us m) i ULive ->
    (mg_start s <> 0 /\ sk m' = sk m \/ mg_start s = 0 /\ sk m' = upd (sk m) 0 SLive) ->
    Core (greet s i) m'.
  Proof.
    intros [] He Hi Hin E2 Hsk. constructor; rewrite ?E2; cbn; auto.
    - intros t Ht. destruct Hsk as [[_ ->]|[_ ->]]; [|rewrite upd_other by assumption]; auto.
    - intros k Hk. ucase; [lia|auto].
    - intros k H. ucase; auto.
    - intros H k Hk Ht. ucase; auto.
    - destruct Hsk as [[_ ->]|[_ ->]]; [auto|]. rewrite upd_same. discriminate.
    - rewrite c_count0. apply count_ext. intros k _. unfold done. cbn. rewrite E2.
      ucase; [rewrite Hi|]; reflexivity.
    - destruct Hsk as [[H ->]|[_ ->]]; [|rewrite upd_same]; split; try discriminate; tauto.
    - intros Hfull. destruct Hsk as [[_ ->]|[_ ->]]; [auto|]. exfalso.
      assert (Hlt : count (done m s) n < n).
      { apply count_lt with (k := i); [exact Hin|]. unfold done. now rewrite Hi. }
      lia.
    - destruct Hsk as [[_ ->]|[_ ->]]; [|rewrite upd_same; discriminate].
      intros H. destruct (c_disp0 H) as (i0 & Hi0 & Hne). exists i0. split; [exact Hi0|].
      ucase; [discriminate|exact Hne].
    - tbset c_tb_set0.
  Qed.

  Lemma T_term {s m m' i} :
    Core s m -> us m i = ULive -> i < n -> sk m 0 = SLive -> mg_ended s = false ->
    us m' = upd (us m) i UEnded ->
    (S (mg_end s) <> n /\ sk m' = sk m \/
     S (mg_end s) = n /\ sk m' = upd (sk m) 0 SFinished) ->
    Core (term s i) m'.
  Proof.
    intros [] Hi Hin Hsk0 He E2 Hsk.
    assert (Hst : mg_start s <> 0) by (intros H; apply c_start0 in H; congruence).
    constructor; rewrite ?E2; cbn; auto.
    - intros t Ht. destruct Hsk as [[_ ->]|[_ ->]]; [|rewrite upd_other by assumption]; auto.
    - intros k Hk. ucase; [lia|auto].
    - intros k H. ucase; [discriminate|auto].
    - intros H k Hk Ht. ucase; [discriminate|auto].
    - destruct Hsk as [[_ ->]|[H ->]]; [|now right]. rewrite Hsk0. discriminate.
    - rewrite c_count0. symmetry. apply count_flip with (k := i); try assumption.
      + unfold done. now rewrite Hi.
      + unfold done. cbn. rewrite E2, !upd_same. reflexivity.
      + intros j _ Hj. unfold done. cbn. rewrite E2, !upd_other by assumption. reflexivity.
    - destruct Hsk as [[_ ->]|[_ ->]]; [auto|]. rewrite upd_same. split; [discriminate|tauto].
    - intros Hfull. destruct Hsk as [[H _]|[_ ->]]; [congruence|]. now rewrite upd_same.
    - destruct Hsk as [[_ ->]|[_ ->]]; [congruence|]. rewrite upd_same. discriminate.
    - tbset c_tb_set0.
  Qed.

  Lemma T_subscribe {s m m' i} :
    Core s m -> mg_ended s = false -> us m i = UNone -> i < n ->
    sk m' = sk m -> us m' = upd (us m) i USubd -> Core s m'.
  Proof.
    intros [] He Hi Hin E1 E2. constructor; rewrite ?E1, ?E2; auto.
    - intros k Hk. ucase; [lia|auto].
    - intros k H. ucase; [discriminate|auto].
    - intros H k Hk Ht. ucase; [|auto]. rewrite (c_tb_live0 H _ Hk Ht) in Hi. discriminate.
    - rewrite c_count0. apply count_ext. intros k _. unfold done. rewrite E2.
      ucase; [rewrite Hi|]; reflexivity.
    - intros k H1 H2. ucase; [congruence | now apply (c_greeted0 k)].
    - intros H. destruct (c_disp0 H) as (i0 & Hi0 & Hne). exists i0. split; [exact Hi0|].
      ucase; [discriminate|exact Hne].
    - tbset c_tb_set0.
  Qed.

  (** *** Inputs only arrive in quiet shapes *)
  Lemma shape_sink {s m st} :
    shape s m st -> tpeer st (PSink 0) = true -> sk m 0 = SLive ->
    qstack m st /\ quiet_conds s m.
  Proof.
    intros Hsh Htp Hsk.
    destruct Hsh as [st HF Hq|cl rest HF Hq Hin|u j rest HF|i e j rest HF]; cbn in Htp;
      try discriminate.
    - auto.
    - exfalso. destruct cl as [i|i [|e|]|[|t] [|v|e|]]; cbn in Hin, Htp;
        try contradiction; try discriminate; congruence.
  Qed.

  Lemma shape_up {s m st i} :
    shape s m st -> tpeer st (PUp i) = true -> us m i = USubd \/ us m i = ULive ->
    qstack m st /\ quiet_conds s m.
  Proof.
    intros Hsh Htp Hi.
    destruct Hsh as [st HF Hq|cl rest HF Hq Hin|u j rest HF Hu Hj He Hsk Huj
                    |i0 e j rest HF Hj Hi0 He Hsk Huj]; cbn in Htp.
    - auto.
    - exfalso. destruct cl as [i1|i1 [|e|]|[|t] [|v|e|]]; cbn in Hin, Htp;
        try contradiction; try discriminate.
      apply Nat.eqb_eq in Htp. subst. destruct Hi; congruence.
    - exfalso. apply Nat.eqb_eq in Htp. subst. destruct Hi; congruence.
    - exfalso. apply Nat.eqb_eq in Htp. subst. destruct Hi; congruence.
  Qed.

  Lemma member_lt {s m i} : Core s m -> us m i <> UNone -> i < n.
  Proof.
    intros HC Hi. destruct (Nat.lt_ge_cases i n); [assumption|]. now rewrite (c_us_big HC) in Hi.
  Qed.

  Lemma sink_live_facts {s m} :
    Core s m -> quiet_conds s m -> sk m 0 = SLive -> mg_ended s = false.
  Proof.
    intros HC [Hq _] Hsk. destruct (mg_ended s) eqn:E; [|reflexivity].
    destruct (Hq eq_refl) as [H _]. rewrite Hsk in H. discriminate.
  Qed.

  Lemma live_facts {s m i} :
    Core s m -> quiet_conds s m -> us m i = ULive ->
    mg_ended s = false /\ sk m 0 = SLive /\ mg_tbs s i = true.
  Proof.
    intros HC [Hq _] Hi.
    assert (He : mg_ended s = false).
    { destruct (mg_ended s) eqn:E; [|reflexivity]. destruct (Hq eq_refl) as [_ H].
      now apply H in Hi. }
    split; [exact He|]. split; [|now apply (c_live_tb HC)].
    assert (Hst : mg_start s <> 0) by (apply (c_greeted HC i); congruence).
    pose proof (c_over HC) as Hov. pose proof (c_start HC) as Hs0.
    destruct (sk m 0); try reflexivity; try tauto;
      (destruct (Hov eq_refl) as [H|H]; [congruence|]; exfalso; now apply (none_live HC H i)).
  Qed.

  Lemma live_has_member {s m} :
    Core s m -> mg_ended s = false -> sk m 0 = SLive ->
    exists i, i < n /\ us m i <> UEnded.
  Proof.
    intros HC He Hsk.
    assert (Hlt : count (done m s) n < n).
    { pose proof (count_le (done m s) n).
      destruct (Nat.eq_dec (count (done m s) n) n) as [E|E]; [|lia].
      rewrite <- (c_count HC) in E. pose proof (c_fin HC E) as H1.
      rewrite Hsk in H1. discriminate. }
    destruct (count_lt_ex _ Hlt) as (k & Hk & Hf). exists k. split; [exact Hk|].
    intros Hu. unfold done in Hf. rewrite Hu in Hf. apply negb_false_iff in Hf.
    rewrite (c_tb_live HC He Hk Hf) in Hu. discriminate.
  Qed.

  (** *** The end of an activation: a call, with [check_call] quiet and the invariant's parts
      for the monitor state the call leaves, or a return to a quiet configuration *)
  Lemma fin_call {c mv st s' cl k} :
    Inv c -> stepped p c mv st (s', [], ACall cl k) ->
    let m1 := mon_move p (ms c) mv in
    check_call p m1 cl = [] -> Core s' (mon_call_upd m1 cl) ->
    shape s' (mon_call_upd m1 cl) ((k, cl) :: st) -> Inv (step p c mv).
  Proof.
    intros HI [Hc Hs Hm Hd _] m1 Hck HC Hsh. cbn [fst snd] in *.
    rewrite ms_settle_call in Hm. fold m1 in Hm. rewrite Hck in Hm.
    constructor; rewrite ?Hc, ?Hs, ?Hm; cbn [add_viols fold_right].
    - cbn. unfold m1. rewrite mon_call_upd_viols, mon_move_viols. apply HI.
    - exact Hd.
    - intros t. cbn. unfold m1. rewrite mon_call_upd_task, mon_move_task. apply HI.
    - apply (T_same HC); reflexivity.
    - apply (shape_same (m := mon_call_upd m1 cl)); [reflexivity..|exact Hsh].
  Qed.

  Lemma fin_ret {c mv st s'} :
    Inv c -> stepped p c mv st (s', [], ARet) ->
    let m1 := mon_move p (ms c) mv in
    Core s' m1 -> qstack m1 st -> quiet_conds s' m1 -> Inv (step p c mv).
  Proof.
    intros HI [Hc Hs Hm Hd _] m1 HC HF Hq. cbn [fst snd] in *.
    assert (E : ms (step p c mv) = m1).
    { rewrite Hm, ms_settle_ret. fold m1. destruct (cstack m1); [|reflexivity].
      now rewrite (quiesce_ok HC Hq). }
    constructor; rewrite ?Hc, ?Hs, ?E; auto.
    - unfold m1. rewrite mon_move_viols. apply HI.
    - intros t. unfold m1. rewrite mon_move_task. apply HI.
    - now apply Sh_quiet.
  Qed.

  (** *** The two stopping loops sweep the members upwards: [ok] selects every live member,
      no member below [j] is live, [j'] is the first member from [j] on that [ok] selects *)
  Lemma sweep_some {m ok j fuel j'} :
    (forall k, us m k = ULive -> ok k = true) -> (forall k, k < j -> us m k <> ULive) ->
    find_from ok j fuel = Some j' ->
    forall k, k < S j' -> upd (us m) j' UStopped k <> ULive.
  Proof.
    intros Hok Hlow Ef k Hk Hl. destruct (find_from_some _ _ _ Ef) as (_ & _ & _ & Hlt).
    unfold upd in Hl. destruct (Nat.eqb_spec k j'); [discriminate|].
    destruct (Nat.lt_ge_cases k j) as [Hkj|Hkj]; [now apply (Hlow k)|].
    pose proof (Hok _ Hl) as H. rewrite Hlt in H by lia. discriminate.
  Qed.

  Lemma sweep_none {s m ok j} :
    Core s m -> (forall k, us m k = ULive -> ok k = true) -> (forall k, k < j -> us m k <> ULive) ->
    find_from ok j (n - j) = None -> forall k, us m k <> ULive.
  Proof.
    intros HC Hok Hlow Ef k Hl.
    destruct (Nat.lt_ge_cases k j) as [Hkj|Hkj]; [now apply (Hlow k)|].
    pose proof (member_lt HC (i := k)) as Hkn. rewrite Hl in Hkn.
    pose proof (Hok _ Hl) as H.
    rewrite (@find_from_none _ _ _ Ef k) in H; [discriminate|lia|]. specialize (Hkn ltac:(discriminate)). lia.
  Qed.

  (** the broadcast of a sink message (src/merge.rs:121), from any position *)
  Lemma bcast_step {c mv st s u j} :
    Inv c -> stepped p c mv st (mg_bcast n u j s) ->
    let m1 := mon_move p (ms c) mv in
    Core s m1 -> qstack m1 st ->
    (if umsg_is_term u
     then mg_ended s = true /\ sk m1 0 = SDisposed /\ (forall k, k < j -> us m1 k <> ULive) /\
          (forall k, j <= k -> k < n -> mg_tbs s k = true -> us m1 k = ULive) /\
          (forall t, err_due m1 t = None)
     else quiet_conds s m1) ->
    Inv (step p c mv).
  Proof.
    intros HI Hst m1 HC HF Hloop. revert Hst. unfold mg_bcast.
    destruct (umsg_is_term u) eqn:Hu; cbn [negb andb].
    - destruct Hloop as (Hend & Hsk & Hlow & Hhigh & Hdue).
      destruct (find_from (mg_tbs s) j (n - j)) as [j'|] eqn:Ef; intros Hst.
      + destruct (find_from_some _ _ _ Ef) as (Hj1 & Hj2 & Htb & _).
        assert (Hlj : us m1 j' = ULive) by (apply Hhigh; [lia..|exact Htb]).
        apply (fin_call HI Hst); fold m1; rewrite ?(call_stop_upd m1 j' u Hu).
        * now apply check_cup_live.
        * apply (T_stop HC Hend Hlj); reflexivity.
        * apply Sh_bcast; cbn; auto; try lia.
          -- apply (qstack_upd (m := m1) (j := j') (x := UStopped)); [congruence|reflexivity|exact HF].
          -- apply upd_same.
          -- exact (sweep_some (c_live_tb HC) Hlow Ef).
          -- intros k Hk1 Hk2 Hk3. rewrite upd_other in Hk3 |- * by lia. apply Hhigh; auto; lia.
      + apply (fin_ret HI Hst); fold m1; auto. split; [|exact Hdue]. intros _. rewrite Hsk.
        split; [reflexivity|]. exact (sweep_none HC (c_live_tb HC) Hlow Ef).
    - destruct u; try discriminate.
      destruct (mg_ended s) eqn:Hend; [intros Hst; now apply (fin_ret HI Hst)|].
      destruct (find_from (mg_tbs s) j (n - j)) as [j'|] eqn:Ef; intros Hst;
        [|now apply (fin_ret HI Hst)].
      destruct (find_from_some _ _ _ Ef) as (Hj1 & Hj2 & Htb & _).
      apply (fin_call HI Hst); fold m1.
      + apply check_cup_live; [exact Hc14|]. apply (c_tb_live HC Hend); [lia|exact Htb].
      + apply (T_same HC); reflexivity.
      + apply Sh_quiet; [left; split; [exact I|]|].
        * apply (qstack_same (m := m1)); [reflexivity|exact HF].
        * apply (quiet_same (m := m1)); [reflexivity..|exact Hloop].
  Qed.

  (** the sibling-stopping loop of a member Error (src/merge.rs:198), from any position *)
  Lemma errloop_step {c mv st s i e j} :
    Inv c -> stepped p c mv st (mg_errloop n i e j s) ->
    let m1 := mon_move p (ms c) mv in
    Core s m1 -> qstack m1 st ->
    mg_ended s = true -> sk m1 0 = SLive -> us m1 i = UEnded -> i < n ->
    (forall k, k < j -> us m1 k <> ULive) ->
    (forall k, j <= k -> k < n -> k <> i -> mg_tbs s k = true -> us m1 k = ULive) ->
    existsb (Nat.eqb e) (errs_in m1) = true ->
    err_due m1 0 = Some e -> (forall t, t <> 0 -> err_due m1 t = None) ->
    Inv (step p c mv).
  Proof.
    intros HI Hst m1 HC HF Hend Hsk Hui Hin Hlow Hhigh Hex Hdue0 Hdue. revert Hst.
    unfold mg_errloop.
    assert (Hok : forall k, us m1 k = ULive -> negb (Nat.eqb k i) && mg_tbs s k = true).
    { intros k Hl. rewrite (c_live_tb HC _ Hl), andb_true_r. apply negb_true_iff, Nat.eqb_neq.
      congruence. }
    destruct (find_from (fun x => negb (Nat.eqb x i) && mg_tbs s x) j (n - j)) as [j'|] eqn:Ef;
      intros Hst.
    - destruct (find_from_some _ _ _ Ef) as (Hj1 & Hj2 & Hsel & _).
      apply andb_prop in Hsel. destruct Hsel as [Hne Htb].
      apply negb_true_iff, Nat.eqb_neq in Hne.
      assert (Hlj : us m1 j' = ULive) by (apply Hhigh; auto; lia).
      apply (fin_call HI Hst); fold m1.
      + now apply check_cup_live.
      + apply (T_stop HC Hend Hlj); reflexivity.
      + apply Sh_err; cbn; auto; try lia.
        * apply (qstack_upd (m := m1) (j := j') (x := UStopped)); [congruence|reflexivity|exact HF].
        * apply upd_same.
        * rewrite upd_other by auto. exact Hui.
        * exact (sweep_some Hok Hlow Ef).
        * intros k Hk1 Hk2 Hk3 Hk4. rewrite upd_other in Hk4 |- * by lia. apply Hhigh; auto; lia.
    - apply (fin_call HI Hst); fold m1.
      + cbn. rewrite Hsk, Hnonest, Hex. reflexivity.
      + apply (T_finish HC Hend); [congruence|cbn; rewrite Hsk, Hdue0, Nat.eqb_refl; reflexivity..].
      + cbn [mon_call_upd]. rewrite Hsk, Hdue0, Nat.eqb_refl.
        apply Sh_inert; [apply (qstack_same (m := m1)); [reflexivity|exact HF]| |apply upd_same].
        split; cbn.
        * intros _. split; [reflexivity|]. exact (sweep_none HC Hok Hlow Ef).
        * intros t. unfold upd. destruct (Nat.eqb_spec t 0); auto.
  Qed.

  Lemma h_sub aux s :
    mg_handle n (ISub 0 aux) s = (fresh, [], ACall (CSub 0) (MgSubLoop 1)).
  Proof. cbn. unfold mg_subloop. destruct (Nat.ltb_spec 0 n); [reflexivity|lia]. Qed.

  Lemma h_dn_lt i d s (Hin : i < n) :
    mg_handle n (IDn i d) s =
    match d with
    | DH =>
        if mg_ended s then (s, [], ACall (CUp i UT) MgDone)
        else if Nat.eqb (S (mg_start s)) 1 then (greet s i, [], ACall (CDn 0 DH) MgDone)
             else (greet s i, [], ARet)
    | DD v => (s, [], ACall (CDn 0 (DD v)) MgDone)
    | DE e => mg_errloop n i e 0 (set_ended s)
    | DT => if Nat.eqb (S (mg_end s)) n then (term s i, [], ACall (CDn 0 DT) MgDone)
            else (term s i, [], ARet)
    end.
  Proof.
    apply Nat.ltb_lt in Hin. unfold mg_handle. rewrite Hin. destruct d; reflexivity.
  Qed.

  Lemma inv_sub c s aux : reach p gm c -> enabled p gm c (MIn (ISub s aux)) = true ->
                          Inv (step p c (MIn (ISub s aux))).
  Proof.
    intros Hr He. destruct (en_sub _ _ _ _ _ He) as (_ & Hs & Hsub). rewrite Hns in Hs.
    assert (s = 0) by lia. subst s.
    pose proof (en_guard _ _ _ _ He) as Hg. destruct aux; [|discriminate Hg].
    pose proof (reach_unsubscribed Hns Hr Hsub). subst c.
    apply (fin_call inv0 (stepped_in He (h_sub 0 _))).
    - cbn. rewrite Hresub. reflexivity.
    - apply (T_subscribe (i := 0) (i_core inv0)); try reflexivity. lia.
    - apply Sh_quiet; [right; split; [split; [reflexivity|]|reflexivity]|split; [discriminate|reflexivity]].
      intros k Hk. cbn. now rewrite upd_other by lia.
  Qed.

  Lemma inv_up c s u : Inv c -> enabled p gm c (MIn (IUp s u)) = true ->
                       Inv (step p c (MIn (IUp s u))).
  Proof.
    intros HI He. destruct (en_up _ _ _ _ _ He) as (Htop & Hsk & _).
    pose proof (i_core HI) as HC.
    destruct s as [|s]; [|rewrite (c_sk_other HC) in Hsk by lia; discriminate].
    destruct (shape_sink (i_shape HI) Htop Hsk) as [HF [Hq1 Hq2]].
    pose proof (sink_live_facts HC (conj Hq1 Hq2) Hsk) as Hend.
    apply (bcast_step (s := endif u (cst c)) (u := u) (j := 0) HI (stepped_in He eq_refl));
      unfold endif; cbn [mon_move]; destruct (umsg_is_term u) eqn:Hu.
    - destruct (in_up p (ms c) u) as (E2 & _ & _ & E1 & _). rewrite Hu in E1.
      exact (T_dispose HC Hsk (live_has_member HC Hend Hsk) E1 E2).
    - destruct u; try discriminate. apply (T_same HC); reflexivity.
    - exact (qstack_same (proj1 (in_up p (ms c) u)) HF).
    - destruct u; try discriminate. apply (qstack_same (m := ms c)); [reflexivity|exact HF].
    - destruct (in_up p (ms c) u) as (E2 & _ & _ & E1 & E3). rewrite Hu in E1, E3. rewrite E1, E2, E3.
      split; [reflexivity|]. split; [apply upd_same|]. split; [intros; lia|].
      split; [intros k _; now apply (c_tb_live HC)|].
      intros t. unfold upd. destruct (Nat.eqb t 0); auto.
    - destruct u; try discriminate. exact (conj Hq1 Hq2).
  Qed.

  Lemma inv_dn c i d : Inv c -> enabled p gm c (MIn (IDn i d)) = true ->
                       Inv (step p c (MIn (IDn i d))).
  Proof.
    intros HI He. destruct (en_member _ _ _ _ _ He) as [Htop Hui]. pose proof (i_core HI) as HC.
    destruct (shape_up (i := i) (i_shape HI) Htop) as [HF [Hq1 Hq2]];
      [rewrite Hui; destruct d; auto|].
    assert (Hin : i < n) by (apply (member_lt HC); rewrite Hui; destruct d; discriminate).
    pose proof (stepped_in He (h_dn_lt d (cst c) Hin)) as Hst. cbn [mon_move] in *.
    assert (HF' : forall m' x, us m' = upd (us (ms c)) i x -> qstack m' (stack c)).
    { intros m' x E. apply (qstack_upd (m := ms c) (j := i) (x := x)); [|exact E|exact HF].
      rewrite Hui. destruct d; discriminate. }
    destruct d as [|v|e|].
    - destruct (mg_ended (cst c)) eqn:Hend;
        [|destruct (Nat.eqb_spec (S (mg_start (cst c))) 1) as [Hfirst|Hfirst]].
      + (* a late greeter, the output being over, is told to stop *)
        apply (fin_call HI Hst).
        * cbn. rewrite upd_same. reflexivity.
        * apply (T_late (x := ULive) HC Hend Hui); reflexivity.
        * destruct (Hq1 eq_refl) as [Hov Hnl].
          apply Sh_inert; [|split; cbn; [|exact Hq2]|apply upd_same].
          -- apply (qstack_upd (m := mon_input p (ms c) (IDn i DH)) (j := i) (x := UStopped));
               [cbn; rewrite upd_same; discriminate|reflexivity|now apply (HF' _ ULive)].
          -- intros _. split; [exact Hov|].
             intros k. unfold upd. destruct (Nat.eqb k i); [discriminate|apply Hnl].
      + (* the first greeting is passed on to the sink *)
        assert (Hst0 : mg_start (cst c) = 0) by lia.
        pose proof (proj2 (c_start HC) Hst0) as Hsk0.
        apply (fin_call HI Hst); cbn [mon_move]; rewrite ?call_greet_upd by exact Hsk0.
        * cbn. rewrite Hsk0. reflexivity.
        * apply (T_greet HC Hend Hui Hin); [reflexivity|]. right. split; [exact Hst0|reflexivity].
        * apply Sh_quiet; [left; split; [exact I|now apply (HF' _ ULive)]|].
          split; cbn; [congruence|exact Hq2].
      + apply (fin_ret HI Hst).
        * apply (T_greet HC Hend Hui Hin); [reflexivity|]. left. split; [lia|reflexivity].
        * now apply (HF' _ ULive).
        * split; cbn; [congruence|exact Hq2].
    - destruct (live_facts HC (conj Hq1 Hq2) Hui) as (Hend & Hsk & Htb).
      apply (fin_call HI Hst).
      + cbn. rewrite Hsk, Hnonest, Hc14. reflexivity.
      + apply (T_same HC); reflexivity.
      + apply Sh_quiet; [left; split; [exact I|]|split; [exact Hq1|exact Hq2]].
        apply (qstack_same (m := ms c)); [reflexivity|exact HF].
    - destruct (live_facts HC (conj Hq1 Hq2) Hui) as (Hend & Hsk & Htb).
      apply (errloop_step HI Hst); cbn [mon_move mon_input]; auto.
      + apply (T_fail HC Hui Hsk); reflexivity.
      + now apply (HF' _ UEnded).
      + cbn. apply upd_same.
      + intros k Hk. lia.
      + intros k _ Hk Hne Ht. cbn. rewrite upd_other by assumption. now apply (c_tb_live HC Hend).
      + cbn. now rewrite Nat.eqb_refl.
      + cbn. unfold due_on_error. now rewrite Hns, Hsk.
      + intros t Ht. cbn. unfold due_on_error. rewrite Hns.
        destruct t as [|t]; [contradiction|]. cbn. apply Hq2.
    - destruct (live_facts HC (conj Hq1 Hq2) Hui) as (Hend & Hsk & Htb).
      destruct (Nat.eqb_spec (S (mg_end (cst c))) n) as [Hlast|Hlast].
      + (* the last member terminates: so does the output *)
        apply (fin_call HI Hst); cbn [mon_move]; rewrite ?call_term_upd by exact Hsk.
        * cbn. rewrite Hsk, Hnonest, Hq2. reflexivity.
        * apply (T_term HC Hui Hin Hsk Hend); [reflexivity|]. right. split; [exact Hlast|reflexivity].
        * apply Sh_inert; [now apply (HF' _ UEnded)| |apply upd_same].
          split; cbn; [congruence|exact Hq2].
      + apply (fin_ret HI Hst).
        * apply (T_term HC Hui Hin Hsk Hend); [reflexivity|]. left. split; [exact Hlast|reflexivity].
        * now apply (HF' _ UEnded).
        * split; cbn; [congruence|exact Hq2].
  Qed.

  Lemma inv_ret c : Inv c -> enabled p gm c MRet = true -> Inv (step p c MRet).
  Proof.
    intros HI He. destruct (en_ret _ _ _ He) as (k & cl & rest & Hst & _).
    pose proof (i_core HI) as HC. pose proof (i_shape HI) as Hsh. rewrite Hst in Hsh.
    pose proof (fun r => stepped_ret (r := r) He Hst) as Hstep.
    set (m1 := mon_event p (ms c) ERet).
    assert (HC1 : Core (cst c) m1) by (apply (T_same HC); reflexivity).
    assert (HF1 : forall st, qstack (ms c) st -> qstack m1 st) by (intros st; now apply qstack_same).
    assert (Hq1 : quiet_conds (cst c) (ms c) -> quiet_conds (cst c) m1) by now apply quiet_same.
    inversion Hsh as [st HF Hq E|cl0 rest0 HF Hq Hin E
                     |u j rest0 HF Hu Hj Hend Hsk Huj Hlow Hhigh Hdue E
                     |i e j rest0 HF Hj Hi Hend Hsk Huj Hui Hlow Hhigh Hex Hdue0 Hdue E]; subst.
    - destruct HF as [[Hqf HF]|[Hqs ->]].
      + destruct k as [|i1|u j|i2 e j]; cbn in Hqf; try contradiction.
        * apply (fin_ret HI (Hstep _ eq_refl)); auto.
        * destruct u, cl as [i|i [|e'|]|t d]; try contradiction.
          apply (bcast_step (u := UP) HI (Hstep _ eq_refl)); auto.
      + (* the subscription loop moves on to the next member *)
        destruct k as [|i1|u j|i2 e j], cl as [i|i u1|t d]; try contradiction.
        destruct Hqs as [-> Hnone].
        pose proof (Hstep _ eq_refl) as Hs. cbn [resume o merge_op mg_resume] in Hs.
        unfold mg_subloop in Hs.
        destruct (Nat.ltb_spec (S i) n) as [Hlt|Hge];
          [destruct (mg_ended (cst c)) eqn:Hend|]; try (apply (fin_ret HI Hs); auto; exact I).
        assert (Hno : sk_over (sk (ms c) 0) = false).
        { destruct (sk_over (sk (ms c) 0)) eqn:E; [|reflexivity].
          destruct (c_over HC E) as [H|H]; [congruence|].
          pose proof (all_ended HC H Hlt) as H1. rewrite Hnone in H1 by lia. discriminate. }
        apply (fin_call HI Hs).
        * cbn. rewrite Hnone by lia. rewrite Hresub, Hno. reflexivity.
        * apply (T_subscribe (i := S i) HC Hend); [apply Hnone; lia|exact Hlt|reflexivity..].
        * apply Sh_quiet; [right; split; [split; [reflexivity|]|reflexivity]|].
          -- intros k Hk. cbn. rewrite upd_other by lia. apply Hnone. lia.
          -- split; cbn; [congruence|apply Hq].
    - apply (fin_ret HI (Hstep _ eq_refl)); auto.
    - apply (bcast_step (u := u) (j := S j) HI (Hstep _ eq_refl)); auto. rewrite Hu. auto.
    - apply (errloop_step HI (Hstep _ eq_refl)); auto.
  Qed.

  Lemma inv_step c m : reach p gm c -> Inv c -> enabled p gm c m = true -> Inv (step p c m).
  Proof.
    intros Hr HI He. destruct m as [[s aux|s u|i d|s]|].
    - now apply inv_sub.
    - now apply inv_up.
    - now apply inv_dn.
    - destruct (en_tick _ _ _ _ He) as [_ Ht]. now rewrite (i_task HI) in Ht.
    - now apply inv_ret.
  Qed.

  Theorem inv_reach c : reach p gm c -> Inv c.
  Proof. apply reach_invariant; [exact inv0 | exact inv_step]. Qed.

  (** a datum comes from one of the [n] members *)
  Lemma datum_member {c i v} : Inv c -> enabled p gm c (MIn (IDn i (DD v))) = true -> i < n.
  Proof.
    intros HI He. destruct (en_member _ _ _ _ _ He) as [_ Hui].
    apply (member_lt (i_core HI)). rewrite Hui. discriminate.
  Qed.

  Theorem order (c : cfg o) : reach p gm c -> data_out 0 (trace c) = all_in (trace c).
  Proof using Hn Hns Hresub Hnonest Hc14.
    revert c. apply (@reach_invariant p o gm (fun c => data_out 0 (trace c) = all_in (trace c)));
      [reflexivity|].
    intros c mv Hr IH He. unfold o in *. destruct (mg_step_trace He) as (a & -> & Hout).
    rewrite data_out_app, all_in_app, IH. f_equal.
    replace (data_out 0 [move_event mv; act_event (merge_op n) a])
      with (data_out 0 [act_event (merge_op n) a])
      by (now destruct mv as [[]|]).
    rewrite Hout, all_in_move, all_in_act.
    destruct mv as [[t aux|t u|i [|v|e|]|t]|]; try reflexivity.
    (* a datum: the member is live, hence one of the n *)
    now rewrite (proj2 (Nat.ltb_lt i n) (datum_member (inv_reach Hr) He)).
  Qed.

  Theorem greets (c : cfg o) :
    reach p gm c ->
    (exists i, i < n /\ us (ms c) i <> UNone /\ us (ms c) i <> USubd) ->
    sk (ms c) 0 <> SNone.
  Proof using Hn Hns Hresub Hnonest Hc14.
    intros Hr (i & _ & H1 & H2) Hsk. pose proof (i_core (inv_reach Hr)) as HC.
    apply (c_greeted HC i H1 H2). now apply (c_start HC).
  Qed.

  Theorem completes_live (c : cfg o) :
    reach p gm c -> sk (ms c) 0 = SLive -> exists i, i < n /\ us (ms c) i <> UEnded.
  Proof.
    intros Hr Hsk. pose proof (inv_reach Hr) as HI. pose proof (i_core HI) as HC.
    destruct (i_shape HI) as [st HF Hq|cl rest HF Hq Hin
                             |u j rest HF Hu Hj Hend Hsk' Huj Hlow Hhigh Hdue
                             |i e j rest HF Hj Hi Hend Hsk' Huj Hui Hlow Hhigh Hex Hdue0 Hdue].
    1,2: exact (live_has_member HC (sink_live_facts HC Hq Hsk) Hsk).
    - congruence.
    - exists j. split; [exact Hj|congruence].
  Qed.

  Theorem completes_fin (c : cfg o) :
    reach p gm c -> (forall i, i < n -> us (ms c) i = UEnded) -> sk (ms c) 0 = SFinished.
  Proof.
    intros Hr Hall. pose proof (i_core (inv_reach Hr)) as HC.
    destruct (sk (ms c) 0) eqn:E; [exfalso..|reflexivity].
    - apply (c_greeted HC 0); [rewrite Hall by lia; discriminate..|]. now apply (c_start HC).
    - destruct (completes_live Hr E) as (i & Hi & Hne). now apply Hne, Hall.
    - destruct (c_disp HC E) as (i & Hi & Hne). now apply Hne, Hall.
  Qed.

End MergeInv.

(** every member count n >= 1, members may greet late *)

(** no protocol violation and no panic in any reachable configuration *)
Theorem merge_safe p :
  nsinks p = 1 -> resub p = false -> no_nest p = false -> c14 p = false -> late_ok p = true ->
  forall n, 1 <= n ->
  forall c : cfg (merge_op n), reach p g_std c -> viols (ms c) = [] /\ dead c = false.
Proof.
  intros H1 H2 H3 H4 H5 n Hn c Hr.
  edestruct (@inv_reach n) as [Hv Hd _]; try eassumption. split; assumption.
Qed.
Print Assumptions merge_safe.

(** C08: what the sink received is what the members sent, in arrival order *)
Theorem merge_order p :
  nsinks p = 1 -> resub p = false -> no_nest p = false -> c14 p = false -> late_ok p = true ->
  forall n, 1 <= n ->
  forall c : cfg (merge_op n), reach p g_std c -> data_out 0 (trace c) = all_in (trace c).
Proof. intros H1 H2 H3 H4 H5 n Hn c Hr. eapply order; eassumption. Qed.
Print Assumptions merge_order.

(** C08: the sink is greeted as soon as the first member has greeted *)
Theorem merge_greets p :
  nsinks p = 1 -> resub p = false -> no_nest p = false -> c14 p = false -> late_ok p = true ->
  forall n, 1 <= n ->
  forall c : cfg (merge_op n), reach p g_std c ->
  (exists i, i < n /\ us (ms c) i <> UNone /\ us (ms c) i <> USubd) -> sk (ms c) 0 <> SNone.
Proof. intros H1 H2 H3 H4 H5 n Hn c Hr. eapply greets; eassumption. Qed.
Print Assumptions merge_greets.

(** C08: the output stays live only while some member has not ended, and once all
    members have ended (by Terminate or Error) the sink has been told so *)
Theorem merge_completes p :
  nsinks p = 1 -> resub p = false -> no_nest p = false -> c14 p = false -> late_ok p = true ->
  forall n, 1 <= n ->
  forall c : cfg (merge_op n), reach p g_std c ->
  (sk (ms c) 0 = SLive -> exists i, i < n /\ us (ms c) i <> UEnded) /\
  ((forall i, i < n -> us (ms c) i = UEnded) -> sk (ms c) 0 = SFinished).
Proof.
  intros H1 H2 H3 H4 H5 n Hn c Hr. split.
  - eapply completes_live; eassumption.
  - eapply completes_fin; eassumption.
Qed.
Print Assumptions merge_completes.

(** ** Sanity: the theorems are not vacuous.  Two nested scripts for n = 2 are enabled
    move by move (so they lie inside [reach]): a late greeter after the sink disposed
    inside a data delivery inside a Pull inside its greeting inside the subscription
    loop; and a member answering a Pull with an Error inside the broadcast loop. *)
Definition p_merge : mparams :=
  {| nsinks := 1; late_ok := true; pullable := false; one_pull := false;
     resub := false; no_nest := false; c14 := false |}.

Definition script_late : list move :=
  [MIn (ISub 0 0); MRet; MIn (IDn 1 DH); MIn (IUp 0 UP); MIn (IDn 1 (DD (VN 7)));
   MIn (IUp 0 UT); MRet; MRet; MRet; MRet; MRet; MIn (IDn 0 DH); MRet].

Definition script_err : list move :=
  [MIn (ISub 0 0); MIn (IDn 0 DH); MRet; MRet; MIn (IDn 1 DH); MRet;
   MIn (IUp 0 UP); MIn (IDn 0 (DE 100)); MRet; MRet; MRet].

Example script_late_enabled :
  all_enabled p_merge g_std (cfg0 (merge_op 2)) script_late = true.
Proof. vm_compute. reflexivity. Qed.

Example script_err_enabled :
  all_enabled p_merge g_std (cfg0 (merge_op 2)) script_err = true.
Proof. vm_compute. reflexivity. Qed.

Example script_late_end :
  let c := run p_merge (merge_op 2) script_late in
  (viols (ms c), sk (ms c) 0, us (ms c) 0, us (ms c) 1, stack c) =
  ([], SDisposed, UStopped, UStopped, []).
Proof. vm_compute. reflexivity. Qed.

Example script_err_end :
  let c := run p_merge (merge_op 2) script_err in
  (viols (ms c), sk (ms c) 0, us (ms c) 0, us (ms c) 1, stack c) =
  ([], SFinished, UEnded, UStopped, []).
Proof. vm_compute. reflexivity. Qed.
