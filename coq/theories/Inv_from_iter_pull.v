(** * Inv_from_iter_pull: property C14 (demand conservation) for from_iter in
      the pull regime, read off the invariant of Inv_from_iter.v.

    from_iter has no upstream, so of the three C14 checks only [VOverData]
    (never more Data than Pulls) and [VUnanswered] (at a quiescent point with
    the sink live every Pull has been answered by a Data) are at stake.
    Nothing here depends on [no_nest], [resub] or [pullable]. *)
From CB Require Import ProofLib Spec Inv_from_iter.

Set Implicit Arguments.

Section FromIterPull.
  Variable p : mparams.

  Definition is_base (st : list (fi_fr * call)) : Prop :=
    st = [] \/ st = [(FiDone, CDn 0 DH)].

  Lemma base_nil : is_base []. Proof. now left. Qed.
  Lemma base_hs : is_base [(FiDone, CDn 0 DH)]. Proof. now right. Qed.

  (** a quiescent point: no upstream port, no error due; if the sink is live
      every Pull must have been answered *)
  Lemma quiet m :
    ports m = [] -> (forall s, err_due m s = None) ->
    (sk m 0 = SLive -> npull m 0 = ndata m 0) -> check_quiescent p m = [].
  Proof.
    intros H1 H2 H3. apply quiescent_nil.
    - intros _ _ i Hi. rewrite H1 in Hi. destruct Hi.
    - exact H2.
    - intros _ Hl _. exact (H3 Hl).
  Qed.
End FromIterPull.

(** Regime: one sink, no resubscription, C14 counts on,
    upstreams only answer Pulls (vacuous here), sinks send at most one Pull per
    message received, guard [g_std]. *)

(** C14 for from_iter, whatever [no_nest] is: no unrequested Data, no
    unanswered Pull (and none of the C01-C05, C15, C17 violations either) *)
Theorem from_iter_safe_pull_any (it : nat -> option val) p :
  nsinks p = 1 -> resub p = false ->
  c14 p = true -> pullable p = true -> one_pull p = true ->
  forall c : cfg (from_iter_op it), reach p g_std c -> viols (ms c) = [] /\ dead c = false.
Proof.
  intros H1 _ _ _ H6 c Hr. pose proof (inv_reach_any H1 (fun _ => H6) Hr) as HI.
  split; [apply (i_base HI) | apply (i_dead HI)].
Qed.
Print Assumptions from_iter_safe_pull_any.

(** the pull regime as PROOF_GUIDE.md defines it ([no_nest p = false]) *)
Theorem from_iter_safe_pull (it : nat -> option val) p :
  nsinks p = 1 -> resub p = false -> no_nest p = false ->
  c14 p = true -> pullable p = true -> one_pull p = true ->
  forall c : cfg (from_iter_op it), reach p g_std c -> viols (ms c) = [] /\ dead c = false.
Proof. intros H1 H2 _. now apply from_iter_safe_pull_any. Qed.
Print Assumptions from_iter_safe_pull.

(** the same with the C15 check switched on ([no_nest p = true]) *)
Theorem from_iter_safe_pull_nonest (it : nat -> option val) p :
  nsinks p = 1 -> resub p = false -> no_nest p = true ->
  c14 p = true -> pullable p = true -> one_pull p = true ->
  forall c : cfg (from_iter_op it), reach p g_std c -> viols (ms c) = [] /\ dead c = false.
Proof. intros H1 H2 _. now apply from_iter_safe_pull_any. Qed.
Print Assumptions from_iter_safe_pull_nonest.

(** the demand-conservation equations themselves, while the sink is live; at a
    quiescent point with the sink live they give [npull = ndata] *)
Theorem from_iter_counts_pull (it : nat -> option val) p :
  nsinks p = 1 -> resub p = false ->
  c14 p = true -> pullable p = true -> one_pull p = true ->
  forall c : cfg (from_iter_op it), reach p g_std c -> sk (ms c) 0 = SLive ->
    ndata (ms c) 0 + (if fi_got_pull (cst c) then 1 else 0) = npull (ms c) 0 /\
    credit (ms c) 0 + (if fi_got_pull (cst c) then 1 else 0) = 1 /\
    (stack c = [] -> fi_got_pull (cst c) = false /\ npull (ms c) 0 = ndata (ms c) 0).
Proof.
  intros H1 _ H4 _ H6 c Hr Hl. pose proof (inv_reach_any H1 (fun _ => H6) Hr) as HI.
  destruct (i_cnt HI H4 Hl) as [Hn Hco]. unfold flag in Hn.
  split; [exact Hn|]. split; [lia|].
  intros Hst.
  assert (Hil : fi_in_loop (cst c) = false).
  { destruct (i_shape HI) as (b & Hb & [(Hil & _) | [(_ & _ & v0 & Hs) | (_ & _ & Hs)]]);
      [exact Hil | rewrite Hst in Hs; discriminate | rewrite Hst in Hs; discriminate]. }
  pose proof (i_gp HI Hl Hil) as Hgp. rewrite Hgp in Hn. split; [exact Hgp | lia].
Qed.
Print Assumptions from_iter_counts_pull.

(** coalescing cannot happen in this regime: while a Pull is pending in
    [fi_got_pull] the sink has no credit, so a further Pull is not a conformant
    move *)
Theorem from_iter_no_coalescing (it : nat -> option val) p :
  nsinks p = 1 -> resub p = false ->
  c14 p = true -> pullable p = true -> one_pull p = true ->
  forall c : cfg (from_iter_op it), reach p g_std c ->
    fi_got_pull (cst c) = true -> enabled p g_std c (MIn (IUp 0 UP)) = false.
Proof.
  intros H1 _ H4 _ H6 c Hr Hgp.
  destruct (enabled p g_std c (MIn (IUp 0 UP))) eqn:He; [exfalso | reflexivity].
  destruct (en_up _ _ _ _ _ He) as (_ & Hsk & Hcr). specialize (Hcr eq_refl H6).
  destruct (i_cnt (inv_reach_any H1 (fun _ => H6) Hr) H4 Hsk) as [Hn Hco].
  rewrite Hgp in Hn. unfold flag in Hn. lia.
Qed.
Print Assumptions from_iter_no_coalescing.

Module FromIterPullSanity.
  Definition ex_it (k : nat) : option val := if k <? 2 then Some (VN k) else None.
  Definition pp (nn : bool) : mparams :=
    {| nsinks := 1; late_ok := false; pullable := true; one_pull := true;
       resub := false; no_nest := nn; c14 := true |}.

  (** a conformant script of the pull regime that exercises the trampoline:
      the sink pulls from inside the Handshake delivery, pulls again from
      inside the first Data delivery (only the flag is set; the outer loop
      serves it after that delivery returned), the run becomes quiescent with
      the sink live and npull = ndata = 2, and the third Pull gets Terminate *)
  Definition script : list move :=
    [MIn (ISub 0 0); MIn (IUp 0 UP); MIn (IUp 0 UP); MRet; MRet; MRet].
  Definition script2 : list move := script ++ [MIn (IUp 0 UP); MRet].

  Example script_ok nn :
    all_enabled (pp nn) g_std (cfg0 (from_iter_op ex_it)) script = true /\
    let c := run (pp nn) (from_iter_op ex_it) script in
    stack c = [] /\ sk (ms c) 0 = SLive /\ data_out 0 (trace c) = [VN 0; VN 1] /\
    npull (ms c) 0 = 2 /\ ndata (ms c) 0 = 2 /\ viols (ms c) = [].
  Proof. destruct nn; vm_compute; repeat split; reflexivity. Qed.

  Example script2_ok nn :
    all_enabled (pp nn) g_std (cfg0 (from_iter_op ex_it)) script2 = true /\
    let c := run (pp nn) (from_iter_op ex_it) script2 in
    stack c = [] /\ sk (ms c) 0 = SFinished /\ data_out 0 (trace c) = [VN 0; VN 1] /\
    npull (ms c) 0 = 3 /\ ndata (ms c) 0 = 2 /\ viols (ms c) = [].
  Proof. destruct nn; vm_compute; repeat split; reflexivity. Qed.

  (** from_iter coalesces Pulls: two Pulls sent from inside the same Data
      delivery set the one flag [fi_got_pull] and are served by one item.  The
      script below does that.  It is conformant as soon as [one_pull] is
      dropped, and then ends quiescent with the sink live, npull = 3 and
      ndata = 2: [VUnanswered 0].  In the pull regime its fourth move (the
      second Pull in a row) is not enabled, which is what
      [from_iter_no_coalescing] says in general. *)
  Definition coalescing_script : list move :=
    [MIn (ISub 0 0); MIn (IUp 0 UP); MIn (IUp 0 UP); MIn (IUp 0 UP); MRet; MRet; MRet].
  Definition p_many : mparams :=
    {| nsinks := 1; late_ok := false; pullable := true; one_pull := false;
       resub := false; no_nest := false; c14 := true |}.

  Example coalescing_without_one_pull :
    all_enabled p_many g_std (cfg0 (from_iter_op ex_it)) coalescing_script = true /\
    let c := run p_many (from_iter_op ex_it) coalescing_script in
    stack c = [] /\ sk (ms c) 0 = SLive /\ npull (ms c) 0 = 3 /\ ndata (ms c) 0 = 2 /\
    viols (ms c) = [VUnanswered 0].
  Proof. vm_compute. repeat split; reflexivity. Qed.

  Example coalescing_not_conformant_in_pull_regime :
    all_enabled (pp false) g_std (cfg0 (from_iter_op ex_it)) coalescing_script = false /\
    all_enabled (pp false) g_std (cfg0 (from_iter_op ex_it)) (firstn 3 coalescing_script) = true.
  Proof. vm_compute. split; reflexivity. Qed.
End FromIterPullSanity.
