(** * Inv_threads_takemerge_fine: C19 for take(max) behind merge! at the granularity of EVERY
      shared-state access (ThreadsTakeMergeFine.v), over ALL schedules, modulo the finding KF4.

    The statements hold for every max, n, all queues, ALL endings (any number of failing members) and
    every state reachable by any interleaving of [xf_step max n].

    Method as in Inv_threads_takemerge.v: each invariant is preserved by [xf_step max n s t], by cases
    of the stepping thread's program counter ([xf_cases]).
    - [Pub]   a member at XfAtPublish has an empty cell and is not stopped (a cell is set only by its
              owner's XfAtPublish, once); threads >= n never start;
    - [Tal]   taken = #data begun <= max; #Terminate to member j = b2n (stopped j); stopped j => cell j
              empty;
    - [End1]  the terminal message ([one_end]): a thread at XfAtTakeTbLoad / XfAtMgEnded / XfAtSweepT _
              has set take's [end] flag and no terminal has begun; at most one such thread;
              #terminals <= b2n tend, with equality when there is none and no panic;
    - [Tick]  the ticket argument ([ticket]): taken = max /\ tend unset => a thread is at
              XfInData max / XfAtEndSwap;
    - [Grt]   a greeting in the trace => take's cell is set; a thread at XfInData / XfAtEndSwap /
              XfAtTakeTbLoad => a datum was begun; before_greet_ok => no panic. *)

From CB Require Import Threads ThreadSpec ThreadsFine ThreadsTakeMergeFine ThreadFacts
  Inv_threads_total.
From Coq Require Import List Arith Lia Bool.
Import ListNotations.

Set Implicit Arguments.

#[local] Arguments count : simpl never.

Inductive xf_reach (max n : nat) (qs : nat -> list val) (fins : nat -> final) : xf_state -> Prop :=
| xfr0 : xf_reach max n qs fins (xf_init n qs fins)
| xfrS s t : xf_reach max n qs fins s -> xf_reach max n qs fins (xf_step max n s t).

Theorem takemerge_fine_kf4_witness :
  let qs := fun t => match t with 0 => [VN 6; VN 9; VN 3] | 1 => [VN 5; VN 1; VN 6] | _ => [] end in
  let s := run_full (xf_step 1 3) xf_finished 3 [2;0;1;2;1;1;0;0;0] 400 (xf_init 3 qs (fun _ => FinNone)) in
  existsb is_panic (xfs_tr s) = true /\ before_greet_ok (rev (xfs_tr s)) = false
  /\ In TvPanic (takemerge_check 1 (rev (xfs_tr s))).
Proof. vm_compute. repeat split; auto. Qed.

Print Assumptions takemerge_fine_kf4_witness.

Example takemerge_fine_example :
  let qs := fun t => match t with 0 => [VN 1] | _ => [] end in
  let fins := fun t => match t with 1 => FinErr 101 | _ => FinTerm end in
  let s := run_full (xf_step 1 2) xf_finished 2 [0;0;0;0;0;0;1;1;1;0;0;0;0;0;0;0;0] 400 (xf_init 2 qs fins) in
  (forall t, t < 2 -> xf_finished s t = true) /\ before_greet_ok (rev (xfs_tr s)) = true
  /\ takemerge_check 1 (rev (xfs_tr s)) = [].
Proof.
  cbv zeta. split; [|split].
  - intros t Ht. destruct t as [|[|t]]; [vm_compute; reflexivity | vm_compute; reflexivity | lia].
  - vm_compute. reflexivity.
  - vm_compute. reflexivity.
Qed.

Notation XS := mk_xf_state.
Notation XT := mk_xf_thread.

(** what [xf_next] makes of a thread *)
Definition nxt (sp : bool) (q : list val) (f : final) : xf_thread :=
  if sp then XT XfFinished q f
  else match q with
       | v :: q' => XT (XfAtTaken v) q' f
       | [] => XT (match f with
                   | FinTerm => XfAtClear | FinErr e => XfAtEndedStore e | FinNone => XfFinished
                   end) [] f
       end.

Lemma nxt_pcs (P : xf_pc -> Prop) sp q f :
  P XfFinished -> (forall v, P (XfAtTaken v)) -> P XfAtClear -> (forall e, P (XfAtEndedStore e)) ->
  P (xf_pcv (nxt sp q f)).
Proof.
  intros H1 H2 H3 H4. unfold nxt. destruct sp; [exact H1|]. destruct q; [|exact (H2 _)].
  destruct f; [exact H3 | exact (H4 _) | exact H1].
Qed.

Lemma xf_next_eq s t pc q f : xf_next s t (XT pc q f) = xf_set s t (nxt (xfs_stopped s t) q f).
Proof.
  unfold xf_next, nxt. cbn. destruct (xfs_stopped s t); [reflexivity|].
  destruct q; [|reflexivity]. destruct f; reflexivity.
Qed.

Ltac xf_red H :=
  cbv beta iota zeta delta [set xf_set xf_emit xf_dispose xfs_start xfs_endc xfs_ended xfs_cell xfs_stopped
                            xfs_taken xfs_tend xfs_ttb xfs_th xfs_tr] in H;
  cbn [xf_pcv xf_q xf_fin] in H.

Ltac xf_proj :=
  cbn [xfs_start xfs_endc xfs_ended xfs_cell xfs_stopped xfs_taken xfs_tend xfs_ttb xfs_th xfs_tr
       xf_pcv xf_q xf_fin] in *.

(* [xf_next] in [Es], by its equation; found by matching, because a [rewrite ?] that fails is dear *)
Ltac xf_nxt Es :=
  repeat match type of Es with
         | context [xf_next ?a ?b (XT ?p ?q ?f)] => rewrite (xf_next_eq a b p q f) in Es
         end;
  xf_red Es.

(* One goal per branch of [xf_step max n (XS ..) t], where [Hth : th t = XT pc q f]; the guards of
   the branch are in the context, the step's result is an explicit record. *)
Ltac xf_cases Hth :=
  match goal with
  | |- context [xf_step ?max ?n ?s ?t] =>
      let s' := fresh "s'" in let Es := fresh "Es" in
      remember (xf_step max n s t) as s' eqn:Es;
      unfold xf_step, xf_sweepT_goto, xf_sweepE_goto in Es; cbn [xfs_th] in Es; rewrite Hth in Es;
      cbn [xf_pcv] in Es;
      match type of Hth with _ = XT ?pc _ _ => destruct pc end;
      xf_red Es; xf_nxt Es;
      repeat match type of Es with context [if ?b then _ else _] =>
        destruct b eqn:?; xf_nxt Es end;
      subst s'; xf_proj
  end.

Definition pcof (s : xf_state) (t : nat) : xf_pc := xf_pcv (xfs_th s t).

(* [xf_cases] after making [s] ([xf_opened]: already a record) and the record of thread [t] explicit *)
Ltac xf_opened t :=
  unfold pcof in *; xf_proj;
  match goal with th : nat -> xf_thread |- _ => destruct (th t) as [pc q f] eqn:Hth; xf_proj; xf_cases Hth end.
Ltac xf_open s t := destruct s as [st ec en cell stp tk te ttb th tr]; xf_opened t.

(** ** The runs end: weight of the queue plus rank of the program counter ([Ranked],
    Inv_threads_total.v); both sweeps only move forward.  The table follows the program backwards; a
    sweep at cell [j] has [n - j] cells to go, which is why the ranks above a sweep carry an [n], and an
    item weighs [n + n + 12], one more than the top rank *)

Section TakeMergeFineTotal.
  Variable max : nat.
  Variable n : nat.

  Definition xf_rank (pc : xf_pc) : nat :=
    match pc with
    | XfFinished => 0
    | XfInTermAll | XfInErr => 1
    | XfAtEndSwapT | XfAtEndSwapE _ => 2
    | XfAtEndInc => 3
    | XfAtClear => 4
    | XfAtSweepE _ j => (n - j) + 3
    | XfAtEndedStore _ => n + 4
    | XfInTerm | XfInGreet | XfAtSelfSwap => n + 5
    | XfAtTakeTbStore => n + 6
    | XfAtStartInc => n + 7
    | XfAtEndedLoad => n + 8
    | XfAtPublish => n + 9
    | XfAtSweepT j => (n - j) + n + 6
    | XfAtMgEnded => n + n + 7
    | XfAtTakeTbLoad => n + n + 8
    | XfAtEndSwap => n + n + 9
    | XfInData _ => n + n + 10
    | XfAtTaken _ => n + n + 11
    end.

  Definition xf_done (x : xf_thread) : bool := match xf_pcv x with XfFinished => true | _ => false end.

  Notation xf_shape :=
    (shape xfs_th xf_done (fun x => length (xf_q x) * (n + n + 12)) (fun _ => True)
       (fun _ x => xf_rank (xf_pcv x))).

  Lemma xf_next_shape s s1 t x :
    xfs_th s t = x -> xfs_th s1 = xfs_th s -> n + 5 <= xf_rank (xf_pcv x) -> xf_shape s t (xf_next s1 t x).
  Proof.
    intros Eth E Hr. unfold xf_next. destruct x as [pc q f]. cbn [xf_pcv xf_q xf_fin] in *. branches.
    all: set_leaf Eth; exact E.
  Qed.

  Lemma xf_sweepT_goto_shape s s1 t x j :
    xfs_th s t = x -> xfs_th s1 = xfs_th s -> n + 5 < xf_rank (xf_pcv x) ->
    (j < n -> (n - j) + n + 6 < xf_rank (xf_pcv x)) ->
    xf_shape s t (xf_sweepT_goto n s1 t x j).
  Proof.
    intros Eth E H1 Hr. unfold xf_sweepT_goto. destruct x as [pc q f]; cbn [xf_pcv] in *.
    destruct (Nat.ltb_spec j n) as [Hlt|Hge];
      (apply shape_set;
       [ reflexivity | exact E | rewrite Eth; cbn; lia | exact (fun _ => I) | intros _ _; rewrite Eth; cbn; lia ]).
  Qed.

  Lemma xf_sweepE_goto_shape s s1 t x e j :
    xfs_th s t = x -> xfs_th s1 = xfs_th s -> 2 < xf_rank (xf_pcv x) ->
    (forall j', j <= j' -> j' < n -> (n - j') + 3 < xf_rank (xf_pcv x)) ->
    xf_shape s t (xf_sweepE_goto n s1 t x e j).
  Proof.
    intros Eth E H1 Hr. unfold xf_sweepE_goto. remember (if j =? t then S j else j) as j' eqn:Ej.
    assert (Hj : j <= j') by (subst j'; destruct (j =? t); lia).
    destruct x as [pc q f]; cbn [xf_pcv] in *.
    destruct (Nat.ltb_spec j' n) as [Hlt|Hge];
      (apply shape_set;
       [ reflexivity | exact E | rewrite Eth; cbn; lia | exact (fun _ => I) | intros _ _; rewrite Eth; cbn ]).
    - specialize (Hr j' Hj Hlt). lia.
    - lia.
  Qed.

  Lemma xf_step_shape s t : xf_shape s t (xf_step max n s t).
  Proof.
    unfold xf_step. destruct (xfs_th s t) as [pc q f] eqn:Eth. cbn [xf_pcv]. destruct pc; branches.
    all: first [ set_leaf Eth
               | eapply xf_next_shape; [exact Eth | same_th | cbn; lia]
               | eapply xf_sweepT_goto_shape; [exact Eth | same_th | cbn; lia | intros; cbn; lia]
               | eapply xf_sweepE_goto_shape; [exact Eth | same_th | cbn; lia | intros; cbn; lia]
               | apply shape_same; now rewrite Eth ].
  Qed.
End TakeMergeFineTotal.

Definition takemerge_fine_fuel (n : nat) (qs : nat -> list val) (nth : nat) : nat :=
  sum_from (fun t => length (qs t) * (n + n + 12) + (n + n + 11)) 0 nth.

Theorem takemerge_fine_run_full_total max n qs fins nth sch fuel :
  fuel >= takemerge_fine_fuel n qs nth ->
  let s := run_full (xf_step max n) xf_finished nth sch fuel (xf_init n qs fins) in
  forall t, t < nth -> xf_finished s t = true.
Proof.
  intros Hfuel s.
  apply (ranked_total _ (fun t => length (qs t) * (n + n + 12) + (n + n + 11)) (@xf_step_shape max n)
           (wmax := fun t => length (qs t) * (n + n + 12))); [| | exact Hfuel].
  - intros st x t. destruct (xf_pcv x); cbn; lia.
  - intros t. cbn. auto.
Qed.

Example takemerge_fine_fuel_driver :
  takemerge_fine_fuel 3 (fun _ => [VN 1; VN 2; VN 3; VN 4]) 3 <= 400.
Proof. vm_compute. lia. Qed.

Print Assumptions takemerge_fine_run_full_total.

Section Proofs.
  Variable max n : nat.
  Variable qs : nat -> list val.
  Variable fins : nat -> final.

  (** *** Pub: a member that has not yet published its talkback has an empty cell and is not told
      to stop; the threads that are not members never start *)
  Definition Pubc (j : nat) (p : xf_pc) (cl sp : bool) : Prop :=
    (p = XfAtPublish -> cl = false /\ sp = false) /\ (n <= j -> p = XfFinished).
  Definition Pub (s : xf_state) : Prop := forall j, Pubc j (pcof s j) (xfs_cell s j) (xfs_stopped s j).

  Lemma Pub_init : Pub (xf_init n qs fins).
  Proof.
    intros j. unfold Pubc, pcof. cbn -[Nat.ltb]. split; [auto|].
    intros Hj. destruct (Nat.ltb_spec j n); [lia|reflexivity].
  Qed.

  Lemma nxt_pub sp q f : xf_pcv (nxt sp q f) <> XfAtPublish.
  Proof. apply nxt_pcs; discriminate. Qed.

  Lemma Pub_step s t : Pub s -> Pub (xf_step max n s t).
  Proof.
    intros HP. pose proof (proj2 (HP t)) as Ho. xf_open s t; try exact HP.
    all: intros i; specialize (HP i); unfold Pubc, pcof in *; xf_proj.
    all: pw i t; [split; [intros Hp; first [discriminate Hp | now apply nxt_pub in Hp] | intros Hn; discriminate (Ho Hn)]|].
    all: try exact HP.
    (* a sweeper empties another member's full cell: that member has published *)
    all: destruct HP as [Hp Hn]; split; [|exact Hn]; intros E; destruct (Hp E) as [Hc Hs]; pw i j; [congruence|auto].
  Qed.

  Definition Tal (s : xf_state) : Prop :=
    Talc max (xfs_taken s) (xfs_cell s) (xfs_stopped s) (xfs_tr s).

  Lemma Tal_init : Tal (xf_init n qs fins).
  Proof. split; [constructor; cbn; auto; lia | discriminate]. Qed.

  Lemma Tal_step s t : Pub s -> Tal s -> Tal (xf_step max n s t).
  Proof.
    intros HP HT. pose proof (proj1 (HP t)) as Hp. unfold Tal in *.
    xf_open s t; guards; try (apply Talc_quiet; [reflexivity|]); try exact HT;
      try (now apply Talc_stop).   (* a full cell is emptied, by its member or by a sweeper *)
    - (* the member publishes its talkback *)
      apply Talc_fill; [apply Hp; reflexivity | exact HT].
    - now apply Talc_take.
    - now apply Talc_empty.
  Qed.

  (** *** End1: the sink's terminal message.  The thread between take's claim and the sink's
      Terminate reads take's talkback cell (and panics if it is empty, KF4), sets merge's [ended]
      and sweeps the cells *)
  Definition is_holder (p : xf_pc) : bool :=
    match p with XfAtTakeTbLoad | XfAtMgEnded | XfAtSweepT _ => true | _ => false end.
  Definition panicked (s : xf_state) : bool := existsb is_panic (xfs_tr s).

  Definition End1 (s : xf_state) : Prop :=
    one_end (xfs_tend s) (count is_begin_term (xfs_tr s)) (panicked s) (fun t => is_holder (pcof s t)).

  Lemma End1_init : End1 (xf_init n qs fins).
  Proof.
    apply one_end_init. intros t. unfold pcof. cbn -[Nat.ltb]. destruct (t <? n); reflexivity.
  Qed.

  Lemma nxt_holder sp q f : is_holder (xf_pcv (nxt sp q f)) = false.
  Proof. apply nxt_pcs; reflexivity. Qed.

  Lemma End1_step s t : End1 s -> End1 (xf_step max n s t).
  Proof.
    intros HE. unfold End1, panicked in *. xf_open s t; try exact HE.
    all: rewrite ?count_cons_t; cbn [is_begin_term snd b2n Nat.add].
    all: try solve [ eapply one_end_frame with (t := t); [upd_others t | exact HE | | ];
                     [ cbn [existsb is_panic snd orb]; auto
                     | cbn beta; rewrite upd_same, Hth, ?nxt_holder; reflexivity ] ].
    all: try solve [ eapply one_end_leave with (t := t);
                     [upd_others t | exact HE | cbn beta; now rewrite Hth | cbn beta; now rewrite upd_same | ];
                     first [left; reflexivity | right; split; reflexivity] ].
    - (* the holder of the last ticket finds the flag unset *)
      eapply one_end_enter with (t := t); [upd_others t | exact HE | cbn beta; now rewrite upd_same].
    - eapply one_end_set with (t := t); [upd_others t | exact HE | cbn beta; now rewrite upd_same].
    - eapply one_end_set with (t := t); [upd_others t | exact HE | cbn beta; now rewrite upd_same].
  Qed.

  Definition is_hpc (p : xf_pc) : bool :=
    match p with XfInData t' => Nat.eqb t' max | XfAtEndSwap => true | _ => false end.

  Definition Tick (s : xf_state) : Prop :=
    ticket max (xfs_taken s) (xfs_tend s) (fun t => is_hpc (pcof s t)).

  Lemma Tick_init : Tick (xf_init n qs fins).
  Proof. intros H1 H2. cbn in H2. lia. Qed.

  Lemma nxt_hpc sp q f : is_hpc (xf_pcv (nxt sp q f)) = false.
  Proof. apply nxt_pcs; reflexivity. Qed.

  Lemma Tick_step s t : Tick s -> Tick (xf_step max n s t).
  Proof.
    intros HT. unfold Tick in *. xf_open s t; try exact HT.
    all: try solve [ eapply ticket_frame with (t := t); [upd_others t | exact HT | auto | ];
                     cbn beta; rewrite upd_same, Hth; cbn [xf_pcv is_hpc]; intros Hh;
                     first [discriminate Hh | congruence | left; reflexivity | right; reflexivity] ].
    (* a ticket is taken *)
    intros _ Hm. right. exists t. rewrite upd_same. cbn [xf_pcv is_hpc]. now apply Nat.eqb_eq.
  Qed.

  Definition in_deliv (p : xf_pc) : bool :=
    match p with XfInData _ | XfAtEndSwap | XfAtTakeTbLoad => true | _ => false end.

  Record Grt (s : xf_state) : Prop := {
    c_greet : 1 <= count is_begin_greet (xfs_tr s) -> xfs_ttb s = true;
    c_data : forall t, in_deliv (pcof s t) = true -> 1 <= count is_begin_data (xfs_tr s);
    c_panic : before_greet_ok (rev (xfs_tr s)) = true -> panicked s = false }.

  Lemma Grt_init : Grt (xf_init n qs fins).
  Proof.
    constructor; unfold pcof; cbn -[Nat.ltb]; auto.
    - unfold count. cbn. lia.
    - intros t. destruct (t <? n); discriminate.
  Qed.

  Lemma nxt_deliv sp q f : in_deliv (xf_pcv (nxt sp q f)) = false.
  Proof. apply nxt_pcs; reflexivity. Qed.

  Lemma Grt_step s t : Grt s -> Grt (xf_step max n s t).
  Proof.
    intros HG. xf_open s t; try exact HG.
    all: destruct HG as [Hg Hd Hp]; constructor; unfold pcof, panicked in *; xf_proj; rewrite ?count_cons_t;
      cbn [is_begin_greet is_begin_data snd b2n Nat.add].
    (* the greeting: take's cell is set before it *)
    all: try exact Hg; try (intros _; reflexivity).
    (* a thread in a delivery has begun a datum *)
    all: try (intros i; pw i t;
              [ rewrite ?nxt_deliv; cbn [xf_pcv in_deliv]; intros Hi; try discriminate Hi;
                first [lia | apply (Hd t); rewrite Hth; reflexivity]
              | intros Hi; specialize (Hd i Hi); lia ]).
    (* no panic *)
    all: cbn [rev]; intros Hb; repeat apply bgo_prefix in Hb; cbn [existsb is_panic snd orb]; auto.
    (* KF4: the panic is reached only if a datum was begun before the greeting *)
    exfalso. assert (H1 : 1 <= count is_begin_greet tr).
    { rewrite <- (count_rev is_begin_greet). apply bgo_data_greet; [exact Hb|]. rewrite count_rev.
      apply (Hd t). now rewrite Hth. }
    specialize (Hg H1). congruence.
  Qed.

  Definition Inv (s : xf_state) : Prop := Pub s /\ Tal s /\ End1 s /\ Tick s /\ Grt s.

  Lemma Inv_init : Inv (xf_init n qs fins).
  Proof.
    split; [apply Pub_init|]. split; [apply Tal_init|]. split; [apply End1_init|].
    split; [apply Tick_init | apply Grt_init].
  Qed.

  Lemma Inv_step s t : Inv s -> Inv (xf_step max n s t).
  Proof.
    intros (HP & HT & HE & HK & HG).
    split; [now apply Pub_step|]. split; [now apply Tal_step|]. split; [now apply End1_step|].
    split; [now apply Tick_step | now apply Grt_step].
  Qed.

  Lemma reach_inv s : xf_reach max n qs fins s -> Inv s.
  Proof. induction 1; [apply Inv_init | now apply Inv_step]. Qed.

  Theorem takemerge_fine_safe s : xf_reach max n qs fins s ->
    count is_begin_data (xfs_tr s) <= max
    /\ count is_begin_term (xfs_tr s) <= 1
    /\ (forall j, count (is_up_term_of j) (xfs_tr s) <= 1).
  Proof.
    intros Hr. destruct (reach_inv Hr) as (_ & ([Ha Hb Hc] & _) & HE & _ & _).
    split; [|split].
    - now rewrite <- Ha.
    - eapply Nat.le_trans; [exact (e_le HE)|apply b2n_le1].
    - intros j. rewrite Hc. apply b2n_le1.
  Qed.

  Theorem takemerge_fine_panic_only_kf4 s : xf_reach max n qs fins s ->
    before_greet_ok (rev (xfs_tr s)) = true -> existsb is_panic (xfs_tr s) = false.
  Proof. intros Hr. destruct (reach_inv Hr) as (_ & _ & _ & _ & [_ _ Hp]). exact Hp. Qed.

  Lemma finished_pc s : Pub s -> (forall t, t < n -> xf_finished s t = true) ->
    forall t, pcof s t = XfFinished.
  Proof.
    intros HP. apply members_finished; [|apply HP].
    intros t. unfold xf_finished, pcof. now destruct (xf_pcv (xfs_th s t)).
  Qed.

  Lemma quiet_tend s : 1 <= max -> Inv s -> (forall t, t < n -> xf_finished s t = true) ->
    max <= count is_begin_data (xfs_tr s) -> xfs_tend s = true.
  Proof.
    intros Hpos (HP & ([Ha Hb _] & _) & _ & HK & _) Hfin Hmax.
    assert (Hm : xfs_taken s = max) by lia.
    destruct (HK Hpos Hm) as [Ht|[t Ht]]; [exact Ht|]. rewrite (finished_pc HP Hfin) in Ht. discriminate.
  Qed.

  Theorem takemerge_fine_complete s : 1 <= max -> xf_reach max n qs fins s ->
    (forall t, t < n -> xf_finished s t = true) -> before_greet_ok (rev (xfs_tr s)) = true ->
    max <= count is_begin_data (xfs_tr s) -> count is_begin_term (xfs_tr s) = 1.
  Proof.
    intros Hpos Hr Hfin Hbg Hmax. pose proof (reach_inv Hr) as HI.
    pose proof (quiet_tend Hpos HI Hfin Hmax) as Hte.
    destruct HI as (HP & _ & HE & _ & HG).
    rewrite (e_eq HE), Hte; [reflexivity| |exact (c_panic HG Hbg)].
    intros t. cbn beta. now rewrite (finished_pc HP Hfin).
  Qed.

  Theorem takemerge_fine_final s : 1 <= max -> xf_reach max n qs fins s ->
    (forall t, t < n -> xf_finished s t = true) -> before_greet_ok (rev (xfs_tr s)) = true ->
    takemerge_check max (rev (xfs_tr s)) = [].
  Proof.
    intros Hpos Hr Hfin Hbg. destruct (takemerge_fine_safe Hr) as (H1 & H2 & H3).
    apply takemerge_check_nil; auto.
    - now apply takemerge_fine_panic_only_kf4.
    - now apply takemerge_fine_complete.
  Qed.
End Proofs.

Lemma takemerge_fine_run_full_reach max n qs fins nth sch fuel :
  xf_reach max n qs fins (run_full (xf_step max n) xf_finished nth sch fuel (xf_init n qs fins)).
Proof. apply run_full_inv; [intros s t; apply xfrS | apply xfr0]. Qed.

Corollary takemerge_fine_driver_final max n qs fins nth sch fuel : 1 <= max ->
  let s := run_full (xf_step max n) xf_finished nth sch fuel (xf_init n qs fins) in
  (forall t, t < n -> xf_finished s t = true) -> before_greet_ok (rev (xfs_tr s)) = true ->
  takemerge_check max (rev (xfs_tr s)) = [].
Proof. intros Hpos s Hf Hb. apply takemerge_fine_final with (n := n) (qs := qs) (fins := fins); auto. apply takemerge_fine_run_full_reach. Qed.

Print Assumptions takemerge_fine_safe.
Print Assumptions takemerge_fine_panic_only_kf4.
Print Assumptions takemerge_fine_complete.
Print Assumptions takemerge_fine_final.
Print Assumptions takemerge_fine_run_full_reach.
Print Assumptions takemerge_fine_driver_final.
Print Assumptions takemerge_fine_example.
