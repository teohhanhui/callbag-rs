(** * PullReturns: in an open pipeline over a FINITE input, control always comes back to the sink.

    PullPrograms.v proves the safety half of C14 for the open net [NQ it stages]
    (from_iter -> stages, the environment is the sink of the last stage and sends at most one Pull
    per message it received): no over-delivery, and at rest every Pull has been answered.  This file
    proves the liveness half for a finite input [xs]: from EVERY state of a disciplined run the
    pending internal transfers finish after finitely many steps - at most [returns_max], a function
    of [length xs] and [length stages] alone - and the environment has the turn again
    ([program_returns]).  So a Pull is answered (or the end is reported) "without further prompting".

    The argument is the counting argument of LivenessG.v (Section [Run], with the disciplined runs
    as the set of states; the data of every node are a prefix of [xs] pushed through
    length-non-increasing stages). *)

From CB Require Import ProofLib Spec Chain Programs Flow FlowLists LivenessG PullPrograms.

Set Implicit Arguments.

Section Returns.
  Variable xs : list val.
  Variable it : nat -> option val.
  Hypothesis Hit : forall k, it k = nth_error xs k.
  Variable stages : list ustage.
  Hypothesis Hok : Forall ustage_ok stages.

  Local Notation NQ := (NQ it stages).
  Local Notation preach := (preach it stages).

  Lemma q_data N : preach N ->
    forall n0, nth_error (nodes N) 0 = Some n0 -> dout (ntrace n0) <= length xs.
  Proof.
    intros Hp n0 Hn. pose proof (preach_reach Hp) as Hr. rewrite dout_data_out.
    exact (prefix_length (nr_prefix xs Hit (p_src_at Hok Hr Hn) (p_reach Hok _ Hr Hn))).
  Qed.

  (** *** Every node makes a bounded number of calls, in every state of every disciplined run *)

  Definition calls_max : nat := 2 * length xs + 5.

  Theorem program_calls_bounded N : preach N ->
    forall i n, nth_error (nodes N) i = Some n -> n_call (ntrace n) <= calls_max.
  Proof.
    intros Hp i n Hn.
    exact (calls_le Hok preach (@preach_reach it stages)
             (fun N Hp n Hn => preach_one_pull Hok Hp _ Hn) q_data N i Hp Hn).
  Qed.

  (** one more than the bound of [phi_le] for [length stages + 1] nodes *)
  Definition returns_max : nat := 2 * (S (length stages) * calls_max) + 2.

  (** from every state of a disciplined run, at most [returns_max] internal transfers (no
      environment move) bring the turn back to the environment; every state on the way is a state
      of a disciplined run *)
  Theorem program_returns_bound N : preach N ->
    exists m, m <= returns_max /\ pend (taus m N) = PIdle /\ preach (taus m N).
  Proof.
    intros Hp.
    destruct (rests_from Hok preach (@preach_reach it stages) (@preach_tau it stages)
                (fun N Hp n Hn => preach_one_pull Hok Hp _ Hn) q_data returns_max N Hp)
      as (m & Hm & Hpd); [unfold returns_max, calls_max, ptop; cbn; lia|].
    exists m. split; [exact Hm|]. split; [exact Hpd|].
    exact (R_taus preach (@preach_tau it stages) m N Hp).
  Qed.

  Theorem program_returns N : preach N ->
    exists m, pend (taus m N) = PIdle /\ preach (taus m N).
  Proof.
    intros Hp. destruct (program_returns_bound Hp) as (m & _ & H1 & H2). exists m. now split.
  Qed.

End Returns.

Print Assumptions program_calls_bounded.
Print Assumptions program_returns_bound.
Print Assumptions program_returns.

(** the same for the iterator of a list, as [from_iter(xs)] is modelled *)
Corollary program_returns_list (xs : list val) (stages : list ustage) :
  Forall ustage_ok stages ->
  forall N, preach (fun k => nth_error xs k) stages N ->
    exists m, m <= returns_max xs stages /\ pend (taus m N) = PIdle /\
              preach (fun k => nth_error xs k) stages (taus m N).
Proof. intros Hok N Hp. exact (program_returns_bound xs (fun k => eq_refl) Hok Hp). Qed.

Print Assumptions program_returns_list.

(** ** Non-vacuity: pipe!(from_iter([7]), map(id)) - after the sink subscribes, a transfer is pending
    (the subscription travels to from_iter); two transfers later the sink is being greeted and has
    the turn; it Pulls from inside the greeting, and two transfers later it is handed the datum. *)
Module PullReturnsSanity.
  Definition r_xs : list val := [VN 7].
  Definition r_it (k : nat) : option val := nth_error r_xs k.
  Definition r_stages : list ustage := [UMap (fun v => v)].
  Definition r_script1 : list nmove := [NEnv 1 (MIn (ISub 0 0))].
  Definition r_script2 : list nmove := r_script1 ++ [NTau; NTau; NEnv 1 (MIn (IUp 0 UP))].
  Definition r_N1 : net := net_run (NQ r_it r_stages) r_script1.
  Definition r_N2 : net := net_run (NQ r_it r_stages) r_script2.

  Example r_enabled : net_all_disc (NQ r_it r_stages) r_script2 = true.
  Proof. vm_compute. reflexivity. Qed.

  Definition idle (N : net) : bool := match pend N with PIdle => true | _ => false end.

  Example r_pending :
    idle r_N1 = false /\ idle (taus 1 r_N1) = false /\ idle (taus 2 r_N1) = true /\
    idle r_N2 = false /\ idle (taus 1 r_N2) = false /\ idle (taus 2 r_N2) = true /\
    option_map (fun n => dn_out (ntrace n)) (nth_error (nodes (taus 2 r_N2)) 1)
      = Some [DH; DD (VN 7)] /\
    returns_max r_xs r_stages = 30.
  Proof. vm_compute. repeat split. Qed.

  (** [r_N2] (a Pull is travelling to from_iter) is a state of a disciplined run, so
      [program_returns_bound] applies to it; the 2 transfers computed above are within its bound *)
  Example r_preach : preach r_it r_stages (net_run (NQ r_it r_stages) r_script2).
  Proof.
    exact (@preach_run r_it r_stages (NQ r_it r_stages) r_script2 (preach0 r_it r_stages) r_enabled).
  Qed.

  Lemma r_ok : Forall ustage_ok r_stages.
  Proof. repeat constructor. Qed.

  Example r_returns :
    exists m, m <= returns_max r_xs r_stages /\
      pend (taus m (net_run (NQ r_it r_stages) r_script2)) = PIdle /\
      preach r_it r_stages (taus m (net_run (NQ r_it r_stages) r_script2)).
  Proof. exact (@program_returns_bound r_xs r_it (fun k => eq_refl) r_stages r_ok _ r_preach). Qed.
End PullReturnsSanity.

