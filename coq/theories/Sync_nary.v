(** * Sync_nary: merge!, concat!, combine! as nodes of a tree whose members greet synchronously

    [Tree.tree_sound] needs, for a child of a parent with [late_ok = false], the property
    [greets_sync_sig]: subscribed and not yet greeted => the stack of pending calls is not
    empty.  In a tree every node runs in the regime [late_ok p = false].

    Two facts of MonitorFacts.v about any component: with [late_ok p = false] an upstream that
    is subscribed and has not greeted is the callee of a pending [CSub] call, whose return is only
    enabled once it has greeted ([subd_pending]); a component whose [ISub] handler begins by
    subscribing member 0 has [us 0 <> UNone] once subscribed ([subd_us]).  With these:
    - merge: not greeted => [mg_start = 0] => no member has greeted (Inv_merge.Core), member
      0 is subscribed, hence [USubd], hence a [CSub 0] is pending.
    - concat: the [phase] of Inv_concat.Inv already says it (phase [PhSubd] is the only one
      with [subd] and [sk = SNone]).
    - combine: with an empty stack all [n] members are subscribed (Inv_combine.stk_ok), and
      not greeted => some member is [USubd] => a [CSub] is pending. *)
From CB Require Import ProofLib Spec MonitorFacts CountFacts Inv_merge Inv_concat Inv_combine Tree.

Set Implicit Arguments.

(** safety of merge in the regime of a tree node: members greet inside the subscribing
    call.  The invariant of Inv_merge.v holds for either value of [late_ok]. *)
Theorem merge_safe_sync p :
  nsinks p = 1 -> resub p = false -> no_nest p = false -> c14 p = false -> late_ok p = false ->
  forall n, 1 <= n ->
  forall c : cfg (merge_op n), reach p g_std c -> viols (ms c) = [] /\ dead c = false.
Proof.
  intros H1 H2 H3 H4 _ n Hn c Hr.
  destruct (Inv_merge.inv_reach Hn H1 H2 H3 H4 Hr) as [Hv Hd _]. split; assumption.
Qed.
Print Assumptions merge_safe_sync.

Theorem merge_greets_sync p n :
  nsinks p = 1 -> resub p = false -> no_nest p = false -> c14 p = false -> late_ok p = false ->
  1 <= n ->
  forall c : cfg (merge_op n), reach p g_std c ->
    subd (ms c) 0 = true -> sk (ms c) 0 = SNone -> stack c <> [].
Proof.
  intros H1 H2 H3 H4 H5 Hn c Hr Hsub Hsk Hst.
  pose proof (Inv_merge.i_core (Inv_merge.inv_reach Hn H1 H2 H3 H4 Hr)) as HC.
  assert (Hnn : us (ms c) 0 <> UNone).
  { apply (@subd_us p (merge_op n) g_std); [|exact Hr|exact Hsub].
    intros aux s. eexists _, _, _. apply (@Inv_merge.h_sub n Hn p H1). }
  assert (Hst0 : mg_start (cst c) = 0) by (now apply (Inv_merge.c_start HC)).
  assert (Hu : us (ms c) 0 = USubd).
  { destruct (us (ms c) 0) eqn:E; try reflexivity; exfalso; [now apply Hnn|..];
      (apply (Inv_merge.c_greeted HC 0); [rewrite E; discriminate..|exact Hst0]). }
  pose proof (subd_pending H5 Hr 0 Hu) as Hin. rewrite Hst in Hin. exact Hin.
Qed.
Print Assumptions merge_greets_sync.

Corollary merge_greets_sync_sig p n :
  nsinks p = 1 -> resub p = false -> no_nest p = false -> c14 p = false -> late_ok p = false ->
  1 <= n -> greets_sync_sig (merge_op n, p, g_std).
Proof. intros H1 H2 H3 H4 H5 Hn c. now apply merge_greets_sync. Qed.
Print Assumptions merge_greets_sync_sig.

(** concat, any member count (zero members: the sink is greeted and completed inside the
    subscribing activation) *)

Theorem concat_greets_sync p n :
  nsinks p = 1 -> resub p = false -> no_nest p = false -> c14 p = false -> late_ok p = false ->
  forall c : cfg (concat_op n), reach p g_std c ->
    subd (ms c) 0 = true -> sk (ms c) 0 = SNone -> stack c <> [].
Proof.
  intros H1 H2 H3 H4 H5 c Hr Hsub Hsk Hst.
  pose proof (Inv_concat.i_phase (Inv_concat.inv_reach H1 H2 H3 H4 H5 Hr)) as Hph.
  destruct Hph as [A|k rest A B C D E F|A B C D E F|A B C D|A B C D E F G|A B C D E F G];
    try congruence.
  rewrite Hsk in B. discriminate.
Qed.
Print Assumptions concat_greets_sync.

Corollary concat_greets_sync_sig p n :
  nsinks p = 1 -> resub p = false -> no_nest p = false -> c14 p = false -> late_ok p = false ->
  greets_sync_sig (concat_op n, p, g_std).
Proof. intros H1 H2 H3 H4 H5 c. now apply concat_greets_sync. Qed.
Print Assumptions concat_greets_sync_sig.

Section CombineSync.
  Variable n : nat.
  Hypothesis Hn : 1 <= n.
  Variable p : mparams.
  Hypothesis Hns : nsinks p = 1.
  Hypothesis Hresub : resub p = false.
  Hypothesis Hnonest : no_nest p = false.
  Hypothesis Hc14 : c14 p = false.
  Hypothesis Hlate : late_ok p = false.

  (** with no call pending every member is subscribed ([stk_ok]); not all have greeted; one
      that has not would be the callee of a pending call *)
  Theorem combine_sync (c : cfg (combine_op n)) :
    reach p g_std c -> subd (ms c) 0 = true -> sk (ms c) 0 = SNone -> stack c <> [].
  Proof.
    intros Hr Hsub Hsk Hst.
    pose proof (Inv_combine.inv_reach Hn Hns Hresub Hnonest Hc14 Hr) as HI.
    pose proof (Inv_combine.i_memb HI) as HM.
    assert (H0 : us (ms c) 0 <> UNone).
    { apply (@subd_us p (combine_op n) g_std); [|exact Hr|exact Hsub].
      intros aux s. cbn. unfold cb_sub. rewrite (proj2 (Nat.ltb_lt 0 n) Hn). eauto. }
    assert (Hall : n <= nsub (ms c)).
    { destruct (Inv_combine.i_phase HI) as [_ Hok _|u j r Hd' _ _ _ _ _|Hd' _ _]; try congruence.
      rewrite Hst in Hok. destruct Hok as [E|Hok]; [|exact Hok].
      exfalso. apply H0, (Inv_combine.m_unone HM). lia. }
    assert (Hns0 : cb_nstart (cst c) <> 0) by (now apply (Inv_combine.m_skn HM)).
    pose proof (Inv_combine.m_nstart HM) as Hcnt.
    destruct (@count_lt_ex (cb_tbs (cst c)) n) as (j & Hj & Htb); [lia|].
    rewrite (Inv_combine.m_tbs HM Hj) in Htb.
    destruct (us (ms c) j) eqn:Eu; try discriminate.
    - apply (Inv_combine.m_unone HM) in Eu. lia.
    - pose proof (subd_pending Hlate Hr j Eu) as Hin.
      rewrite Hst in Hin. exact Hin.
  Qed.
End CombineSync.

Theorem combine_greets_sync p n :
  nsinks p = 1 -> resub p = false -> no_nest p = false -> c14 p = false -> late_ok p = false ->
  1 <= n ->
  forall c : cfg (combine_op n), reach p g_std c ->
    subd (ms c) 0 = true -> sk (ms c) 0 = SNone -> stack c <> [].
Proof. intros H1 H2 H3 H4 H5 Hn c. now apply combine_sync. Qed.
Print Assumptions combine_greets_sync.

Corollary combine_greets_sync_sig p n :
  nsinks p = 1 -> resub p = false -> no_nest p = false -> c14 p = false -> late_ok p = false ->
  1 <= n -> greets_sync_sig (combine_op n, p, g_std).
Proof. intros H1 H2 H3 H4 H5 Hn c. now apply combine_greets_sync. Qed.
Print Assumptions combine_greets_sync_sig.

(** Sanity: the hypotheses are met by real runs.  With two members, after member 0 greeted
    inside its subscribing call, combine is subscribed, has not greeted, and is still inside
    the subscribing activation; merge has already greeted its sink. *)
Definition p_sync : mparams :=
  {| nsinks := 1; late_ok := false; pullable := false; one_pull := false;
     resub := false; no_nest := false; c14 := false |}.

Example combine_waiting :
  let sc := [MIn (ISub 0 0); MIn (IDn 0 DH)] in
  let c := run p_sync (combine_op 2) sc in
  (all_enabled p_sync g_std (cfg0 (combine_op 2)) sc,
   subd (ms c) 0, sk (ms c) 0, map snd (stack c), enabled p_sync g_std c MRet) =
  (true, true, SNone, [CSub 0], true).
Proof. vm_compute. reflexivity. Qed.

Example merge_greeted :
  let sc := [MIn (ISub 0 0); MIn (IDn 0 DH)] in
  let c := run p_sync (merge_op 2) sc in
  (all_enabled p_sync g_std (cfg0 (merge_op 2)) sc, subd (ms c) 0, sk (ms c) 0) =
  (true, true, SLive).
Proof. vm_compute. reflexivity. Qed.

(** the subscribing call of a member that has not greeted cannot return *)
Example merge_no_late_return :
  let c := run p_sync (merge_op 2) [MIn (ISub 0 0)] in
  (subd (ms c) 0, sk (ms c) 0, map snd (stack c), enabled p_sync g_std c MRet) =
  (true, SNone, [CSub 0], false).
Proof. vm_compute. reflexivity. Qed.

Example concat_zero_greets :
  let c := run p_sync (concat_op 0) [MIn (ISub 0 0)] in
  (subd (ms c) 0, sk (ms c) 0, map snd (stack c)) = (true, SLive, [CDn 0 DH]).
Proof. vm_compute. reflexivity. Qed.
