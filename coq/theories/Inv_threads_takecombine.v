(** * Inv_threads_takecombine: C19 / C18 for the interleaving model of take(max) behind combine! of
      n member threads (ThreadsTakeCombine.v), over ALL schedules.

    The statements hold for every max, n, all queues, ALL endings (any number of failing members) and
    every state reachable by any interleaving of [xc_step true max n].

    Method as in Inv_threads_takemerge.v: each invariant is preserved by [xc_step true max n s t], by
    cases of the stepping thread's program counter ([xc_cases]; [nxt] = what [xc_next] makes of a
    thread, [sw_stp] / [sw_tr] of ThreadFacts.v = what [xc_stop_all] does).
    - [Live] the program counters of the unrepaired code (XcAtEndLoad, XcAtEndStore) are never
             reached; threads t >= n never start;
    - [Thr]  per thread, by program counter ([TIc]): the queue and the stored value are made of
             values sent; [wasnone] is what it says; a value is stored before it is counted;
             [n_data] = 0 at XcAtEmitLoad; the tuple carried at XcAtTaken is complete and made of
             sent values; [n_end] = 0 at XcAtEndSwapT / XcInTermAll;
    - [NData] [n_data] = number of members that have not yet counted their first value
             (a stopped member leaves through [xc_next], where this does not change);
    - [NEnd] [n_end] >= number of members that are still at work (a stopped member goes to
             XcFinished WITHOUT decrementing [n_end], hence an inequality);
    - [Tup]  no panic (the tuple is complete when it is loaded); every delivered datum is a good tuple;
    - [Tal]  taken = number of data begun <= max; for every j the number of Terminate calls to
             member j's talkback is [b2n (stopped j)]; stopped j => [tend]; #terminals = [b2n tend]
             (the swap and the sink's Terminate are one step: no thread "between");
    - [Tick] the ticket argument ([ticket]): while taken = max and [tend] is unset, the thread that
             obtained the last ticket is at XcInData max or XcAtEndSwap;
    - [Why]  [tend] => every member was told to stop, or [n_end] = 0 and taken < max
             (the last member's swap cannot win while the holder of the last ticket is at work:
             by [NEnd] the holder keeps [n_end] >= 1). *)

From CB Require Import Threads ThreadSpec ThreadsFine ThreadsTakeCombine ThreadFacts Inv_threads_merge.
From CB Require Inv_threads_combine.
(* Inv_threads_merge: the counts below are written over its [cnt]; [cnt_eq] brings the lemmas of
   ThreadFacts.v *)

Set Implicit Arguments.

#[local] Arguments count : simpl never.

Inductive xc_reach (max n : nat) (qs : nat -> list val) (fins : nat -> final) : xc_state -> Prop :=
| xcr0 : xc_reach max n qs fins (xc_init n qs fins)
| xcrS s t : xc_reach max n qs fins s -> xc_reach max n qs fins (xc_step true max n s t).

Notation CS := mk_xc_state.
Notation CT := mk_xc_thread.

Notation isnone := Inv_threads_combine.isnone.

(** what [xc_next] makes of a thread *)
Definition nxt (stp : bool) (q : list val) (f : final) : xc_thread :=
  if stp then CT XcFinished q f
  else match q with
       | v :: q' => CT (XcAtValsLoad v) q' f
       | [] => match f with FinNone => CT XcFinished [] f | _ => CT XcAtEndDec [] f end
       end.

Lemma xc_next_eq s t pc q f : xc_next s t (CT pc q f) = xc_set s t (nxt (xcs_stopped s t) q f).
Proof.
  unfold xc_next, nxt. destruct (xcs_stopped s t); [reflexivity|]. cbn.
  destruct q; [|reflexivity]. destruct f; reflexivity.
Qed.

Lemma nxt_cases stp q f :
  nxt stp q f = CT XcFinished q f
  \/ (exists v q', q = v :: q' /\ nxt stp q f = CT (XcAtValsLoad v) q' f)
  \/ (q = [] /\ nxt stp q f = CT XcAtEndDec [] f).
Proof.
  unfold nxt. destruct stp; [auto|]. destruct q as [|v q'].
  - destruct f; auto.
  - right. left. eauto.
Qed.

(** combine's sink talkback on Terminate: every member is told to stop *)
Definition all (_ : nat) : bool := true.

Lemma xc_stop_all_eq k t s :
  xc_stop_all k t s
  = CS (xcs_nstart s) (xcs_ndata s) (xcs_nend s) (xcs_vals s) (xcs_ver s)
       (sw_stp all all (xcs_stopped s) k) (xcs_taken s) (xcs_tend s) (xcs_th s)
       (sw_tr all t all (xcs_tr s) k) (xcs_panicked s).
Proof.
  destruct s as [ns nd ne vals ver stp tk te th tr pa]. cbn.
  induction k as [|k IH]; [reflexivity|]. cbn [xc_stop_all sw_stp sw_tr all andb]. now rewrite IH.
Qed.

Ltac xc_red H :=
  cbv beta iota zeta delta [set xc_set xc_emit xcs_nstart xcs_ndata xcs_nend xcs_vals xcs_ver xcs_stopped
                            xcs_taken xcs_tend xcs_th xcs_tr xcs_panicked] in H;
  cbn [xc_pcv xc_q xc_fin] in H.

Ltac xc_proj :=
  cbn [xcs_nstart xcs_ndata xcs_nend xcs_vals xcs_ver xcs_stopped xcs_taken xcs_tend xcs_th xcs_tr
       xcs_panicked xc_pcv xc_q xc_fin].

(* [xc_next] and [xc_stop_all] in [Es], by their equations; found by matching, because a
   [rewrite ?] that fails is dear *)
Ltac xc_nxt Es :=
  repeat match type of Es with
         | context [xc_next ?a ?b (CT ?p ?q ?f)] => rewrite (xc_next_eq a b p q f) in Es
         | context [xc_stop_all ?k ?b ?a] => rewrite (xc_stop_all_eq k b a) in Es
         end;
  xc_red Es.

(* One goal per branch of [xc_step true max n (CS ..) t], where [Hth : th t = CT pc q f]; the guards
   of the branch are in the context, the step's result is an explicit record.  [Hl : live pc = true]
   removes the program counters of the code before the repair. *)
Ltac xc_cases Hth Hl :=
  match goal with
  | |- context [xc_step true ?max ?n ?s ?t] =>
      let s' := fresh "s'" in let Es := fresh "Es" in
      remember (xc_step true max n s t) as s' eqn:Es;
      unfold xc_step, xc_after_count, xc_end_now in Es; cbn [xcs_th] in Es; rewrite Hth in Es;
      cbn [xc_pcv] in Es;
      match type of Hth with _ = CT ?pc _ _ => destruct pc end; try discriminate Hl;
      xc_red Es; xc_nxt Es;
      repeat match type of Es with
             | context [if ?b then _ else _] =>
                 lazymatch type of b with bool => idtac end;
                 destruct b eqn:?; xc_nxt Es
             | context [match cb_tuple ?v ?k with Some _ => _ | None => _ end] =>
                 destruct (cb_tuple v k) eqn:?; xc_red Es
             end;
      subst s'; xc_proj
  end.

Section Proofs.
  Variable max n : nat.
  Variable qs : nat -> list val.
  Variable fins : nat -> final.

  Definition pcof (s : xc_state) (t : nat) : xc_pc := xc_pcv (xcs_th s t).

  (** *** Live: the program counters of the code before the repair are never reached; the threads
      that are not members never start *)
  Definition live (p : xc_pc) : bool :=
    match p with XcAtEndLoad | XcAtEndStore => false | _ => true end.

  Definition Live (s : xc_state) : Prop :=
    forall j, live (pcof s j) = true /\ (n <= j -> pcof s j = XcFinished).

  Lemma Live_init : Live (xc_init n qs fins).
  Proof.
    intros j. unfold pcof. cbn -[Nat.ltb]. destruct (Nat.ltb_spec j n); split; auto; lia.
  Qed.

  Lemma nxt_live sp q f : live (xc_pcv (nxt sp q f)) = true.
  Proof. destruct (nxt_cases sp q f) as [H|[(v & q' & _ & H)|(_ & H)]]; now rewrite H. Qed.

  Lemma Live_step s t : Live s -> Live (xc_step true max n s t).
  Proof.
    destruct s as [ns nd ne vals ver stp tk te th tr pa]. unfold Live, pcof. cbn [xcs_th]. intros HL j.
    destruct (HL t) as [Hl Ho]. destruct (th t) as [pc q f] eqn:Hth. cbn [xc_pcv] in Hl, Ho.
    xc_cases Hth Hl; try apply HL.
    all: pw j t; [|apply HL].
    all: split; [first [reflexivity | apply nxt_live | now destruct wasnone] | intros Hn; discriminate (Ho Hn)].
  Qed.

  Lemma Live_lt s t : Live s -> pcof s t <> XcFinished -> t < n.
  Proof. intros HL Hp. destruct (Nat.lt_ge_cases t n); [assumption|]. now destruct (proj2 (HL t)). Qed.

  (* [HL : Live s]: the state and the record of thread [t] as explicit records, then one goal per
     branch of the step; [Hfin]: a thread that is not a member is finished *)
  Ltac xc_open s t HL :=
    destruct s as [ns nd ne vals ver stp tk te th tr pa];
    let Hl := fresh "Hl" in
    destruct (HL t) as [Hl _]; unfold pcof in Hl; cbn [xcs_th] in Hl;
    destruct (th t) as [pc q f] eqn:Hth; cbn [xc_pcv] in Hl;
    assert (Hfin : pc = XcFinished \/ t < n)
      by (destruct (Nat.lt_ge_cases t n) as [|Hge]; [now right|left];
          pose proof (proj2 (HL t) Hge) as E; unfold pcof in E; cbn [xcs_th] in E; now rewrite Hth in E);
    xc_cases Hth Hl.

  Definition tup_ok (x : val) : Prop :=
    exists l, x = VT l /\ length l = n /\ tuple_ok qs 0 l = true.
  Definition tuple_good (e : tevent) : Prop :=
    match snd e with TBegin (DD x) => tup_ok x | _ => True end.

  (** the member has not yet performed its first [n_data.fetch_sub] *)
  Definition undec (pc : xc_pc) (vo : option val) : bool :=
    match pc with XcAtDataDec => true | _ => isnone vo end.
  (** the member has certainly not performed [n_end.fetch_sub] *)
  Definition active (pc : xc_pc) : bool :=
    match pc with XcAtEndSwapT | XcInTermAll | XcFinished => false | _ => true end.

  Definition ucount (th : nat -> xc_thread) (vals : nat -> option val) : nat :=
    cnt (fun j => undec (xc_pcv (th j)) (vals j)) n.
  Definition acount (th : nat -> xc_thread) : nat :=
    cnt (fun j => active (xc_pcv (th j))) n.

  Definition TIc (nd ne : nat) (j : nat) (vo : option val) (thr : xc_thread) : Prop :=
    incl (xc_q thr) (qs j) /\ (forall v, vo = Some v -> In v (qs j)) /\
    match xc_pcv thr with
    | XcAtValsLoad v => In v (qs j)
    | XcAtRcuLoad v wn | XcAtRcuCas v wn _ => In v (qs j) /\ wn = isnone vo
    | XcAtDataDec => vo <> None
    | XcAtEmitLoad => nd = 0
    | XcAtTaken x => tup_ok x
    | XcAtEndSwapT | XcInTermAll => ne = 0
    | _ => True
    end.

  Lemma TIc_mono nd ne nd' ne' j vo thr :
    TIc nd ne j vo thr -> (nd = 0 -> nd' = 0) -> (ne = 0 -> ne' = 0) -> TIc nd' ne' j vo thr.
  Proof.
    unfold TIc. intros (A & B & C) H1 H2. split; [exact A|]. split; [exact B|].
    destruct (xc_pcv thr); auto.
  Qed.

  Lemma TIc_nxt nd ne j vo b q f :
    incl q (qs j) -> (forall v, vo = Some v -> In v (qs j)) -> TIc nd ne j vo (nxt b q f).
  Proof.
    intros Hq Hv. unfold TIc.
    destruct (nxt_cases b q f) as [Hn|[(v & q' & -> & Hn)|(-> & Hn)]]; rewrite Hn; cbn [xc_q xc_pcv].
    - auto.
    - split; [|split]; auto.
      + intros x Hx. apply Hq. now right.
      + apply Hq. now left.
    - auto.
  Qed.

  Definition Thr (s : xc_state) : Prop :=
    forall j, TIc (xcs_ndata s) (xcs_nend s) j (xcs_vals s j) (xcs_th s j).
  Definition NData (s : xc_state) : Prop := xcs_ndata s = ucount (xcs_th s) (xcs_vals s).
  Definition NEnd (s : xc_state) : Prop := acount (xcs_th s) <= xcs_nend s.

  Lemma Thr_init : Thr (xc_init n qs fins).
  Proof.
    intros j. unfold TIc. cbn -[Nat.ltb]. split; [apply incl_refl|]. split; [discriminate|].
    destruct (j <? n); exact I.
  Qed.

  Lemma cnt_const_true k : k <= n -> cnt (fun j => if j <? n then true else false) k = k.
  Proof.
    induction k as [|k IH]; intros Hk; [reflexivity|]. cbn [cnt]. rewrite IH by lia.
    destruct (Nat.ltb_spec k n); lia.
  Qed.

  Lemma NData_init : NData (xc_init n qs fins).
  Proof.
    unfold NData, ucount. cbn -[Nat.ltb].
    rewrite (@cnt_ext _ (fun _ => true)); [symmetry; apply cnt_all; auto|].
    intros j _. destruct (j <? n); reflexivity.
  Qed.

  Lemma NEnd_init : NEnd (xc_init n qs fins).
  Proof.
    unfold NEnd, acount. cbn -[Nat.ltb]. apply cnt_le.
  Qed.

  Lemma all_set s : Thr s -> NData s -> xcs_ndata s = 0 ->
    forall j, j < n -> exists v, xcs_vals s j = Some v /\ In v (qs j).
  Proof.
    intros HT HU Hz j Hj. unfold NData, ucount in HU. rewrite Hz in HU. symmetry in HU.
    pose proof (cnt_zero _ HU Hj) as Z. cbv beta in Z.
    destruct (HT j) as (_ & Hv & _).
    destruct (xcs_vals s j) as [v|] eqn:E.
    - exists v. auto.
    - unfold undec in Z. destruct (xc_pcv (xcs_th s j)); discriminate.
  Qed.

  Lemma have_tuple s : Thr s -> NData s -> xcs_ndata s = 0 ->
    exists l, cb_tuple (xcs_vals s) n = Some l /\ length l = n /\ tuple_ok qs 0 l = true.
  Proof. intros HT HU Hz. apply Inv_threads_combine.cb_tuple_all. now apply all_set. Qed.

  Lemma Thr_step s t : Live s -> Thr s -> NData s -> Thr (xc_step true max n s t).
  Proof.
    intros HL HT HU. pose proof (have_tuple HT HU) as Htup. xc_open s t HL; try exact HT.
    all: intros j; pose proof (HT j) as Hj; destruct (HT t) as (Hq & Hv & Hpc);
      cbn [xcs_ndata xcs_nend xcs_vals xcs_th] in *; rewrite Hth in Hq, Hpc; cbn [xc_pcv xc_q] in Hq, Hpc.
    all: pw j t; [clear Hj | (eapply TIc_mono; [exact Hj | lia | lia])].
    all: try (apply TIc_nxt; assumption).
    all: unfold TIc; cbn [xc_pcv xc_q]; (split; [exact Hq|]).
    all: try solve [ split; [exact Hv|]; guards;
                     first [ exact I | exact Hpc | assumption | reflexivity | split; [exact Hpc | reflexivity] ] ].
    - (* the compare-and-swap succeeds *)
      split; [intros x [= <-]; tauto | discriminate].
    - split; [intros x [= <-]; tauto | exact I].
    - (* the tuple is loaded *)
      split; [exact Hv|]. destruct (Htup Hpc) as (l' & El & Hl' & Hok).
      assert (l' = l) by congruence. subst l'. exists l. auto.
  Qed.

  Lemma nxt_undec b q f vo : undec (xc_pcv (nxt b q f)) vo = isnone vo.
  Proof.
    destruct (nxt_cases b q f) as [Hn|[(v & q' & _ & Hn)|(_ & Hn)]]; rewrite Hn; reflexivity.
  Qed.

  Lemma ucount_upd th vals th' vals' t :
    t < n -> (forall j, j <> t -> th' j = th j /\ vals' j = vals j) ->
    ucount th' vals' + b2n (undec (xc_pcv (th t)) (vals t))
    = ucount th vals + b2n (undec (xc_pcv (th' t)) (vals' t)).
  Proof.
    intros Ht Ho. unfold ucount. apply (@cnt_change (fun j => undec (xc_pcv (th j)) (vals j))); [exact Ht|].
    intros j _ ne. now destruct (Ho j ne) as [-> ->].
  Qed.

  Lemma acount_upd th t thr' :
    t < n ->
    acount (upd th t thr') + b2n (active (xc_pcv (th t))) = acount th + b2n (active (xc_pcv thr')).
  Proof.
    intros Ht. exact (cnt_upd (fun x => active (xc_pcv x)) th thr' Ht).
  Qed.

  Lemma NData_step s t : Live s -> Thr s -> NData s -> NData (xc_step true max n s t).
  Proof.
    intros HL HT HU. xc_open s t HL; try exact HU.
    all: destruct Hfin as [E|Htn]; [discriminate E|].
    all: destruct (HT t) as (_ & _ & Hpc); unfold NData in *; cbn [xcs_ndata xcs_nend xcs_vals xcs_th] in *;
      rewrite Hth in Hpc; cbn [xc_pcv] in Hpc.
    all: match goal with |- _ = ucount ?th' ?vals' =>
           pose proof (@ucount_upd th vals th' vals' t Htn) as C end.
    all: specialize (C ltac:(intros j nej; rewrite ?(upd_other _ _ nej); split; reflexivity)).
    all: rewrite ?upd_same, Hth in C; cbn [xc_pcv undec] in C; rewrite ?nxt_undec in C.
    all: try match type of Hpc with _ /\ _ = isnone _ => destruct Hpc as [_ Hpc] end.
    all: guards; destruct (vals t) eqn:Ev; cbn [isnone b2n xc_pcv undec] in *; try congruence; lia.
  Qed.

  Lemma NEnd_step s t : Live s -> NEnd s -> NEnd (xc_step true max n s t).
  Proof.
    intros HL HA. xc_open s t HL; try exact HA.
    all: destruct Hfin as [E|Htn]; [discriminate E|].
    all: unfold NEnd in *; cbn [xcs_nend xcs_th] in *.
    all: match goal with |- acount (upd _ _ ?X) <= _ => pose proof (acount_upd th X Htn) as C end.
    all: rewrite Hth in C; cbn [xc_pcv active b2n] in C.
    all: try match type of C with context [b2n ?b] => pose proof (b2n_le1 b) end.
    all: guards; lia.
  Qed.

  Record Tup (s : xc_state) : Prop := {
    p_pa : xcs_panicked s = false;
    p_panic : existsb is_panic (xcs_tr s) = false;
    p_tuples : Forall tuple_good (xcs_tr s) }.

  Lemma Tup_init : Tup (xc_init n qs fins).
  Proof. constructor; cbn; auto. Qed.

  Lemma Tup_step s t : Live s -> Thr s -> NData s -> Tup s -> Tup (xc_step true max n s t).
  Proof.
    intros HL HT HU HP. pose proof (have_tuple HT HU) as Htup. xc_open s t HL; try exact HP.
    all: destruct HP as [Ha Hb Hc]; destruct (HT t) as (_ & _ & Hpc);
      cbn [xcs_ndata xcs_nend xcs_vals xcs_th xcs_panicked xcs_tr] in *; rewrite Hth in Hpc; cbn [xc_pcv] in Hpc.
    all: try solve [ constructor; xc_proj; cbn [existsb is_panic snd orb]; rewrite ?sw_tr_panic; try assumption;
                     repeat (constructor; [exact I || exact Hpc|]);
                     first [assumption | apply sw_tr_forall; [intros; exact I | exact Hc]] ].
    (* the tuple is there *)
    exfalso. destruct (Htup Hpc) as (l' & El & _). congruence.
  Qed.

  Record Tal (s : xc_state) : Prop := {
    k_tally : tally max (xcs_taken s) (xcs_stopped s) (xcs_tr s);
    k_stp : forall j, xcs_stopped s j = true -> xcs_tend s = true;
    k_term : count is_begin_term (xcs_tr s) = b2n (xcs_tend s) }.

  Lemma Tal_init : Tal (xc_init n qs fins).
  Proof. constructor; [constructor|..]; cbn; auto; try lia; discriminate. Qed.

  Lemma Tal_step s t : Live s -> Tal s -> Tal (xc_step true max n s t).
  Proof.
    intros HL HK. xc_open s t HL; try exact HK.
    all: destruct HK as [Ha Hd He]; cbn [xcs_taken xcs_tr xcs_stopped xcs_tend] in *.
    all: constructor; xc_proj; rewrite ?count_cons_t, ?sw_tr_count by reflexivity;
      cbn [is_begin_term snd b2n Nat.add]; try assumption; try reflexivity; try congruence;
      try (apply tally_quiet; [reflexivity|]); try assumption.
    - apply tally_take; [now apply Nat.ltb_lt | exact Ha].
    - (* every member is told to stop, once: nobody was before take's [end] flag was set *)
      apply tally_sweep; [|exact Ha]. intros j _. destruct (stp j) eqn:E; [|reflexivity]. discriminate (Hd j E).
    - now rewrite He.
    - now rewrite He.
  Qed.

  (** *** Tick: while [max] items were taken and take's [end] flag is unset, the thread that
      obtained the last ticket is on its way to the swap *)
  Definition is_hpc (p : xc_pc) : bool :=
    match p with XcInData t' => Nat.eqb t' max | XcAtEndSwap => true | _ => false end.

  Definition Tick (s : xc_state) : Prop :=
    ticket max (xcs_taken s) (xcs_tend s) (fun t => is_hpc (pcof s t)).

  Lemma Tick_init : Tick (xc_init n qs fins).
  Proof. intros H1 H2. cbn in H2. lia. Qed.

  Lemma nxt_hpc sp q f : is_hpc (xc_pcv (nxt sp q f)) = false.
  Proof. destruct (nxt_cases sp q f) as [H|[(v & q' & _ & H)|(_ & H)]]; now rewrite H. Qed.

  Lemma Tick_step s t : Live s -> Tick s -> Tick (xc_step true max n s t).
  Proof.
    intros HL HT. xc_open s t HL; try exact HT.
    all: unfold Tick, pcof in *; cbn [xcs_tend xcs_taken xcs_th] in *.
    all: try solve [ eapply ticket_frame with (t := t); [upd_others t | exact HT | auto | ];
                     cbn beta; rewrite upd_same, Hth, ?nxt_hpc; cbn [xc_pcv is_hpc]; intros Hh;
                     first [discriminate Hh | congruence | left; reflexivity | right; reflexivity
                           | destruct wasnone; discriminate Hh] ].
    (* a ticket is taken *)
    intros _ Hm. right. exists t. rewrite upd_same. cbn [xc_pcv is_hpc]. now apply Nat.eqb_eq.
  Qed.

  (** *** Why: why take's [end] flag is set: take claimed the end and combine's sink talkback told
      every member to stop, or every member ended by itself before [max] items were taken *)
  Definition Why (s : xc_state) : Prop :=
    1 <= max -> xcs_tend s = true ->
    (forall j, j < n -> xcs_stopped s j = true) \/ (xcs_nend s = 0 /\ xcs_taken s < max).

  Lemma Why_init : Why (xc_init n qs fins).
  Proof. intros _ H. discriminate. Qed.

  Lemma hpc_active p : is_hpc p = true -> active p = true.
  Proof. destruct p; cbn; auto. Qed.

  Lemma active_pos s t0 : Live s -> NEnd s -> active (pcof s t0) = true -> 1 <= xcs_nend s.
  Proof.
    intros HL HA Hact. unfold NEnd, acount in HA. rewrite cnt_eq in HA.
    destruct (Nat.lt_ge_cases t0 n) as [Hlt|Hge].
    - pose proof (@cnt_pos (fun j => active (xc_pcv (xcs_th s j))) n t0 Hlt Hact). lia.
    - rewrite (proj2 (HL t0) Hge) in Hact. discriminate.
  Qed.

  Lemma Why_frame s s' :
    Why s -> (xcs_tend s' = true -> xcs_tend s = true) ->
    (forall j, xcs_stopped s j = true -> xcs_stopped s' j = true) ->
    (xcs_nend s = 0 -> xcs_nend s' = 0) -> xcs_taken s' = xcs_taken s -> Why s'.
  Proof.
    intros HI Ht Hs Hn Hk Hpos Hte. rewrite Hk.
    destruct (HI Hpos (Ht Hte)) as [L|[R1 R2]]; [left; auto | right; auto].
  Qed.

  Lemma Why_step s t :
    Live s -> Thr s -> NEnd s -> Tal s -> Tick s -> Why s -> Why (xc_step true max n s t).
  Proof.
    intros HL HT HA HK HTick HI. pose proof (fun t0 => @active_pos s t0 HL HA) as Hact.
    xc_open s t HL; try exact HI.
    all: try solve [ eapply Why_frame; [exact HI | ..]; cbn [xcs_tend xcs_stopped xcs_nend xcs_taken]; auto; guards; lia ].
    all: unfold pcof in Hact; cbn [xcs_th xcs_nend] in Hact; pose proof (Hact t) as Hat; rewrite Hth in Hat;
      cbn [xc_pcv active] in Hat.
    - (* a ticket is taken: some member is still at work *)
      intros Hpos Hte. cbn [xcs_tend xcs_stopped xcs_nend xcs_taken] in *.
      destruct (HI Hpos Hte) as [L|[R1 R2]]; [left; exact L|].
      exfalso. specialize (Hat eq_refl). cbn [xcs_nend] in R1. lia.
    - (* take claims the end *)
      intros _ _. left. intros j Hj. cbn [xcs_stopped]. rewrite sw_stp_spec. unfold swept, all.
      rewrite (proj2 (Nat.ltb_lt j n) Hj). apply orb_true_r.
    - (* the last member's completion finds the flag unset: the holder of the last ticket would
         still be at work *)
      intros Hpos _. right. cbn [xcs_nend xcs_taken].
      destruct (HT t) as (_ & _ & Hne). cbn [xcs_ndata xcs_nend xcs_vals xcs_th] in Hne.
      rewrite Hth in Hne. cbn [xc_pcv] in Hne. split; [exact Hne|].
      pose proof (t_le (k_tally HK)) as Hle. cbn [xcs_taken] in Hle.
      destruct (Nat.eq_dec tk max) as [Hm|Hm]; [exfalso|lia].
      destruct (HTick Hpos Hm) as [Hte|[t0 Hh]]; [discriminate|].
      cbn beta in Hh. unfold pcof in Hh. cbn [xcs_th] in Hh. apply hpc_active in Hh. specialize (Hact t0 Hh). lia.
  Qed.

  Definition Inv (s : xc_state) : Prop :=
    Live s /\ Thr s /\ NData s /\ NEnd s /\ Tup s /\ Tal s /\ Tick s /\ Why s.

  Lemma reach_inv s : xc_reach max n qs fins s -> Inv s.
  Proof.
    induction 1 as [|s t _ (HL & HT & HU & HA & HP & HK & HTick & HWhy)].
    - split; [apply Live_init|]. split; [apply Thr_init|]. split; [apply NData_init|].
      split; [apply NEnd_init|]. split; [apply Tup_init|]. split; [apply Tal_init|].
      split; [apply Tick_init | apply Why_init].
    - split; [now apply Live_step|]. split; [now apply Thr_step|].
      split; [now apply NData_step|]. split; [now apply NEnd_step|].
      split; [now apply Tup_step|]. split; [now apply Tal_step|].
      split; [now apply Tick_step | now apply Why_step].
  Qed.

  (** *** C19 behind combine!, safety: never more than [max] data, the sink is ended at most once,
      every member is told to stop at most once, no panic - for any endings, any number of failing
      members *)
  Theorem takecombine_safe s : 1 <= n -> xc_reach max n qs fins s ->
    count is_begin_data (xcs_tr s) <= max
    /\ count is_begin_term (xcs_tr s) <= 1
    /\ (forall j, count (is_up_term_of j) (xcs_tr s) <= 1)
    /\ xcs_panicked s = false /\ existsb is_panic (xcs_tr s) = false.
  Proof.
    intros _ Hr. destruct (reach_inv Hr) as (_ & _ & _ & _ & [Hp1 Hp2 _] & [[Ha Hb Hc] Hd He] & _ & _).
    split; [|split; [|split; [|split]]].
    - now rewrite <- Ha.
    - rewrite He. apply b2n_le1.
    - intros j. rewrite Hc. apply b2n_le1.
    - exact Hp1.
    - exact Hp2.
  Qed.

  (** *** C18: only complete tuples made of values actually sent *)
  Theorem takecombine_tuples s : 1 <= n -> xc_reach max n qs fins s ->
    forall t x, In (t, TBegin (DD x)) (xcs_tr s) ->
    exists l, x = VT l /\ length l = n /\ tuple_ok qs 0 l = true.
  Proof.
    intros _ Hr t x Hin. destruct (reach_inv Hr) as (_ & _ & _ & _ & [_ _ Hp3] & _).
    exact (proj1 (Forall_forall _ _) Hp3 _ Hin).
  Qed.

  Lemma finished_pc s : Live s -> (forall t, t < n -> xc_finished s t = true) ->
    forall t, pcof s t = XcFinished.
  Proof.
    intros HL. apply members_finished; [|apply HL].
    intros t. unfold xc_finished, pcof. now destruct (xc_pcv (xcs_th s t)).
  Qed.

  Lemma quiet_tend s : 1 <= max -> Inv s -> (forall t, t < n -> xc_finished s t = true) ->
    max <= count is_begin_data (xcs_tr s) -> xcs_taken s = max /\ xcs_tend s = true.
  Proof.
    intros Hpos (HL & _ & _ & _ & _ & [[Ha Hb Hc] Hd He] & HTick & _) Hfin Hmax.
    assert (Hm : xcs_taken s = max) by lia. split; [exact Hm|].
    destruct (HTick Hpos Hm) as [Ht|[t Ht]]; [exact Ht|]. rewrite (finished_pc HL Hfin) in Ht. discriminate.
  Qed.

  (** *** completion: once [max] data were delivered and everything is quiet, the sink has been
      ended exactly once *)
  Theorem takecombine_complete s : 1 <= n -> 1 <= max -> xc_reach max n qs fins s ->
    (forall t, t < n -> xc_finished s t = true) ->
    max <= count is_begin_data (xcs_tr s) -> count is_begin_term (xcs_tr s) = 1.
  Proof.
    intros _ Hpos Hr Hfin Hmax. pose proof (reach_inv Hr) as HI.
    destruct (quiet_tend Hpos HI Hfin Hmax) as [_ Hte].
    destruct HI as (_ & _ & _ & _ & _ & [_ _ He] & _).
    now rewrite He, Hte.
  Qed.

  (** *** take ends its upstream: combine's sink talkback tells EVERY member to stop, once *)
  Theorem takecombine_members_stopped s : 1 <= n -> 1 <= max -> xc_reach max n qs fins s ->
    (forall t, t < n -> xc_finished s t = true) -> max <= count is_begin_data (xcs_tr s) ->
    forall j, j < n -> count (is_up_term_of j) (xcs_tr s) = 1.
  Proof.
    intros _ Hpos Hr Hfin Hmax j Hj. pose proof (reach_inv Hr) as HI.
    destruct (quiet_tend Hpos HI Hfin Hmax) as [Hm Hte].
    destruct HI as (_ & _ & _ & _ & _ & [[_ _ Hc] _ _] & _ & HWhy).
    rewrite Hc. destruct (HWhy Hpos Hte) as [L|[_ R]]; [|lia]. now rewrite (L j Hj).
  Qed.

  Theorem takecombine_final s : 1 <= n -> 1 <= max -> xc_reach max n qs fins s ->
    (forall t, t < n -> xc_finished s t = true) -> takecombine_check max n qs (rev (xcs_tr s)) = [].
  Proof.
    intros Hn Hpos Hr Hfin. destruct (takecombine_safe Hn Hr) as (H1 & H2 & H3 & _ & H4).
    unfold takecombine_check. rewrite takemerge_check_nil; auto; [|now apply takecombine_complete].
    apply flat_map_nil. intros e He. apply in_rev in He.
    destruct e as [t0 [[| x | |]| | |]]; try reflexivity. cbn [snd].
    destruct (takecombine_tuples Hn Hr _ _ He) as (l & -> & Hl & Hok).
    rewrite Hl, Hok, Nat.eqb_refl. reflexivity.
  Qed.
End Proofs.

Lemma takecombine_run_full_reach max n qs fins nth sch fuel :
  xc_reach max n qs fins (run_full (xc_step true max n) xc_finished nth sch fuel (xc_init n qs fins)).
Proof. apply run_full_inv; [intros s t; apply xcrS | apply xcr0]. Qed.

Corollary takecombine_driver_final max n qs fins nth sch fuel : 1 <= n -> 1 <= max ->
  let s := run_full (xc_step true max n) xc_finished nth sch fuel (xc_init n qs fins) in
  xcs_panicked s = false /\
  ((forall t, t < n -> xc_finished s t = true) -> takecombine_check max n qs (rev (xcs_tr s)) = []).
Proof.
  intros Hn Hpos s. pose proof (takecombine_run_full_reach max n qs fins nth sch fuel) as Hr.
  fold s in Hr. split.
  - apply (takecombine_safe Hn Hr).
  - intros Hf. now apply takecombine_final with (fins := fins).
Qed.

(** ** Non-vacuity: take(1) behind combine of 2 *)

Example takecombine_example :
  let qs := fun t => match t with 0 => [VN 1; VN 3] | 1 => [VN 2] | _ => [] end in
  let s := run_full (xc_step true 1 2) xc_finished 2 [0;1;1;0;0;1;1;0] 400 (xc_init 2 qs (fun _ => FinTerm)) in
  (forall t, t < 2 -> xc_finished s t = true) /\ count is_begin_data (xcs_tr s) = 1
  /\ count is_begin_term (xcs_tr s) = 1 /\ takecombine_check 1 2 qs (rev (xcs_tr s)) = [].
Proof.
  cbv zeta. split; [|split; [|split]].
  - intros t Ht. destruct t as [|[|t]]; [vm_compute; reflexivity | vm_compute; reflexivity | lia].
  - vm_compute. reflexivity.
  - vm_compute. reflexivity.
  - vm_compute. reflexivity.
Qed.

(** on the same run every member was told to stop exactly once ([takecombine_members_stopped] is
    not vacuous) *)
Example takecombine_example_stopped :
  let qs := fun t => match t with 0 => [VN 1; VN 3] | 1 => [VN 2] | _ => [] end in
  let s := run_full (xc_step true 1 2) xc_finished 2 [0;1;1;0;0;1;1;0] 400 (xc_init 2 qs (fun _ => FinTerm)) in
  count (is_up_term_of 0) (xcs_tr s) = 1 /\ count (is_up_term_of 1) (xcs_tr s) = 1
  /\ In (1, TBegin (DD (VT [VN 3; VN 2]))) (xcs_tr s).
Proof. vm_compute. auto 10. Qed.

Print Assumptions takecombine_safe.
Print Assumptions takecombine_tuples.
Print Assumptions takecombine_complete.
Print Assumptions takecombine_members_stopped.
Print Assumptions takecombine_final.
Print Assumptions takecombine_run_full_reach.
Print Assumptions takecombine_driver_final.
Print Assumptions takecombine_example.
Print Assumptions takecombine_example_stopped.
