(** * Inv_interval: the invariant of interval (one subscription, the
      virtual clock is the environment's [ITick]; the nursery may refuse the
      task: [ISub 0 aux] with [aux <> 0]) *)
From CB Require Import Ports Inv_from_iter.

Set Implicit Arguments.

(** the calls the component made, in order *)
Fixpoint calls (tr : list event) : list call :=
  match tr with
  | [] => []
  | ECall c :: tr' => c :: calls tr'
  | _ :: tr' => calls tr'
  end.

Lemma calls_app tr1 tr2 : calls (tr1 ++ tr2) = calls tr1 ++ calls tr2.
Proof.
  induction tr1 as [|e tr1 IH]; cbn; [reflexivity|].
  destruct e; cbn; try exact IH. now rewrite IH.
Qed.

(** What the monitor sees of the nursery, for a source ([pbase] of Ports.v with no upstream) *)
Section Nursery.
  Variable p : mparams.
  Variable o : op.
  Variable tk : nat -> bool.
  Variable rf : nat -> option nat.
  Notation sbase tk rf := (pbase (fun _ => False) tk rf).

  Lemma ms_settle_obs m ob a : ms_settle p o m [ob] a = ms_settle p o (mon_obs m ob) [] a.
  Proof. reflexivity. Qed.

  Lemma src_obs d m m' ob : m' = mon_obs m ob -> sbase tk rf d m ->
    sbase (task m') rf d m' /\ subd m' = subd m /\ sk m' = sk m /\ cnt3 m' = cnt3 m.
  Proof. intros -> []. destruct ob as [r|v|s [|]|s]; cbn; repeat split; auto. Qed.

  (** the nursery refuses the task: the error it reports counts as sent *)
  Lemma src_refused d m m' aux : m' = mon_input p m (ISub 0 (S aux)) -> sbase tk rf d m ->
    sbase tk (upd rf 0 (Some (spawn_err_id (S aux)))) d m' /\ subd m' 0 = true /\ sk m' = sk m /\
    cnt3 m' = cnt3 m /\ existsb (Nat.eqb (spawn_err_id (S aux))) (errs_in m') = true.
  Proof.
    intros -> B. pose proof (pb_sent B) as Hs. destruct B. cbn. rewrite Nat.eqb_refl.
    repeat split; auto; cbn.
    - intros e E. rewrite (Hs e E). apply orb_true_r.
    - discriminate.
    - intros s. unfold upd. destruct (Nat.eqb s 0); auto.
  Qed.

  (** the one Error a sink may get before any greeting *)
  Lemma src_refuse m m' e (k : Fr o) : m' = ms_settle p o m [] (ACall (CDn 0 (DE e)) k) ->
    sbase tk rf None m -> sk m 0 = SNone -> rf 0 = Some e ->
    existsb (Nat.eqb e) (errs_in m) = true -> not_nested p m ->
    sbase tk rf None m' /\ subd m' = subd m /\ sk m' 0 = SFinished /\ cnt3 m' = cnt3 m.
  Proof.
    intros -> B Hk Hr He Hn. rewrite ms_settle_call, add_viols_eq. cbn.
    rewrite Hk, (pb_refused B), Hr, Nat.eqb_refl, (nested_check Hn), He, (pb_due B). destruct B. cbn.
    repeat split; auto.
  Qed.
End Nursery.
Arguments src_obs [tk rf d m m' ob].
Arguments src_refuse [p o tk rf m m' e k].

Section IntervalInv.
  Variable p : mparams.
  Hypothesis Hns : nsinks p = 1.
  Hypothesis Hnonest : no_nest p = false.
  Hypothesis Hc14 : c14 p = false.
  Let o := interval_op.
  Notation sbase tk rf := (pbase (fun _ => False) tk rf None).

  (** every guard: the nursery may accept or refuse *)
  Notation g_any := (fun (_ : mstate) (_ : input) => true).

  (** the life of the subscription: (subd 0, sk 0, task 0, refused 0) and the cells *)
  Definition phase (m : mstate) (st : iv_st) : Prop :=
    (* not subscribed *)
    (subd m 0 = false /\ sk m 0 = SNone /\ task m 0 = false /\ refused m 0 = None /\
     ndata m 0 = 0) \/
    (* running: the task is asleep (or inside its delivery), the sink is live *)
    (subd m 0 = true /\ sk m 0 = SLive /\ task m 0 = true /\ refused m 0 = None /\
     iv_cleared st = false) \/
    (* the sink disposed: the flag is set, the task leaves at its next expiry *)
    (subd m 0 = true /\ sk m 0 = SDisposed /\ refused m 0 = None /\ iv_cleared st = true) \/
    (* the nursery refused: the sink got the one Error, there is no task *)
    (subd m 0 = true /\ sk m 0 = SFinished /\ task m 0 = false /\ ndata m 0 = 0 /\
     exists e, refused m 0 = Some e).

  Record Inv (c : cfg o) : Prop := {
    i_viols : viols (ms c) = [];
    i_dead : dead c = false;
    i_phase : phase (ms c) (cst c);
    i_nd : iv_i (cst c) = ndata (ms c) 0;
    i_us : forall i, us (ms c) i = UNone;               (* there is no upstream *)
    i_ports : ports (ms c) = [];
    i_due : forall s, err_due (ms c) s = None;
    i_sk_other : forall s, s <> 0 -> sk (ms c) s = SNone;
    i_task_other : forall s, s <> 0 -> task (ms c) s = false;
  }.

  Lemma inv0 : Inv (cfg0 o).
  Proof.
    constructor; cbn; auto. left. repeat split; reflexivity.
  Qed.

  Lemma quiescent (c : cfg o) :
    Inv c -> forall m', ports m' = ports (ms c) -> (forall s, err_due m' s = None) ->
    check_quiescent p m' = [].
  Proof.
    intros [] m' E1 E2. apply quiescent_nil.
    - intros _ _ i Hi. rewrite E1, i_ports0 in Hi. destruct Hi.
    - exact E2.
    - rewrite Hc14. discriminate.
  Qed.

  Lemma inv_sbase c : Inv c -> sbase (task (ms c)) (refused (ms c)) (ms c).
  Proof.
    intros []. constructor; auto; try discriminate.
    - intros i H. now destruct (H (i_us0 i)).
    - rewrite i_ports0. intros i [].
  Qed.

  Lemma inv_make (c : cfg o) tk rf :
    sbase tk rf (ms c) -> dead c = false -> phase (ms c) (cst c) -> iv_i (cst c) = ndata (ms c) 0 ->
    (forall s, tk (S s) = false) -> Inv c.
  Proof.
    intros B ? ? ? Ht. destruct (no_upstream B), B.
    constructor; auto; intros [|s]; auto; congruence.
  Qed.
  Arguments inv_make [c tk rf].

  Lemma done m m' tk rf : m' = ms_settle p o m [] ARet -> sbase tk rf m -> m' = m.
  Proof. intros E B. apply (done_source E B). intros _ H. rewrite Hc14 in H. discriminate. Qed.
  Arguments done [m m' tk rf].

  Record TInv (c : cfg o) : Prop := {
    t_out : data_out 0 (trace c) = map VN (seq 0 (iv_i (cst c)));
    t_none : subd (ms c) 0 = false -> calls (trace c) = [];
    t_ref : forall e, refused (ms c) 0 = Some e -> calls (trace c) = [CDn 0 (DE e)];
  }.

  Lemma tinv_keep (c c' : cfg o) evs :
    TInv c -> trace c' = trace c ++ evs -> data_out 0 evs = [] -> calls evs = [] ->
    iv_i (cst c') = iv_i (cst c) -> subd (ms c') 0 = subd (ms c) 0 ->
    refused (ms c') 0 = refused (ms c) 0 -> TInv c'.
  Proof.
    intros [] Ht Ho Hcl Hi Hsb Hrf.
    constructor; rewrite Ht, ?data_out_app, ?calls_app, ?Ho, ?Hcl, ?app_nil_r, ?Hi, ?Hsb, ?Hrf;
      assumption.
  Qed.

  (** the phase of the new configuration reads [task] and [refused] off its base *)
  Ltac nursery B := rewrite ?(pb_task B), ?(pb_refused B).

  Lemma step_inv c m :
    Inv c -> TInv c -> enabled p g_any c m = true -> Inv (step p c m) /\ TInv (step p c m).
  Proof.
    intros HI HT He. pose proof (inv_sbase HI) as B. pose proof (i_phase HI) as Hph.
    pose proof (i_nd HI) as Hnd. pose proof (nest_off Hnonest) as Hnn.
    assert (Hto : forall s, task (ms c) (S s) = false) by (intros s; now apply (i_task_other HI)).
    destruct m as [[s aux|s u|i d|s]|].
    -
      destruct (en_sub _ _ _ _ _ He) as (_ & Hs & Hsub).
      rewrite Hns in Hs. assert (s = 0) by lia. subst s.
      destruct Hph as [(_ & Esk & Etask & Eref & Hnd0) | [(E & _) | [(E & _) | (E & _)]]];
        try congruence.
      pose proof (t_none HT Hsub) as Hcalls. pose proof (t_out HT) as Hout.
      rewrite Hnd, Hnd0 in Hout.
      destruct aux as [|a]; pose proof (en_step_in_trace _ _ _ _ He eq_refl) as Ht;
        step_eqs (en_step_in _ _ _ _ He eq_refl); rewrite ms_settle_obs in Em.
      + (* the nursery accepts: spawn, greet *)
        env_half (pin_sub Em1 B).
        remember (mon_obs m1 (OSpawn 0 true)) as m2 eqn:Em2 in Em.
        destruct (src_obs Em2 B1) as (Bo & So & Ko & Co).
        assert (To : task m2 = upd (task m1) 0 true) by now rewrite Em2.
        op_half (pcall_greet Em Bo); [congruence|]. cnts. split.
        * apply (inv_make B2); auto; rewrite ?Ec; cbn [iv_i iv_cleared]; try congruence.
          -- right; left. nursery B2. rewrite To, S2, So, K2. auto.
          -- intros s. rewrite To, upd_other, (pb_task B1) by discriminate. apply Hto.
        * constructor; rewrite Ht, ?data_out_app, ?calls_app, ?Ec, ?S2, ?So, ?S1; nursery B2;
            rewrite ?Eref; try discriminate.
          now rewrite Hout.
      + (* the nursery refuses: the one Error *)
        destruct (src_refused Em1 B) as (B1 & S1 & K1 & C1 & E1). cbn [mon_obs] in Em.
        assert (K1' : sk m1 0 = SNone) by (rewrite K1; exact Esk).
        destruct (src_refuse Em B1 K1' (upd_same _ _ _) E1 (Hnn _)) as (B2 & S2 & K2 & C2).
        cnts. split.
        * apply (inv_make B2); auto; rewrite ?Ec; cbn [iv_i iv_cleared]; try congruence.
          right; right; right. nursery B2. rewrite S2, K2, upd_same, Etask.
          repeat split; eauto; congruence.
        * constructor; rewrite Ht, ?data_out_app, ?calls_app, ?Ec, ?S2, ?S1; nursery B2;
            rewrite ?upd_same; try discriminate.
          -- now rewrite Hout.
          -- intros e Ee. injection Ee as <-. now rewrite Hcalls.
    -
      destruct (en_up _ _ _ _ _ He) as (_ & Hsk & _). pose proof (live_sink_0 B Hsk). subst s.
      destruct Hph as [(_ & E & _) | [(Hsub & _ & Etask & Eref & Ecl) | [(_ & E & _) | (_ & E & _)]]];
        try congruence.
      destruct (umsg_is_term u) eqn:Hu.
      + assert (Hh : handle o (IUp 0 u) (cst c) =
                     ({| iv_i := iv_i (cst c); iv_cleared := true |}, [], ARet))
          by (destruct u; [discriminate | reflexivity | reflexivity]).
        pose proof (en_step_in_trace _ _ _ _ He Hh) as Ht.
        step_eqs (en_step_in _ _ _ _ He Hh). env_half (pin_stop Em1 B Hu).
        done_half done. cnts. split.
        * apply (inv_make B1); auto; rewrite ?Ec; cbn [iv_i iv_cleared]; try congruence.
          right; right; left. nursery B1. now rewrite S1, K1.
        * apply (tinv_keep _ _ HT Ht); rewrite ?Ec, ?S1; nursery B1; reflexivity.
      + destruct u; try discriminate.
        assert (Hh : handle o (IUp 0 UP) (cst c) = (cst c, [], ARet)) by reflexivity.
        pose proof (en_step_in_trace _ _ _ _ He Hh) as Ht.
        step_eqs (en_step_in _ _ _ _ He Hh). env_half (pin_pull Em1 B).
        done_half done. cnts. split.
        * apply (inv_make B1); auto; rewrite ?Ec; try congruence.
          right; left. nursery B1. now rewrite S1, K1.
        * apply (tinv_keep _ _ HT Ht); rewrite ?Ec, ?S1; nursery B1; reflexivity.
    - exfalso. pose proof (enabled_deliverable _ _ _ _ He) as Hdel.
      cbn in Hdel. now rewrite (i_us HI) in Hdel.
    -
      destruct (en_tick _ _ _ _ He) as [_ Htask].
      destruct s as [|s]; [|rewrite Hto in Htask; discriminate].
      destruct Hph as [(_ & _ & E & _) | [(Hsub & Esk & _ & Eref & Ecl) |
                       [(Hsub & Esk & Eref & Ecl) | (_ & _ & E & _)]]]; try congruence.
      + (* running: the next number *)
        assert (Hh : handle o (ITick 0) (cst c) =
                     ({| iv_i := S (iv_i (cst c)); iv_cleared := iv_cleared (cst c) |}, [],
                      ACall (CDn 0 (DD (VN (iv_i (cst c))))) FDone)).
        { cbn. now rewrite Ecl. }
        pose proof (en_step_in_trace _ _ _ _ He Hh) as Ht.
        destruct (en_step_in _ _ _ _ He Hh) as (Ec & Es & Em & Ed).
        change (mon_input p (ms c) (ITick 0)) with (ms c) in Em.
        op_half (pcall_data Em B (Hnn _) Esk). { intros H. rewrite Hc14 in H. discriminate. }
        cnts. split.
        * apply (inv_make B2); auto; rewrite ?Ec; cbn [iv_i iv_cleared]; try congruence.
          right; left. nursery B2. now rewrite S2, K2.
        * constructor; rewrite Ht, ?data_out_app, ?calls_app, ?Ec, ?S2; nursery B2;
            rewrite ?Eref; try discriminate; try congruence.
          cbn [iv_i]. now rewrite seq_S, map_app, (t_out HT).
      + (* disposed: the task leaves its loop *)
        assert (Hh : handle o (ITick 0) (cst c) = (cst c, [OExit 0], ARet)).
        { cbn. now rewrite Ecl. }
        pose proof (en_step_in_trace _ _ _ _ He Hh) as Ht.
        destruct (en_step_in _ _ _ _ He Hh) as (Ec & Es & Em & Ed).
        change (mon_input p (ms c) (ITick 0)) with (ms c) in Em. rewrite ms_settle_obs in Em.
        remember (mon_obs (ms c) (OExit 0)) as m1 eqn:Em1 in Em.
        destruct (src_obs Em1 B) as (B1 & S1 & K1 & C1).
        assert (T1 : task m1 = upd (task (ms c)) 0 false) by now rewrite Em1.
        clear Em1. done_half done. cnts. split.
        * apply (inv_make B1); auto; rewrite ?Ec; try congruence.
          -- right; right; left. nursery B1. now rewrite S1, K1.
          -- intros s. rewrite T1, upd_other by discriminate. apply Hto.
        * apply (tinv_keep _ _ HT Ht); rewrite ?Ec, ?S1; nursery B1; reflexivity.
    -
      destruct (en_ret _ _ _ He) as (k & cl & rest & Hst & _).
      assert (Hh : resume o k (cst c) = (cst c, [], ARet)) by reflexivity.
      pose proof (en_step_ret_trace _ _ _ He Hst Hh) as Ht.
      step_eqs (en_step_ret _ _ _ He Hst Hh). env_half (pin_ret Em1 B).
      done_half done. cnts. split.
      + apply (inv_make B1); auto; rewrite ?Ec; try congruence.
        unfold phase. nursery B1. rewrite S1, K1. replace (ndata (ms (step p c MRet)) 0) with (ndata (ms c) 0) by congruence. exact Hph.
      + apply (tinv_keep _ _ HT Ht); rewrite ?Ec, ?S1; nursery B1; reflexivity.
  Qed.

  Lemma both_reach c : reach p g_any c -> Inv c /\ TInv c.
  Proof.
    revert c. apply (@reach_invariant p o g_any (fun c => Inv c /\ TInv c)).
    - split; [exact inv0|]. constructor; cbn; intros; [reflexivity | reflexivity | discriminate].
    - intros c' m _ [HI HT]. now apply step_inv.
  Qed.

End IntervalInv.

(** no protocol violation and no panic in any reachable configuration, whether
    the nursery accepts or refuses.  In particular nothing is delivered after
    the sink disposed (that would be [VAfterDispose]) and the refusal's Error
    is the only message an ungreeted sink ever gets ([VBeforeGreet]). *)
Theorem interval_safe p :
  nsinks p = 1 -> resub p = false -> no_nest p = false -> c14 p = false ->
  forall c : cfg interval_op, reach p (fun _ _ => true) c -> viols (ms c) = [] /\ dead c = false.
Proof.
  intros H1 _ H3 H4 c Hr. destruct (both_reach H1 H3 H4 Hr) as [[] _]. split; assumption.
Qed.
Print Assumptions interval_safe.

(** C16: the data delivered are 0, 1, 2, ... in order, one per datum counted *)
Theorem interval_counts p :
  nsinks p = 1 -> resub p = false -> no_nest p = false -> c14 p = false ->
  forall c : cfg interval_op, reach p (fun _ _ => true) c ->
  data_out 0 (trace c) = map VN (seq 0 (ndata (ms c) 0)).
Proof.
  intros H1 _ H3 H4 c Hr. destruct (both_reach H1 H3 H4 Hr) as [HI HT].
  rewrite <- (i_nd HI). apply (t_out HT).
Qed.
Print Assumptions interval_counts.

(** C16: a refused subscription gets exactly the one Error and nothing else is
    ever called *)
Theorem interval_refused p :
  nsinks p = 1 -> resub p = false -> no_nest p = false -> c14 p = false ->
  forall c : cfg interval_op, reach p (fun _ _ => true) c ->
  forall e, refused (ms c) 0 = Some e -> calls (trace c) = [CDn 0 (DE e)].
Proof.
  intros H1 _ H3 H4 c Hr. destruct (both_reach H1 H3 H4 Hr) as [_ HT]. apply (t_ref HT).
Qed.
Print Assumptions interval_refused.

(** sanity checks (non-vacuity): an accepted subscription that ticks twice, is
    disposed from inside the third delivery and whose task then leaves; and a
    refused one *)
Module IntervalSanity.
  Definition p0 : mparams :=
    {| nsinks := 1; late_ok := false; pullable := false; one_pull := false;
       resub := false; no_nest := false; c14 := false |}.
  Definition g : mstate -> input -> bool := fun _ _ => true.
  Definition script : list move :=
    [MIn (ISub 0 0); MIn (IUp 0 UP); MRet; MIn (ITick 0); MRet; MIn (ITick 0); MRet;
     MIn (ITick 0); MIn (IUp 0 UT); MRet; MIn (ITick 0)].
  Example script_enabled : all_enabled p0 g (cfg0 interval_op) script = true.
  Proof. vm_compute. reflexivity. Qed.
  Example script_end :
    let c := run p0 interval_op script in
    stack c = [] /\ data_out 0 (trace c) = [VN 0; VN 1; VN 2] /\
    sk (ms c) 0 = SDisposed /\ task (ms c) 0 = false /\ viols (ms c) = [] /\
    enabled p0 g c (MIn (ITick 0)) = false.
  Proof. vm_compute. repeat split; reflexivity. Qed.
  Definition refusal : list move := [MIn (ISub 0 2); MRet].
  Example refusal_enabled : all_enabled p0 g (cfg0 interval_op) refusal = true.
  Proof. vm_compute. reflexivity. Qed.
  Example refusal_end :
    let c := run p0 interval_op refusal in
    calls (trace c) = [CDn 0 (DE 2)] /\ sk (ms c) 0 = SFinished /\ viols (ms c) = [] /\
    enabled p0 g c (MIn (ITick 0)) = false.
  Proof. vm_compute. repeat split; reflexivity. Qed.
End IntervalSanity.
