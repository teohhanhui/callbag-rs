(** * Inv_take: the invariant of take (src/take.rs) in every one-port regime, and what follows
      from it: protocol safety, the data delivered (C07), completion after the nth item *)
From CB Require Import Unary.

Set Implicit Arguments.

(** the branches the result [Hh : handle .. = ..] of a handler depends on, and the comparisons
    it made as propositions *)
Ltac split_ifs Hh :=
  repeat match type of Hh with
         | context [if ?b then _ else _] => let E := fresh "Eif" in destruct b eqn:E
         end.

Ltac ltb_props :=
  repeat match goal with
         | H : (_ <? _) = true |- _ => apply Nat.ltb_lt in H
         | H : (_ <? _) = false |- _ => apply Nat.ltb_ge in H
         end.

Section TakeInv.
  Variable max : nat.

  (** [fr_low]: a suspended activation that will do nothing more when it is
      resumed, whatever the state is then: the pass-through frames and the
      Data frames whose local [taken'] is below [max].
      [fr_nostop]: additionally the Data frame with [taken' = max], which is
      harmless once [tk_end] is set. *)
  Definition fr_low (fc : take_fr * call) : Prop :=
    match fst fc with TkDone => True | TkAfterData t => t <> max | TkAfterStop => False end.
  Definition fr_nostop (fc : take_fr * call) : Prop :=
    match fst fc with TkAfterStop => False | _ => True end.
  Definition low := Forall fr_low.
  Definition nostop := Forall fr_nostop.

  Lemma low_nostop stk : low stk -> nostop stk.
  Proof.
    apply Forall_impl. intros [k cl]. unfold fr_low, fr_nostop. cbn. destruct k; tauto.
  Qed.

  Lemma low_tl stk : low stk -> low (tl stk).
  Proof. intros H. destruct H; cbn; [constructor | assumption]. Qed.

  Lemma nostop_tl stk : nostop stk -> nostop (tl stk).
  Proof. intros H. destruct H; cbn; [constructor | assumption]. Qed.

  Lemma low_cons_done cl stk : low stk -> low ((TkDone, cl) :: stk).
  Proof. intros H. constructor; [exact I | exact H]. Qed.

  Lemma low_cons_data t cl stk : t <> max -> low stk -> low ((TkAfterData t, cl) :: stk).
  Proof. intros Ht H. constructor; [exact Ht | exact H]. Qed.

  Lemma nostop_cons_done cl stk : nostop stk -> nostop ((TkDone, cl) :: stk).
  Proof. intros H. constructor; [exact I | exact H]. Qed.

  Lemma nostop_cons_data t cl stk : nostop stk -> nostop ((TkAfterData t, cl) :: stk).
  Proof. intros H. constructor; [exact I | exact H]. Qed.

  Lemma low_inv k cl stk : low ((k, cl) :: stk) -> fr_low (k, cl) /\ low stk.
  Proof. intros H. inversion H. split; assumption. Qed.

  Lemma nostop_inv k cl stk : nostop ((k, cl) :: stk) -> fr_nostop (k, cl) /\ nostop stk.
  Proof. intros H. inversion H. split; assumption. Qed.

  Notation o := (take_op max).
  Notation ended s := {| tk_taken := tk_taken s; tk_tb := tk_tb s; tk_end := true |}.
  (* the frame type as [Fr o], the form in which the lemmas of Unary.v meet it *)
  Notation calls cl k := (@ACall (Fr o) cl k).
  Notation returns := (@ARet (Fr o)).

  Lemma handle_sub (s : take_st) :
    handle o (ISub 0 0) s =
    ({| tk_taken := 0; tk_tb := false; tk_end := false |}, [], calls (CSub 0) TkDone).
  Proof. reflexivity. Qed.

  Lemma handle_pull (s : take_st) : tk_taken s < max -> tk_tb s = true ->
    handle o (IUp 0 UP) s = (s, [], calls (CUp 0 UP) TkDone).
  Proof. intros Hlt Htb. apply Nat.ltb_lt in Hlt. cbn -[Nat.ltb]. now rewrite Hlt, Htb. Qed.

  Lemma handle_pull_full (s : take_st) :
    tk_taken s = max -> handle o (IUp 0 UP) s = (s, [], returns).
  Proof. intros E. cbn -[Nat.ltb]. now rewrite E, Nat.ltb_irrefl. Qed.

  Lemma handle_stop (s : take_st) u : umsg_is_term u = true -> tk_tb s = true ->
    handle o (IUp 0 u) s = (ended s, [], calls (CUp 0 u) TkDone).
  Proof. intros Hu Htb. destruct u; try discriminate; cbn; now rewrite Htb. Qed.

  Lemma handle_greet (s : take_st) :
    handle o (IDn 0 DH) s =
    ({| tk_taken := tk_taken s; tk_tb := true; tk_end := tk_end s |}, [], calls (CDn 0 DH) TkDone).
  Proof. reflexivity. Qed.

  Lemma handle_data (s : take_st) v : tk_taken s < max ->
    handle o (IDn 0 (DD v)) s =
    ({| tk_taken := S (tk_taken s); tk_tb := tk_tb s; tk_end := tk_end s |}, [],
     calls (CDn 0 (DD v)) (TkAfterData (S (tk_taken s)))).
  Proof. intros Hlt. apply Nat.ltb_lt in Hlt. cbn -[Nat.ltb]. now rewrite Hlt. Qed.

  Lemma handle_end (s : take_st) d : dmsg_is_term d = true -> tk_end s = false ->
    handle o (IDn 0 d) s = (ended s, [], calls (CDn 0 d) TkDone).
  Proof. intros Hd He. destruct d; try discriminate; cbn; now rewrite He. Qed.

  Lemma resume_low k cl (s : take_st) : fr_low (k, cl) -> resume o k s = (s, [], returns).
  Proof.
    unfold fr_low. cbn. destruct k as [|t|]; cbn; intros H; try reflexivity; try tauto.
    apply Nat.eqb_neq in H. now rewrite H.
  Qed.

  Lemma resume_nostop k cl (s : take_st) :
    fr_nostop (k, cl) -> tk_end s = true -> resume o k s = (s, [], returns).
  Proof.
    unfold fr_nostop. cbn. destruct k as [|t|]; cbn; intros H E; try reflexivity; try tauto.
    rewrite E. now rewrite andb_false_r.
  Qed.

  (** :235-250 the nth delivery has returned and nobody ended the stream: stop the upstream *)
  Lemma resume_nth (s : take_st) : tk_end s = false -> tk_tb s = true ->
    resume o (TkAfterData max) s = (ended s, [], calls (CUp 0 UT) TkAfterStop).
  Proof. intros He Htb. cbn. now rewrite Nat.eqb_refl, He, Htb. Qed.

  (** :251-255 *)
  Lemma resume_stop (s : take_st) : resume o TkAfterStop s = (s, [], calls (CDn 0 DT) TkDone).
  Proof. reflexivity. Qed.

  (** The relation between (sk 0, us 0), the cells and the stack *)
  Definition phase (k : sks) (u : uss) (st : take_st) (stk : list (take_fr * call)) : Prop :=
    match k, u with
    | SNone, UNone => tk_taken st = 0 /\ low stk
    | SNone, USubd => tk_taken st = 0 /\ tk_end st = false /\ low stk
    | SLive, ULive =>
        tk_tb st = true /\ tk_end st = false /\
        ((tk_taken st < max /\ low stk) \/
         (* the nth delivery is pending: its frame is on top, the sink is in control *)
         (tk_taken st = max /\
          exists v rest, stk = (TkAfterData max, CDn 0 (DD v)) :: rest /\ low rest))
    | SFinished, UEnded => low stk                      (* upstream ended by itself *)
    | SDisposed, UStopped => tk_end st = true /\ nostop stk      (* the sink disposed *)
    | SLive, UStopped =>                          (* take completes: upstream is being stopped *)
        tk_end st = true /\ tk_taken st = max /\
        exists rest, stk = (TkAfterStop, CUp 0 UT) :: rest /\ nostop rest
    | SFinished, UStopped =>                            (* take completed *)
        tk_end st = true /\ tk_taken st = max /\ nostop stk
    | _, _ => False
    end.

  Lemma phase_none u st stk : phase SNone u st stk -> u = UNone \/ u = USubd.
  Proof. destruct u; cbn; tauto. Qed.

  Lemma phase_live_up k u st stk : phase k u st stk -> k = SLive -> u <> UNone.
  Proof. intros H ->. destruct u; cbn in H; try tauto; discriminate. Qed.

  Lemma phase_over k u st stk : phase k u st stk -> sk_over k = true -> us_live u = false.
  Proof. destruct k, u; cbn; try tauto; discriminate. Qed.

  Lemma phase_rest_live u st : phase SLive u st [] -> u = ULive /\ tk_taken st < max.
  Proof.
    destruct u; cbn; try tauto.
    - intros (_ & _ & [[Hlt _] | (_ & v & rest & Hnil & _)]); [auto | discriminate].
    - intros (_ & _ & rest & Hnil & _). discriminate.
  Qed.

  (** the frame on top of the stack: one that does nothing when resumed and leaves the phase to
      the rest of the stack, or one of the two that carry the completion on *)
  Lemma phase_pop k u st fr cl rest :
    phase k u st ((fr, cl) :: rest) ->
    (resume o fr st = (st, [], returns) /\ phase k u st rest) \/
    (k = SLive /\ u = ULive /\ fr = TkAfterData max /\
     tk_tb st = true /\ tk_end st = false /\ tk_taken st = max /\ low rest) \/
    (k = SLive /\ u = UStopped /\ fr = TkAfterStop /\
     tk_end st = true /\ tk_taken st = max /\ nostop rest).
  Proof.
    destruct k, u; cbn [phase]; try tauto.
    - intros (Ht0 & Hl). apply low_inv in Hl. left. split; [now apply resume_low with cl | tauto].
    - intros (Ht0 & He & Hl). apply low_inv in Hl. left.
      split; [now apply resume_low with cl | tauto].
    - intros (Htb & He & [[Hlt Hl] | (Heq & v & rest' & E & Hl)]).
      + apply low_inv in Hl. left. split; [now apply resume_low with cl | tauto].
      + injection E as -> _ ->. right. left. tauto.
    - intros (He & Heq & rest' & E & Hn). injection E as -> _ ->. right. right. tauto.
    - intros (He & Hn). apply nostop_inv in Hn. left.
      split; [now apply resume_nostop with cl | tauto].
    - intros Hl. apply low_inv in Hl. left. split; [now apply resume_low with cl | tauto].
    - intros (He & Heq & Hn). apply nostop_inv in Hn. left.
      split; [now apply resume_nostop with cl | tauto].
  Qed.
End TakeInv.

Section TakeReach.
  Variable max : nat.
  Hypothesis Hmax : 1 <= max.
  Variable p : mparams.
  Hypothesis Hns : nsinks p = 1.
  Hypothesis Hnonest : no_nest p = false.
  Hypothesis Hreg : c14 p = true -> pullable p = true /\ one_pull p = true.
  Notation o := (take_op max).

  (** The counters are those of a relay (Unary.v) as long as take relays: once [tk_taken = max]
      it swallows the sink's Pulls, and a Pull sent from inside the nth delivery is never
      answered.  That delivery is still pending then (no quiescent point), and when it returns
      take stops the upstream and completes the sink. *)
  Record Inv (c : cfg o) : Prop := {
    i_dead : dead c = false;
    i_base : ubase None (ms c);
    i_phase : phase max (sk (ms c) 0) (us (ms c) 0) (cst c) (stack c);
    i_le : tk_taken (cst c) <= max;
    i_nd : ndata (ms c) 0 = tk_taken (cst c);
    i_zero : c14 p = true -> sk (ms c) 0 = SNone ->
             credit (ms c) 0 = 0 /\ owed (ms c) 0 = 0 /\ npull (ms c) 0 = 0;
    i_cnt : c14 p = true -> us (ms c) 0 = ULive -> tk_taken (cst c) < max ->
            owed (ms c) 0 + ndata (ms c) 0 = npull (ms c) 0 /\
            credit (ms c) 0 + owed (ms c) 0 = 1;
  }.

  Lemma inv0 : Inv (cfg0 o).
  Proof.
    constructor; cbn; auto; try discriminate.
    - apply pbase0.
    - split; [reflexivity | constructor].
    - lia.
  Qed.

  (** what the environment finds when it subscribes, and when the upstream sends something other
      than the greeting (while the nth delivery is pending it is the sink's turn) *)
  Lemma en_sub_take [c s aux] :
    Inv c -> enabled p g_std c (MIn (ISub s aux)) = true ->
    s = 0 /\ aux = 0 /\ sk (ms c) 0 = SNone /\ us (ms c) 0 = UNone /\ tk_taken (cst c) = 0 /\
    low max (stack c).
  Proof.
    intros HI He. destruct (en_sub_std Hns He) as (-> & -> & _ & Hsub).
    pose proof (i_phase HI) as HP. pose proof (pb_subd (i_base HI) Hsub 0) as Hus. rewrite Hus in HP.
    destruct (sk (ms c) 0); cbn in HP; tauto.
  Qed.

  Lemma en_dn_take [c i d] :
    Inv c -> enabled p g_std c (MIn (IDn i d)) = true -> d <> DH ->
    i = 0 /\ sk (ms c) 0 = SLive /\ us (ms c) 0 = ULive /\ tk_tb (cst c) = true /\
    tk_end (cst c) = false /\ tk_taken (cst c) < max /\ low max (stack c).
  Proof.
    intros HI He Hd. destruct (@en_dn p o g_std c i d Hd He) as (Htop & Hus & _).
    assert (i = 0) by (apply (known_used (i_base HI)); congruence). subst i.
    pose proof (i_phase HI) as HP. rewrite Hus in HP. destruct (sk (ms c) 0); cbn in HP; try tauto.
    destruct HP as (Htb & Hend & [[Hlt Hlow] | (_ & v & rest & Hst & _)]); [tauto|].
    destruct (top_sink_not_up c 0 Htop Hst).
  Qed.

  (** the fields of [Inv (step ..)], given the equations [Ec Es] of the step and what the
      lemmas of Ports.v say of its monitor state: left are the phase and the counter equations *)
  Ltac fields Ec Es :=
    cnts; constructor; auto; rewrite ?Ec, ?Es; rw_ports;
    cbn [phase tk_taken tk_tb tk_end]; try lia; try discriminate.

  Lemma inv_sub c s aux : Inv c -> enabled p g_std c (MIn (ISub s aux)) = true ->
                          Inv (step p c (MIn (ISub s aux))).
  Proof.
    intros HI He. destruct (en_sub_take HI He) as (-> & -> & Esk & Eus & Ht0 & Hlow).
    destruct HI as [Hd B _ HL HN HZ HC].
    step_eqs (en_step_in _ _ _ _ He (handle_sub max (cst c))). env_half (pin_sub Em1 B).
    op_half (pcall_sub Em B1 eq_refl); [congruence | now rewrite K1, Esk | exact S1 |].
    fields Ec Es.
    - repeat split. now apply low_cons_done.
    - intros Hc _. destruct (HZ Hc Esk) as (? & ? & ?). lia.
  Qed.

  Lemma inv_up c s u : reach p g_std c -> Inv c -> enabled p g_std c (MIn (IUp s u)) = true ->
                       Inv (step p c (MIn (IUp s u))).
  Proof.
    intros Hr [Hd B HP HL HN HZ HC] He.
    destruct (en_up _ _ _ _ _ He) as (Htop & Esk & Hcr).
    pose proof (live_sink_0 B Esk). subst s. rewrite Esk in HP.
    destruct (us (ms c) 0) eqn:Eus; cbn in HP; try tauto.
    2: { destruct HP as (_ & _ & rest & Hst & _). destruct (top_up_not_sink c 0 Htop Hst). }
    destruct HP as (Htb & Hend & HP).
    destruct (umsg_is_term u) eqn:Hu.
    - (* :179-204 the sink stops the stream *)
      assert (Hnst : nostop (stack c)).
      { destruct HP as [[_ Hlow] | (_ & v & rest & -> & Hlow)];
          [|apply nostop_cons_data]; eapply low_nostop; eassumption. }
      step_eqs (en_step_in _ _ _ _ He (handle_stop max _ _ Hu Htb)). env_half (pin_stop Em1 B Hu).
      op_half (pcall_stop Em B1 Hu); [congruence|].
      fields Ec Es. split; [reflexivity | now apply nostop_cons_done].
    - destruct u; try discriminate.
      destruct HP as [[Hlt Hlow] | (Heq & v & rest & Hst & Hlow)].
      + (* :166 forwarded; under [one_pull] the sink held the credit, so nothing is owed *)
        step_eqs (en_step_in _ _ _ _ He (handle_pull _ Hlt Htb)). env_half (pin_pull Em1 B).
        assert (Hc : c14 p = true -> credit (ms c) 0 = 1 /\ owed (ms c) 0 = 0).
        { intros Hc. destruct (HC Hc eq_refl Hlt). destruct (Hreg Hc) as [_ Hone].
          pose proof (Hcr eq_refl Hone). lia. }
        op_half (pcall_pull Em B1); [congruence | intros Hc'; rewrite O1; now apply Hc |].
        fields Ec Es.
        * repeat split; auto. left. split; [exact Hlt | now apply low_cons_done].
        * intros Hc' _ _. destruct (Hc Hc'), (HC Hc' eq_refl Hlt). lia.
      + (* swallowed; the nth delivery is pending, so this return is not a quiescent point *)
        step_eqs (en_step_in _ _ _ _ He (handle_pull_full _ Heq)).
        pose proof (mon_input_cstack p (ms c) (IUp 0 UP)) as Hcs1.
        rewrite <- Em1, (reach_cstack Hr), Hst in Hcs1. env_half (pin_pull Em1 B).
        done_half done_port0; [|rewrite Hcs1; discriminate..].
        fields Ec Es. repeat split; auto. right. split; [exact Heq|]. now exists v, rest.
  Qed.

  Lemma inv_dn c i d : Inv c -> enabled p g_std c (MIn (IDn i d)) = true ->
                       Inv (step p c (MIn (IDn i d))).
  Proof.
    intros HI He. pose proof (nest_off Hnonest) as Hnn. destruct d as [|v|e|].
    - (* :218-225 the greeting: keep the talkback, greet the sink *)
      destruct HI as [Hd B HP HL HN HZ HC]. destruct (en_greet _ _ _ _ He) as (_ & Eus & _).
      assert (i = 0) by (apply (known_used B); congruence). subst i.
      rewrite Eus in HP. destruct (sk (ms c) 0) eqn:Esk; cbn in HP; try tauto.
      destruct HP as (Ht0 & Hend & Hlow).
      step_eqs (en_step_in _ _ _ _ He (handle_greet max (cst c))).
      env_half (pin_greet Em1 B); [congruence|].
      op_half (pcall_greet Em B1); [congruence|].
      fields Ec Es.
      + repeat split; auto. left. split; [lia | now apply low_cons_done].
      + intros Hc _ _. destruct (HZ Hc eq_refl) as (? & ? & ?). lia.
    - (* :227-234 a datum within the quota: count it, deliver it *)
      destruct (en_dn_take HI He) as (-> & Esk & Eus & Htb & Hend & Hlt & Hlow); [discriminate|].
      destruct (@en_dn p o g_std c 0 (DD v) ltac:(discriminate) He) as (_ & _ & How).
      destruct HI as [Hd B _ HL HN HZ HC].
      step_eqs (en_step_in _ _ _ _ He (handle_data _ v Hlt)). env_half (pin_data Em1 B).
      assert (Hc : c14 p = true -> 0 < owed (ms c) 0 /\
                   owed (ms c) 0 + ndata (ms c) 0 = npull (ms c) 0 /\
                   credit (ms c) 0 + owed (ms c) 0 = 1).
      { intros Hc. split; [exact (How (proj1 (Hreg Hc))) | exact (HC Hc Eus Hlt)]. }
      op_half (pcall_data Em B1 (Hnn _)); [congruence | |]; cnts.
      { intros Hc'. destruct (Hc Hc'). lia. }
      fields Ec Es.
      + repeat split; auto. destruct (Nat.eq_dec (S (tk_taken (cst c))) max) as [E|E].
        * right. split; [exact E|]. rewrite E. now exists v, (stack c).
        * left. split; [lia|]. now apply low_cons_data.
      + intros Hc' _ Hlt'. destruct (Hc Hc') as (? & ? & ?). lia.
    - (* the source fails: [end] is unset, the Error is passed on *)
      destruct (en_dn_take HI He) as (-> & Esk & Eus & Htb & Hend & Hlt & Hlow); [discriminate|].
      destruct HI as [Hd B _ HL HN HZ HC].
      step_eqs (en_step_in _ _ _ _ He (handle_end max _ (DE e) eq_refl Hend)).
      env_half (pin_error Em1 B Hns Esk); [congruence|].
      op_half (pcall_error Em B1 (Hnn _)); [congruence|].
      fields Ec Es. now apply low_cons_done.
    - (* the source completes *)
      destruct (en_dn_take HI He) as (-> & Esk & Eus & Htb & Hend & Hlt & Hlow); [discriminate|].
      destruct HI as [Hd B _ HL HN HZ HC].
      step_eqs (en_step_in _ _ _ _ He (handle_end max _ DT eq_refl Hend)).
      env_half (pin_term Em1 B); [congruence|].
      op_half (pcall_term Em B1 (Hnn _)); [congruence|].
      fields Ec Es. now apply low_cons_done.
  Qed.

  Lemma inv_ret c :
    reach p g_std c -> Inv c -> enabled p g_std c MRet = true -> Inv (step p c MRet).
  Proof.
    intros Hr [Hd B HP HL HN HZ HC] He. destruct (en_ret _ _ _ He) as (k & cl & rest & Hst & _).
    rewrite Hst in HP. pose proof (nest_off Hnonest) as Hnn.
    assert (Hcs : cstack (mon_event p (ms c) ERet) = map snd rest).
    { cbn. now rewrite (reach_cstack Hr), Hst. }
    destruct (phase_pop max _ _ _ _ _ _ HP)
      as [[Hres HP'] | [(Esk & Eus & -> & Htb & Hend & Heq & Hlow)
                       | (Esk & Eus & -> & Hend & Heq & Hns')]].
    - (* the frame does nothing: the phase is kept; if the stack is empty now this is a
         quiescent point *)
      step_eqs (en_step_ret _ _ _ He Hst Hres). rewrite <- Em1 in Hcs. env_half (pin_ret Em1 B).
      pose proof (cnt3_eq C1) as (Cc & Cp & Cd).
      done_half done_port0; rewrite ?K1, ?U1, ?O1, ?Cp, ?Cd.
      + constructor; auto; rewrite ?Ec, ?Es, ?K1, ?U1, ?O1, ?Cc, ?Cp, ?Cd; auto.
      + intros _. exact (phase_over max _ _ _ _ HP').
      + rewrite Hcs. intros Hnil Hc E. destruct rest; [|discriminate].
        split; [exact (phase_live_up max _ _ HP' E)|]. rewrite E in HP'.
        destruct (phase_rest_live max _ _ HP') as [Eu Hlt]. destruct (HC Hc Eu Hlt). lia.
    - (* :235-250 the nth delivery returns and the sink did not dispose: stop the upstream *)
      step_eqs (en_step_ret _ _ _ He Hst (resume_nth max _ Hend Htb)). env_half (pin_ret Em1 B).
      op_half (pcall_stop Em B1 (u := UT) eq_refl); [congruence|].
      fields Ec Es. repeat split; auto. exists rest. split; [reflexivity|].
      exact (low_nostop Hlow).
    - (* :251-255 the upstream has been stopped: complete the sink *)
      step_eqs (en_step_ret _ _ _ He Hst (resume_stop max (cst c))). env_half (pin_ret Em1 B).
      op_half (pcall_term Em B1 (Hnn _)); [congruence|].
      fields Ec Es. repeat split; auto. now apply nostop_cons_done.
  Qed.

  Theorem take_reach c : reach p g_std c -> Inv c.
  Proof.
    apply reach_invariant; [exact inv0|]. intros c' m Hr HI He.
    destruct m as [[s aux|s u|i d|s]|].
    - now apply inv_sub.
    - now apply inv_up.
    - now apply inv_dn.
    - destruct (en_tick _ _ _ _ He) as [_ Ht]. now rewrite (pb_task (i_base HI)) in Ht.
    - now apply inv_ret.
  Qed.

  (** the counter cell counts the data received so far, up to [max]; what was
      sent are the first [max] of them *)
  Lemma take_count (c : cfg o) :
    reach p g_std c ->
    tk_taken (cst c) = Nat.min max (length (data_in 0 (trace c))) /\
    data_out 0 (trace c) = firstn max (data_in 0 (trace c)).
  Proof.
    induction 1 as [|c m Hr [Ha IH] He].
    { split; [now rewrite Nat.min_0_r | now rewrite firstn_nil]. }
    pose proof (take_reach Hr) as HI.
    pose proof (enabled_live _ _ _ _ He) as Hlive.
    destruct m as [inp|].
    - pose proof (enabled_deliverable _ _ _ _ He) as Hdel.
      destruct (handle o inp (cst c)) as [[s' os] a] eqn:Hh.
      destruct (en_step_in _ _ _ _ He Hh) as (Ec & _).
      rewrite (step_in_trace p c inp Hlive Hdel Hh), data_out_app, data_in_app, Ec, IH.
      assert (Hlt : (tk_taken (cst c) <? max) = (length (data_in 0 (trace c)) <? max)).
      { rewrite Ha. destruct (Nat.ltb_spec (length (data_in 0 (trace c))) max) as [L|L];
          [apply Nat.ltb_lt | apply Nat.ltb_ge]; lia. }
      destruct inp as [[|s] aux|[|s] [|e|]|[|i] [|v|e|]|s]; cbn -[Nat.ltb] in Hh; split_ifs Hh;
        ltb_props; inversion Hh; subst s' os a; cbn -[Nat.ltb firstn]; rewrite ?app_nil_r; auto.
      + (* the subscription resets the counter: nothing was received before *)
        destruct (en_sub_take HI He) as (_ & _ & _ & _ & Ht0 & _). split; [lia | reflexivity].
      + rewrite firstn_snoc, <- Hlt, app_length. cbn. split; [lia | reflexivity].
      + rewrite firstn_snoc, <- Hlt, app_length, app_nil_r. cbn. split; [lia | reflexivity].
    - destruct (enabled_ret_stack _ _ _ He) as (k & cl & rest & Hst).
      destruct (resume o k (cst c)) as [[s' os] a] eqn:Hres.
      destruct (en_step_ret _ _ _ He Hst Hres) as (Ec & _).
      rewrite (step_ret_trace p c Hlive Hst Hres), data_out_app, data_in_app, Ec.
      destruct k as [|t|]; cbn in Hres; split_ifs Hres; inversion Hres; subst s' os a; cbn;
        now rewrite !app_nil_r.
  Qed.

  (** never more than [max] items; at a quiescent point after the nth item the sink is over and
      the upstream is not live any more *)
  Lemma take_complete_all (c : cfg o) :
    reach p g_std c ->
    ndata (ms c) 0 <= max /\
    (stack c = [] -> max <= ndata (ms c) 0 ->
     sk_over (sk (ms c) 0) = true /\ us_live (us (ms c) 0) = false).
  Proof.
    intros Hr. destruct (take_reach Hr) as [_ _ HP HL HN _ _]. split; [lia|].
    intros Hst Hn. rewrite Hst in HP.
    destruct (sk (ms c) 0), (us (ms c) 0); cbn in HP; try tauto; try (now split); exfalso.
    - destruct HP as (Ht0 & _). lia.
    - destruct HP as (Ht0 & _). lia.
    - destruct HP as (_ & _ & [[Hlt _] | (_ & v & rest & Hnil & _)]); [lia | discriminate].
    - destruct HP as (_ & _ & rest & Hnil & _). discriminate.
  Qed.
End TakeReach.

Lemma inv_reach max (Hmax : 1 <= max) p :
  nsinks p = 1 -> resub p = false -> no_nest p = false -> c14 p = false ->
  forall c : cfg (take_op max), reach p g_std c -> Inv p c.
Proof.
  intros H1 _ H3 H4. apply take_reach; [exact Hmax | exact H1 | exact H3 | congruence].
Qed.

Lemma inv_reach_pull max (Hmax : 1 <= max) p :
  nsinks p = 1 -> resub p = false -> no_nest p = false ->
  c14 p = true -> pullable p = true -> one_pull p = true ->
  forall c : cfg (take_op max), reach p g_std c -> Inv p c.
Proof.
  intros H1 _ H3 _ H5 H6. apply take_reach; [exact Hmax | exact H1 | exact H3 | auto].
Qed.

Lemma inv_safe max p (c : cfg (take_op max)) : Inv p c -> viols (ms c) = [] /\ dead c = false.
Proof. intros HI. split; [apply (pb_viols (i_base HI)) | apply (i_dead HI)]. Qed.

(** no protocol violation and no panic in any reachable configuration *)
Theorem take_safe p :
  nsinks p = 1 -> resub p = false -> no_nest p = false -> c14 p = false ->
  forall max, 1 <= max ->
  forall c : cfg (take_op max), reach p g_std c -> viols (ms c) = [] /\ dead c = false.
Proof. intros H1 H2 H3 H4 max Hmax c Hr. exact (inv_safe (inv_reach Hmax H1 H2 H3 H4 Hr)). Qed.
Print Assumptions take_safe.

(** C07 for take: at every control point the data delivered so far are the
    first [max] of the data received so far *)
Theorem take_functional p :
  nsinks p = 1 -> resub p = false -> no_nest p = false -> c14 p = false ->
  forall max, 1 <= max ->
  forall c : cfg (take_op max), reach p g_std c ->
  data_out 0 (trace c) = firstn max (data_in 0 (trace c)).
Proof.
  intros H1 _ H3 H4 max Hmax c Hr. exact (proj2 (take_count Hmax H1 H3 (no_c14 H4) Hr)).
Qed.
Print Assumptions take_functional.

Theorem take_complete p :
  nsinks p = 1 -> resub p = false -> no_nest p = false -> c14 p = false ->
  forall max, 1 <= max ->
  forall c : cfg (take_op max), reach p g_std c ->
  ndata (ms c) 0 <= max /\
  (stack c = [] -> max <= ndata (ms c) 0 -> sk (ms c) 0 <> SLive /\ us (ms c) 0 <> ULive).
Proof.
  intros H1 _ H3 H4 max Hmax c Hr.
  destruct (take_complete_all Hmax H1 H3 (no_c14 H4) Hr) as [Hle Hq].
  split; [exact Hle|]. intros Hst Hn. destruct (Hq Hst Hn) as [Hk Hu].
  split; intros E; rewrite E in *; discriminate.
Qed.
Print Assumptions take_complete.

(** a sanity check that the theorems are not vacuous: the fully nested run of
    take(2) (every message is sent from inside the handler of the previous
    one) is a conformant script, it ends quiescent with both items delivered,
    the sink completed and the upstream stopped *)
Module TakeSanity.
  Definition p0 : mparams :=
    {| nsinks := 1; late_ok := false; pullable := false; one_pull := false;
       resub := false; no_nest := false; c14 := false |}.
  Definition script : list move :=
    [MIn (ISub 0 0); MIn (IDn 0 DH); MIn (IUp 0 UP); MIn (IDn 0 (DD (VN 1)));
     MIn (IUp 0 UP); MIn (IDn 0 (DD (VN 2))); MIn (IUp 0 UP);
     MRet; MRet; MRet; MRet; MRet; MRet; MRet; MRet].
  Example script_enabled : all_enabled p0 g_std (cfg0 (take_op 2)) script = true.
  Proof. vm_compute. reflexivity. Qed.
  Example script_end :
    let c := run p0 (take_op 2) script in
    stack c = [] /\ data_out 0 (trace c) = [VN 1; VN 2] /\
    sk (ms c) 0 = SFinished /\ us (ms c) 0 = UStopped /\ viols (ms c) = [].
  Proof. vm_compute. repeat split; reflexivity. Qed.
End TakeSanity.
