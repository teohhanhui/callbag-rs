(** * Inv_take_pull: property C14 (demand conservation) for take in the pull regime.

    The invariant is [Inv_take.Inv], whose counting part is that of a relay (Unary.v)
    restricted to the part of the run in which take still forwards Pulls: while sink 0 and
    upstream 0 are live and [tk_taken < max]

        owed 0 + ndata 0 = npull 0      (every Pull is answered or owed upstream)
        credit 0 + owed 0 = 1           (the single credit is with the sink or upstream)

    Once [tk_taken = max] take swallows the sink's Pulls, so the first equation
    breaks (a Pull the sink sends from inside the nth delivery is never
    answered by a Data).  This is harmless: in that phase the nth delivery is
    still pending (no quiescent point), and when it returns take stops the
    upstream and completes the sink, so at the next quiescent point the sink is
    no longer live and [VUnanswered] is not checked.  No Pull is forwarded and
    no Data is delivered after the nth item, so [VOverPull]/[VOverData] are not
    checked there either. *)
From CB Require Import Unary Inv_take.

Set Implicit Arguments.

Section TakePull.
  Variable max : nat.

  Definition fr_low (fc : take_fr * call) : Prop :=
    match fst fc with TkDone => True | TkAfterData t => t <> max | TkAfterStop => False end.
  Definition fr_nostop (fc : take_fr * call) : Prop :=
    match fst fc with TkAfterStop => False | _ => True end.
  Definition low := Forall fr_low.
  Definition nostop := Forall fr_nostop.

  Lemma low_nostop stk : low stk -> nostop stk.
  Proof. exact (@Inv_take.low_nostop max stk). Qed.

  Lemma low_cons_done cl stk : low stk -> low ((TkDone, cl) :: stk).
  Proof. exact (@Inv_take.low_cons_done max cl stk). Qed.

  Lemma nostop_cons_done cl stk : nostop stk -> nostop ((TkDone, cl) :: stk).
  Proof. exact (@Inv_take.nostop_cons_done cl stk). Qed.

  Lemma nostop_cons_data t cl stk : nostop stk -> nostop ((TkAfterData t, cl) :: stk).
  Proof. exact (@Inv_take.nostop_cons_data t cl stk). Qed.
End TakePull.

(** C14 for take: no over-pull, no unrequested data, no unanswered pull (and
    none of the C01-C05, C17 violations either) in the pull regime *)
Theorem take_safe_pull p :
  nsinks p = 1 -> resub p = false -> no_nest p = false ->
  c14 p = true -> pullable p = true -> one_pull p = true ->
  forall max, 1 <= max ->
  forall c : cfg (take_op max), reach p g_std c -> viols (ms c) = [] /\ dead c = false.
Proof.
  intros H1 H2 H3 H4 H5 H6 max Hmax c Hr.
  exact (inv_safe (inv_reach_pull Hmax H1 H2 H3 H4 H5 H6 Hr)).
Qed.
Print Assumptions take_safe_pull.

(** the demand-conservation equations themselves, while take still forwards *)
Theorem take_counts_pull p :
  nsinks p = 1 -> resub p = false -> no_nest p = false ->
  c14 p = true -> pullable p = true -> one_pull p = true ->
  forall max, 1 <= max ->
  forall c : cfg (take_op max), reach p g_std c ->
  sk (ms c) 0 = SLive -> us (ms c) 0 = ULive -> ndata (ms c) 0 < max ->
  owed (ms c) 0 + ndata (ms c) 0 = npull (ms c) 0 /\ credit (ms c) 0 + owed (ms c) 0 = 1.
Proof.
  intros H1 H2 H3 H4 H5 H6 max Hmax c Hr _ Hu Hlt.
  pose proof (inv_reach_pull Hmax H1 H2 H3 H4 H5 H6 Hr) as HI.
  apply (i_cnt HI H4 Hu). now rewrite <- (i_nd HI).
Qed.
Print Assumptions take_counts_pull.

(** a sanity check that the theorem is not vacuous: the fully nested run of
    take(2) is a conformant script of the pull regime.  Every message is sent
    from inside the handler of the previous one; the sink's third Pull, sent
    from inside the second (= nth) delivery, is swallowed by take, and yet no
    [VUnanswered] is due: when the run is quiescent again the sink has been
    completed.  The counts end at npull = 3, ndata = 2. *)
Module TakePullSanity.
  Definition p0 : mparams :=
    {| nsinks := 1; late_ok := false; pullable := true; one_pull := true;
       resub := false; no_nest := false; c14 := true |}.
  Definition script : list move :=
    [MIn (ISub 0 0); MIn (IDn 0 DH); MIn (IUp 0 UP); MIn (IDn 0 (DD (VN 1)));
     MIn (IUp 0 UP); MIn (IDn 0 (DD (VN 2))); MIn (IUp 0 UP);
     MRet; MRet; MRet; MRet; MRet; MRet; MRet; MRet].
  Example script_enabled : all_enabled p0 g_std (cfg0 (take_op 2)) script = true.
  Proof. vm_compute. reflexivity. Qed.
  Example script_end :
    let c := run p0 (take_op 2) script in
    stack c = [] /\ data_out 0 (trace c) = [VN 1; VN 2] /\
    sk (ms c) 0 = SFinished /\ us (ms c) 0 = UStopped /\
    npull (ms c) 0 = 3 /\ ndata (ms c) 0 = 2 /\ viols (ms c) = [].
  Proof. vm_compute. repeat split; reflexivity. Qed.
  (** the regime's restrictions bite: a second Pull without a message in
      between, and a Data nobody asked for, are not conformant moves *)
  Example double_pull_disabled :
    all_enabled p0 g_std (cfg0 (take_op 2))
      [MIn (ISub 0 0); MIn (IDn 0 DH); MIn (IUp 0 UP); MRet; MRet; MRet; MIn (IUp 0 UP)] = false.
  Proof. vm_compute. reflexivity. Qed.
  Example unasked_data_disabled :
    all_enabled p0 g_std (cfg0 (take_op 2))
      [MIn (ISub 0 0); MIn (IDn 0 DH); MRet; MRet; MIn (IDn 0 (DD (VN 1)))] = false.
  Proof. vm_compute. reflexivity. Qed.
End TakePullSanity.
