(** * CountFacts: what the invariants of merge and combine share: counting the members below [n]
      that satisfy a test, and [find_from] (the loops over the member slots). *)
From CB Require Import ProofLib.

Set Implicit Arguments.

Fixpoint count (f : nat -> bool) (n : nat) : nat :=
  match n with
  | 0 => 0
  | S m => (if f m then 1 else 0) + count f m
  end.

Lemma count_le f n : count f n <= n.
Proof. induction n as [|n IH]; cbn; [lia|]. destruct (f n); lia. Qed.

Lemma count_ext f g n : (forall k, k < n -> f k = g k) -> count f n = count g n.
Proof.
  induction n as [|n IH]; intros H; cbn; [reflexivity|].
  rewrite (H n) by lia. rewrite IH; [reflexivity|]. intros k Hk. apply H. lia.
Qed.

Lemma count_zero f n : (forall k, k < n -> f k = false) -> count f n = 0.
Proof.
  induction n as [|n IH]; intros H; cbn; [reflexivity|].
  rewrite (H n) by lia. rewrite IH; [reflexivity|]. intros k Hk. apply H. lia.
Qed.

Lemma count_full f n : count f n = n -> forall k, k < n -> f k = true.
Proof.
  induction n as [|n IH]; intros H k Hk; [lia|]. cbn in H.
  pose proof (count_le f n) as Hle.
  destruct (f n) eqn:E; [|lia].
  destruct (Nat.eq_dec k n) as [->|Hne]; [exact E|]. apply IH; lia.
Qed.

Lemma count_lt f n k : k < n -> f k = false -> count f n < n.
Proof.
  intros Hk Hf. pose proof (count_le f n) as Hle.
  destruct (Nat.eq_dec (count f n) n) as [E|E]; [|lia].
  rewrite (count_full f E Hk) in Hf. discriminate.
Qed.

Lemma count_lt_ex f n : count f n < n -> exists k, k < n /\ f k = false.
Proof.
  induction n as [|n IH]; cbn; intros H; [lia|]. destruct (f n) eqn:E.
  - destruct IH as (k & Hk & Hf); [lia|]. exists k. split; [lia|exact Hf].
  - exists n. split; [lia|exact E].
Qed.

Lemma count_all f n : (forall k, k < n -> f k = true) -> count f n = n.
Proof.
  intros H. pose proof (count_le f n) as Hle.
  destruct (Nat.eq_dec (count f n) n) as [E|E]; [exact E|].
  destruct (@count_lt_ex f n) as (k & Hk & Hf); [lia|]. rewrite H in Hf by exact Hk. discriminate.
Qed.

(** one more index satisfies the predicate *)
Lemma count_flip f g n k :
  k < n -> f k = false -> g k = true -> (forall j, j < n -> j <> k -> g j = f j) ->
  count g n = S (count f n).
Proof.
  induction n as [|n IH]; intros Hk Hf Hg H; [lia|]. cbn.
  destruct (Nat.eq_dec k n) as [->|Hne].
  - rewrite Hf, Hg. cbn. f_equal. apply count_ext. intros j Hj. apply H; lia.
  - rewrite (H n) by lia. rewrite IH; try assumption; try lia.
    intros j Hj Hjk. apply H; lia.
Qed.

Lemma find_from_some ok j fuel j' :
  find_from ok j fuel = Some j' ->
  j <= j' /\ j' < j + fuel /\ ok j' = true /\ forall k, j <= k -> k < j' -> ok k = false.
Proof.
  revert j. induction fuel as [|fuel IH]; intros j H; cbn in H; [discriminate|].
  destruct (ok j) eqn:E.
  - inversion H; subst. repeat split; try lia; try assumption.
  - destruct (IH _ H) as (H1 & H2 & H3 & H4). repeat split; try lia; try assumption.
    intros k Hk1 Hk2. destruct (Nat.eq_dec k j) as [->|Hne]; [exact E|]. apply H4; lia.
Qed.

Lemma find_from_none ok j fuel :
  find_from ok j fuel = None -> forall k, j <= k -> k < j + fuel -> ok k = false.
Proof.
  revert j. induction fuel as [|fuel IH]; intros j H k H1 H2; cbn in H; [lia|].
  destruct (ok j) eqn:E; [discriminate|].
  destruct (Nat.eq_dec k j) as [->|Hne]; [exact E|]. apply (IH _ H); lia.
Qed.

(** [find_from] is the head of a [filter] *)
Lemma filter_find_some ok j fuel j' :
  find_from ok j fuel = Some j' ->
  filter ok (seq j fuel) = j' :: filter ok (seq (S j') (j + fuel - S j')).
Proof.
  intros H. destruct (find_from_some _ _ _ H) as (H1 & H2 & H3 & H4).
  replace fuel with ((j' - j) + S (j + fuel - S j')) at 1 by lia.
  rewrite seq_app, filter_app, filter_nil.
  - replace (j + (j' - j)) with j' by lia. cbn. now rewrite H3.
  - intros k Hk. apply in_seq in Hk. apply H4; lia.
Qed.

Lemma filter_find_none ok j fuel : find_from ok j fuel = None -> filter ok (seq j fuel) = [].
Proof.
  intros H. apply filter_nil. intros k Hk. apply in_seq in Hk. apply (@find_from_none _ _ _ H); lia.
Qed.
