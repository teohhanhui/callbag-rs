(** * Flow: message sequences and demand counts of a trace.

    The safety theorems (C01-C05, C17) and the functional equations (C07) say what a component never
    does and what its data are.  The "completes without stalling" half of C06 needs more: how many
    Pulls went up against how many came down, and who ended first.  This file defines the
    projections of a trace those statements talk about, and what is to be proved of a stage
    ([stage_flow], fields [sf_]), a sink ([sink_flow], [kf_]) and a source ([source_flow], [rf_]). *)

From CB Require Import ProofLib Spec.

Set Implicit Arguments.

(** ** The four message sequences at port 0, in order.
    Upward messages are [None] for the subscription itself and [Some u] for a talkback call. *)

Fixpoint up_in (tr : list event) : list (option umsg) :=
  match tr with
  | [] => []
  | EIn (ISub 0 _) :: tr' => None :: up_in tr'
  | EIn (IUp 0 u) :: tr' => Some u :: up_in tr'
  | _ :: tr' => up_in tr'
  end.

Fixpoint up_out (tr : list event) : list (option umsg) :=
  match tr with
  | [] => []
  | ECall (CSub 0) :: tr' => None :: up_out tr'
  | ECall (CUp 0 u) :: tr' => Some u :: up_out tr'
  | _ :: tr' => up_out tr'
  end.

Fixpoint dn_in (tr : list event) : list dmsg :=
  match tr with
  | [] => []
  | EIn (IDn 0 d) :: tr' => d :: dn_in tr'
  | _ :: tr' => dn_in tr'
  end.

Fixpoint dn_out (tr : list event) : list dmsg :=
  match tr with
  | [] => []
  | ECall (CDn 0 d) :: tr' => d :: dn_out tr'
  | _ :: tr' => dn_out tr'
  end.

(** ** Counts *)

Definition is_pull (x : option umsg) : bool := match x with Some UP => true | _ => false end.
Definition is_sub (x : option umsg) : bool := match x with None => true | _ => false end.
Definition is_stop (x : option umsg) : bool :=
  match x with Some (UE _) | Some UT => true | _ => false end.
Definition is_hs (d : dmsg) : bool := match d with DH => true | _ => false end.
Definition is_data (d : dmsg) : bool := match d with DD _ => true | _ => false end.
Definition is_end (d : dmsg) : bool := match d with DT | DE _ => true | _ => false end.

Definition cnt A (f : A -> bool) (l : list A) : nat := length (filter f l).

Lemma cnt_app A (f : A -> bool) l1 l2 : cnt f (l1 ++ l2) = cnt f l1 + cnt f l2.
Proof. unfold cnt. now rewrite filter_app, app_length. Qed.

Lemma cnt_nil A (f : A -> bool) : cnt f [] = 0.
Proof. reflexivity. Qed.

Lemma cnt_cons A (f : A -> bool) x l : cnt f (x :: l) = (if f x then 1 else 0) + cnt f l.
Proof. unfold cnt. cbn. destruct (f x); reflexivity. Qed.

Lemma cnt_le_length A (f : A -> bool) l : cnt f l <= length l.
Proof. unfold cnt. induction l as [|x l IH]; cbn; [lia|]. destruct (f x); cbn; lia. Qed.

(** ** Projections and counts in general.
    Every sequence and every count of this development is read off the trace event by event and
    ignores observations; what is proved from that alone is proved here once. *)

Record projection A (f : list event -> list A) : Prop := {
  p_nil : f [] = [];
  p_cons : forall e tr, f (e :: tr) = f [e] ++ f tr;
  p_obs : forall ob, f [EObs ob] = [];
}.

Record counter (c : list event -> nat) : Prop := {
  c_nil : c [] = 0;
  c_cons : forall e tr, c (e :: tr) = c [e] + c tr;
  c_obs : forall ob, c [EObs ob] = 0;
}.

Section Projection.
  Variables (A : Type) (f : list event -> list A).
  Hypothesis Hf : projection f.

  Lemma proj_app tr1 tr2 : f (tr1 ++ tr2) = f tr1 ++ f tr2.
  Proof.
    induction tr1 as [|e tr1 IH]; cbn [app]; [now rewrite (p_nil Hf)|].
    now rewrite (p_cons Hf e (tr1 ++ tr2)), (p_cons Hf e tr1), IH, app_assoc.
  Qed.

  Lemma proj_obs os : f (map EObs os) = [].
  Proof.
    induction os as [|ob os IH]; cbn [map]; [exact (p_nil Hf)|].
    now rewrite (p_cons Hf (EObs ob) (map EObs os)), (p_obs Hf), IH.
  Qed.

  Lemma proj_step tr e os fin : f (tr ++ e :: map EObs os ++ [fin]) = f tr ++ f [e] ++ f [fin].
  Proof. now rewrite proj_app, (p_cons Hf e (map EObs os ++ [fin])), proj_app, proj_obs. Qed.

  Lemma proj_counter (g : A -> bool) : counter (fun tr => cnt g (f tr)).
  Proof.
    split.
    - now rewrite (p_nil Hf).
    - intros e tr. now rewrite (p_cons Hf e tr), cnt_app.
    - intros ob. now rewrite (p_obs Hf).
  Qed.
End Projection.

Lemma cnt_counter (g : event -> bool) : (forall ob, g (EObs ob) = false) -> counter (cnt g).
Proof.
  intros Hg. split; [reflexivity | intros e tr; exact (cnt_app g [e] tr) |].
  intros ob. now rewrite cnt_cons, Hg.
Qed.

Section Counter.
  Variable c : list event -> nat.
  Hypothesis Hc : counter c.

  Lemma count_app tr1 tr2 : c (tr1 ++ tr2) = c tr1 + c tr2.
  Proof.
    induction tr1 as [|e tr1 IH]; cbn [app]; [now rewrite (c_nil Hc)|].
    rewrite (c_cons Hc e (tr1 ++ tr2)), (c_cons Hc e tr1), IH. lia.
  Qed.

  Lemma count_obs os : c (map EObs os) = 0.
  Proof.
    induction os as [|ob os IH]; cbn [map]; [exact (c_nil Hc)|].
    now rewrite (c_cons Hc (EObs ob) (map EObs os)), (c_obs Hc), IH.
  Qed.

  Lemma count_step tr e os fin :
    c (tr ++ e :: map EObs os ++ [fin]) = c tr + c [e] + c [fin].
  Proof. rewrite count_app, (c_cons Hc e (map EObs os ++ [fin])), count_app, count_obs. lia. Qed.
End Counter.

Lemma up_in_proj : projection up_in.
Proof.
  split; [reflexivity | | reflexivity].
  intros [[[|s] a|[|s] u|j d|s]|c| | |ob|] tr; reflexivity.
Qed.

Lemma up_out_proj : projection up_out.
Proof.
  split; [reflexivity | | reflexivity].
  intros [i|[[|j]|[|j] u|s d]| | |ob|] tr; reflexivity.
Qed.

Lemma dn_in_proj : projection dn_in.
Proof.
  split; [reflexivity | | reflexivity].
  intros [[s a|s u|[|j] d|s]|c| | |ob|] tr; reflexivity.
Qed.

Lemma dn_out_proj : projection dn_out.
Proof.
  split; [reflexivity | | reflexivity].
  intros [i|[j|j u|[|s] d]| | |ob|] tr; reflexivity.
Qed.

Definition up_in_app := proj_app up_in_proj.
Definition up_out_app := proj_app up_out_proj.
Definition dn_in_app := proj_app dn_in_proj.
Definition dn_out_app := proj_app dn_out_proj.
Definition up_in_obs := proj_obs up_in_proj.
Definition up_out_obs := proj_obs up_out_proj.
Definition dn_in_obs := proj_obs dn_in_proj.
Definition dn_out_obs := proj_obs dn_out_proj.

(** Pulls received from the sink / sent to the upstream; greetings and data in both directions *)
Definition pin (tr : list event) : nat := cnt is_pull (up_in tr).
Definition pout (tr : list event) : nat := cnt is_pull (up_out tr).
Definition hin (tr : list event) : nat := cnt is_hs (dn_in tr).
Definition hout (tr : list event) : nat := cnt is_hs (dn_out tr).
Definition din (tr : list event) : nat := cnt is_data (dn_in tr).
Definition dout (tr : list event) : nat := cnt is_data (dn_out tr).

Definition pin_counter : counter pin := proj_counter up_in_proj is_pull.
Definition pout_counter : counter pout := proj_counter up_out_proj is_pull.
Definition hin_counter : counter hin := proj_counter dn_in_proj is_hs.
Definition hout_counter : counter hout := proj_counter dn_out_proj is_hs.
Definition din_counter : counter din := proj_counter dn_in_proj is_data.
Definition dout_counter : counter dout := proj_counter dn_out_proj is_data.

(** what one step appends, in the shape the per-operator proofs rewrite with *)
Definition pin_step := count_step pin_counter.
Definition pout_step := count_step pout_counter.
Definition hin_step := count_step hin_counter.
Definition hout_step := count_step hout_counter.
Definition din_step := count_step din_counter.
Definition dout_step := count_step dout_counter.

(** the data projections of Spec.v are the payloads of the data messages *)
Definition payloads (l : list dmsg) : list val :=
  flat_map (fun d => match d with DD v => [v] | _ => [] end) l.

Lemma payloads_length l : length (payloads l) = cnt is_data l.
Proof.
  unfold cnt, payloads. induction l as [|d l IH]; cbn; [reflexivity|].
  destruct d; cbn; rewrite ?IH; reflexivity.
Qed.

Lemma data_in_payloads tr : data_in 0 tr = payloads (dn_in tr).
Proof.
  induction tr as [|e tr IH]; cbn; [reflexivity|].
  destruct e as [[s a|s u|[|j] [|v|x|]|s]|c| | |ob|]; cbn; rewrite ?IH; reflexivity.
Qed.

Lemma data_out_payloads tr : data_out 0 tr = payloads (dn_out tr).
Proof.
  induction tr as [|e tr IH]; cbn; [reflexivity|].
  destruct e as [i|[j|j u|[|s] [|v|x|]]| | |ob|]; cbn; rewrite ?IH; reflexivity.
Qed.

Lemma din_data_in tr : din tr = length (data_in 0 tr).
Proof. unfold din. now rewrite data_in_payloads, payloads_length. Qed.

Lemma dout_data_out tr : dout tr = length (data_out 0 tr).
Proof. unfold dout. now rewrite data_out_payloads, payloads_length. Qed.

Definition ev_counts (e : event) : nat * nat * nat * nat * nat * nat :=
  (pin [e], pout [e], hin [e], hout [e], din [e], dout [e]).


(** ** Static facts about the calls an operator can make *)

Definition calls_sat (P : call -> Prop) (o : op) : Prop :=
  (forall i s s' os c k, handle o i s = (s', os, ACall c k) -> P c) /\
  (forall fr s s' os c k, resume o fr s = (s', os, ACall c k) -> P c).

Definition port0 (c : call) : Prop :=
  c = CSub 0 \/ (exists u, c = CUp 0 u) \/ (exists d, c = CDn 0 d).
Definition only_dn (c : call) : Prop := exists d, c = CDn 0 d.
Definition only_up (c : call) : Prop := c = CSub 0 \/ exists u, c = CUp 0 u.

Definition n_in (tr : list event) : nat :=
  cnt (fun e => match e with EIn _ => true | _ => false end) tr.
Definition n_ret (tr : list event) : nat :=
  cnt (fun e => match e with ERet => true | _ => false end) tr.
Definition n_call (tr : list event) : nat :=
  cnt (fun e => match e with ECall _ => true | _ => false end) tr.

Definition n_in_counter : counter n_in := cnt_counter _ (fun _ => eq_refl).
Definition n_ret_counter : counter n_ret := cnt_counter _ (fun _ => eq_refl).
Definition n_call_counter : counter n_call := cnt_counter _ (fun _ => eq_refl).

(** ** The flow facts a pipeline stage must provide (proved per operator in Flow_*.v).
    [bound] is [Some n] for take(n), which may end the stream by itself, and [None] otherwise. *)

Record stage_flow (o : op) (p : mparams) (bound : option nat) : Prop := {
  (* demand is never invented: a Pull sent up is a Pull received or a datum swallowed *)
  sf_demand_le : forall c : cfg o, reach p g_std c ->
      pout (trace c) + dout (trace c) <= pin (trace c) + din (trace c);
  (* and none is lost while the stage is at rest and live *)
  sf_demand_eq : forall c : cfg o, reach p g_std c -> stack c = [] -> sk (ms c) 0 = SLive ->
      pout (trace c) + dout (trace c) = pin (trace c) + din (trace c);
  (* the sink is greeted only after the upstream greeted *)
  sf_greet : forall c : cfg o, reach p g_std c -> hout (trace c) <= hin (trace c);
  (* at rest, subscribed and not yet greeting: the upstream was subscribed and has not greeted *)
  sf_wait : forall c : cfg o, reach p g_std c -> stack c = [] ->
      subd (ms c) 0 = true -> sk (ms c) 0 = SNone -> us (ms c) 0 = USubd;
  (* at rest, a live sink means a live upstream *)
  sf_live : forall c : cfg o, reach p g_std c -> stack c = [] ->
      sk (ms c) 0 = SLive -> us (ms c) 0 = ULive;
  (* at rest, a sink that was told the end: either the upstream ended, or (take) the quota is full *)
  sf_fin : forall c : cfg o, reach p g_std c -> stack c = [] ->
      sk (ms c) 0 = SFinished ->
      us (ms c) 0 = UEnded \/ (exists n, bound = Some n /\ dout (trace c) = n);
  sf_calls : calls_sat port0 o;
}.

(** for_each: one Pull per greeting or datum received, never stops its source *)
Record sink_flow (o : op) (p : mparams) : Prop := {
  kf_pulls : forall c : cfg o, reach p g_std c -> pout (trace c) = hin (trace c) + din (trace c);
  kf_nostop : forall c : cfg o, reach p g_std c -> us (ms c) 0 <> UStopped;
  kf_subd : forall c : cfg o, reach p g_std c -> subd (ms c) 0 = true -> us (ms c) 0 <> UNone;
  kf_calls : calls_sat only_up o;
}.

(** from_iter, when its sink sends at most one Pull per message it received ([one_pull]): at rest
    every Pull has been served by exactly one datum *)
Record source_flow (o : op) (p : mparams) : Prop := {
  rf_served : forall c : cfg o, reach p g_std c -> stack c = [] -> sk (ms c) 0 = SLive ->
      pin (trace c) = dout (trace c);
  rf_calls : calls_sat only_dn o;
}.
