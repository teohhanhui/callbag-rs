(** * MachineFacts: generic lemmas about the machine, used by every Inv_*.v *)
From CB Require Export Machine.

Set Implicit Arguments.

Lemma add_viols_eq vs m : add_viols vs m = m <| viols := vs ++ viols m |>.
Proof.
  unfold add_viols. induction vs as [|v vs IH]; cbn.
  - destruct m; reflexivity.
  - rewrite IH. reflexivity.
Qed.

Lemma mon_call_upd_frame m c :
  cstack (mon_call_upd m c) = cstack m /\ viols (mon_call_upd m c) = viols m /\
  task (mon_call_upd m c) = task m /\ npull (mon_call_upd m c) = npull m.
Proof.
  destruct c as [i|i [| |]|s [|v|e|]]; cbn; try (repeat split; reflexivity).
  - destruct (sk m s); repeat split.
  - destruct (sk m s), (err_due m s) as [e'|]; try destruct (Nat.eqb e e'); repeat split.
  - destruct (sk m s); repeat split.
Qed.

Lemma mon_call_upd_cstack m c : cstack (mon_call_upd m c) = cstack m.
Proof. apply mon_call_upd_frame. Qed.

Lemma mon_call_upd_viols m c : viols (mon_call_upd m c) = viols m.
Proof. apply mon_call_upd_frame. Qed.

Lemma mon_input_viols p m i : viols (mon_input p m i) = viols m.
Proof. destruct i as [s [|aux]|s [|e|]|i [|v|e|]|s]; reflexivity. Qed.

Lemma obs_frame p os : forall m,
  exists t, fold_left (mon_event p) (map EObs os) m = m <| task := t |>.
Proof.
  induction os as [|ob os IH]; intros m; cbn [map fold_left].
  - exists (task m). now destruct m.
  - destruct (IH (mon_event p m (EObs ob))) as [t ->]. exists t.
    destruct ob as [r|v|s [|]|s]; reflexivity.
Qed.

Lemma viols_add_nil vs m : viols (add_viols vs m) = [] -> vs = [].
Proof. rewrite add_viols_eq. cbn. intros H. now apply app_eq_nil in H. Qed.

Lemma filter_nil A (f : A -> bool) l : (forall x, In x l -> f x = false) -> filter f l = [].
Proof.
  induction l as [|x l IH]; cbn; intros H; [reflexivity|].
  rewrite (H x (or_introl eq_refl)). apply IH. intros y Hy. apply H. now right.
Qed.

Lemma firstn_snoc A n (l : list A) x :
  firstn n (l ++ [x]) = firstn n l ++ (if length l <? n then [x] else []).
Proof.
  rewrite firstn_app. f_equal. destruct (Nat.ltb_spec (length l) n) as [L|L].
  - replace (n - length l) with (S (n - length l - 1)) by lia. cbn. now rewrite firstn_nil.
  - now replace (n - length l) with 0 by lia.
Qed.

Lemma skipn_snoc A n (l : list A) x :
  skipn n (l ++ [x]) = skipn n l ++ (if length l <? n then [] else [x]).
Proof.
  rewrite skipn_app. f_equal. destruct (Nat.ltb_spec (length l) n) as [L|L].
  - replace (n - length l) with (S (n - length l - 1)) by lia. now destruct (n - length l - 1).
  - now replace (n - length l) with 0 by lia.
Qed.

Lemma quiescent_nil p m :
  (resub p = false -> sk_over (sk m 0) = true ->
   forall i, In i (ports m) -> us_live (us m i) = false) ->
  (forall s, err_due m s = None) ->
  (c14 p = true -> sk m 0 = SLive -> (forall i, In i (ports m) -> owed m i = 0) ->
   npull m 0 = ndata m 0) ->
  check_quiescent p m = [].
Proof.
  intros H1 H2 H3. unfold check_quiescent.
  assert (E3 : (if c14 p && match sk m 0 with SLive => true | _ => false end
         && forallb (fun i => Nat.eqb (owed m i) 0) (ports m)
         && negb (Nat.eqb (npull m 0) (ndata m 0))
      then [VUnanswered 0] else []) = []).
  { destruct (c14 p) eqn:Ec; cbn; [|reflexivity].
    destruct (sk m 0) eqn:Es; cbn; try reflexivity.
    destruct (forallb (fun i => Nat.eqb (owed m i) 0) (ports m)) eqn:Ef; cbn; [|reflexivity].
    rewrite H3; auto.
    - now rewrite Nat.eqb_refl.
    - intros i Hi. rewrite forallb_forall in Ef. apply Nat.eqb_eq. now apply Ef. }
  rewrite E3, app_nil_r.
  rewrite (filter_nil (fun s => match err_due m s with Some _ => true | None => false end)).
  2: { intros s _. now rewrite H2. }
  destruct (resub p); cbn; [reflexivity|].
  destruct (sk_over (sk m 0)) eqn:E; cbn; [|reflexivity].
  rewrite filter_nil; [reflexivity|]. intros i Hi. now apply H1.
Qed.

Section Facts.
  Variable p : mparams.
  Variable o : op.
  Variable g : mstate -> input -> bool.

  (** what one activation does to the monitor state *)
  Definition ms_settle (m : mstate) (os : list obs) (a : act (Fr o)) : mstate :=
    let m1 := fold_left (mon_event p) (map EObs os) m in
    match a with
    | ARet => mon_event p m1 EDone
    | APanic => mon_event p m1 EPanic
    | ACall c _ => mon_event p m1 (ECall c)
    end.

  (** a configuration seen as the four things invariants talk about *)
  Definition view (c : cfg o) := (cst c, stack c, ms c, dead c).

  Definition act_event (a : act (Fr o)) : event :=
    match a with ARet => EDone | APanic => EPanic | ACall cl _ => ECall cl end.

  (** the environment's half of a step: what the move does to the monitor, and its event *)
  Definition mon_move (m : mstate) (mv : move) : mstate :=
    match mv with MIn i => mon_input p m i | MRet => mon_event p m ERet end.
  Definition move_event (mv : move) : event :=
    match mv with MIn i => EIn i | MRet => ERet end.

  Lemma mon_move_viols m mv : viols (mon_move m mv) = viols m.
  Proof. destruct mv; [apply mon_input_viols | reflexivity]. Qed.

  (** the component's half: what it answers to the move, and the frames below its answer *)
  Definition result (c : cfg o) (mv : move) : St o * list obs * act (Fr o) :=
    match mv with
    | MIn i => handle o i (cst c)
    | MRet => match stack c with (k, _) :: _ => resume o k (cst c) | [] => (cst c, [], ARet) end
    end.
  Definition base (c : cfg o) (mv : move) : list (Fr o * call) :=
    match mv with MIn _ => stack c | MRet => tl (stack c) end.

  (** a step in which the component ran to [r], above the frames [st]: one activation appended.
      Every other description of a step in this file is a reading of this record: [en_step] gives
      it for an enabled move; [en_step_in]/[en_step_ret] are its first four fields once the
      handler's result is known (what an invariant proof wants); [step_in]/[step_ret] and the
      [_trace] lemmas are the same from [dead c = false] and deliverability alone (what a proof
      about traces wants). *)
  Record stepped (c : cfg o) (mv : move) (st : list (Fr o * call))
         (r : St o * list obs * act (Fr o)) : Prop := {
    st_cst : cst (step p c mv) = fst (fst r);
    st_stack : stack (step p c mv) = match snd r with ACall cl k => (k, cl) :: st | _ => st end;
    st_ms : ms (step p c mv) = ms_settle (mon_move (ms c) mv) (snd (fst r)) (snd r);
    st_dead : dead (step p c mv) = match snd r with APanic => true | _ => false end;
    st_rtrace : rtrace (step p c mv) =
                act_event (snd r) :: rev (map EObs (snd (fst r))) ++ move_event mv :: rtrace c;
  }.

  Lemma stepped_trace (c : cfg o) mv st r :
    stepped c mv st r ->
    trace (step p c mv) = trace c ++ move_event mv :: map EObs (snd (fst r)) ++ [act_event (snd r)].
  Proof.
    intros H. unfold trace. rewrite (st_rtrace H). cbn.
    rewrite rev_app_distr, rev_involutive. cbn. now rewrite <- !app_assoc.
  Qed.

  Lemma live_step (c : cfg o) mv :
    dead c = false ->
    match mv with MIn i => deliverable (ms c) i = true | MRet => stack c <> [] end ->
    stepped c mv (base c mv) (result c mv).
  Proof.
    intros Hd H. destruct mv as [i|]; cbn [base result].
    - destruct (handle o i (cst c)) as [[s' os] a] eqn:Hh.
      constructor; unfold step; rewrite Hd, H, Hh; destruct a; cbn; rewrite ?rev_append_rev; auto.
    - destruct (stack c) as [|[k0 cl0] rest] eqn:Hst; [now destruct H|].
      destruct (resume o k0 (cst c)) as [[s' os] a] eqn:Hh.
      constructor; unfold step; rewrite Hd, Hst, Hh; destruct a; cbn; rewrite ?rev_append_rev; auto.
  Qed.

  Lemma step_in (c : cfg o) i :
    dead c = false -> deliverable (ms c) i = true ->
    forall s' os a, handle o i (cst c) = (s', os, a) ->
    cst (step p c (MIn i)) = s' /\
    stack (step p c (MIn i)) = match a with ACall cl k => (k, cl) :: stack c | _ => stack c end /\
    ms (step p c (MIn i)) = ms_settle (mon_input p (ms c) i) os a /\
    dead (step p c (MIn i)) = match a with APanic => true | _ => false end.
  Proof.
    intros Hd Hdel s' os a Hh. destruct (live_step c (MIn i) Hd Hdel) as [A B C D _].
    cbn [base result] in *. rewrite Hh in *. auto.
  Qed.

  Lemma step_ret (c : cfg o) k cl rest :
    dead c = false -> stack c = (k, cl) :: rest ->
    forall s' os a, resume o k (cst c) = (s', os, a) ->
    cst (step p c MRet) = s' /\
    stack (step p c MRet) = match a with ACall cl' k' => (k', cl') :: rest | _ => rest end /\
    ms (step p c MRet) = ms_settle (mon_event p (ms c) ERet) os a /\
    dead (step p c MRet) = match a with APanic => true | _ => false end.
  Proof.
    intros Hd Hst s' os a Hr. destruct (live_step c MRet Hd) as [A B C D _]; [now rewrite Hst|].
    cbn [base result] in *. rewrite Hst, Hr in *. auto.
  Qed.

  Lemma step_in_rtrace (c : cfg o) i :
    dead c = false -> deliverable (ms c) i = true ->
    forall s' os a, handle o i (cst c) = (s', os, a) ->
    rtrace (step p c (MIn i)) = act_event a :: rev (map EObs os) ++ EIn i :: rtrace c.
  Proof.
    intros Hd Hdel s' os a Hh. rewrite (st_rtrace (live_step c (MIn i) Hd Hdel)).
    cbn [result]. now rewrite Hh.
  Qed.

  Lemma step_ret_rtrace (c : cfg o) k cl rest :
    dead c = false -> stack c = (k, cl) :: rest ->
    forall s' os a, resume o k (cst c) = (s', os, a) ->
    rtrace (step p c MRet) = act_event a :: rev (map EObs os) ++ ERet :: rtrace c.
  Proof.
    intros Hd Hst s' os a Hr. rewrite (st_rtrace (live_step c MRet Hd ltac:(now rewrite Hst))).
    cbn [result]. now rewrite Hst, Hr.
  Qed.

  Lemma step_in_trace (c : cfg o) i :
    dead c = false -> deliverable (ms c) i = true ->
    forall s' os a, handle o i (cst c) = (s', os, a) ->
    trace (step p c (MIn i)) = trace c ++ EIn i :: map EObs os ++ [act_event a].
  Proof.
    intros Hd Hdel s' os a Hh. rewrite (stepped_trace (live_step c (MIn i) Hd Hdel)).
    cbn [result]. now rewrite Hh.
  Qed.

  Lemma step_ret_trace (c : cfg o) k cl rest :
    dead c = false -> stack c = (k, cl) :: rest ->
    forall s' os a, resume o k (cst c) = (s', os, a) ->
    trace (step p c MRet) = trace c ++ ERet :: map EObs os ++ [act_event a].
  Proof.
    intros Hd Hst s' os a Hr. rewrite (stepped_trace (live_step c MRet Hd ltac:(now rewrite Hst))).
    cbn [result]. now rewrite Hst, Hr.
  Qed.

  (** the monitor's stack of pending calls mirrors the machine's *)
  Lemma ms_settle_cstack m os a :
    cstack (ms_settle m os a) =
    match a with ACall c _ => c :: cstack m | _ => cstack m end.
  Proof.
    unfold ms_settle. destruct (obs_frame p os m) as [t ->].
    destruct a as [| |c k]; cbn [mon_event].
    - destruct (cstack (m <| task := t |>)); rewrite ?add_viols_eq; reflexivity.
    - reflexivity.
    - rewrite add_viols_eq. cbn. now rewrite mon_call_upd_cstack.
  Qed.

  Lemma mon_input_cstack m i : cstack (mon_input p m i) = cstack m.
  Proof.
    destruct i as [s [|aux]|s [|e|]|i [|v|e|]|s]; reflexivity.
  Qed.

  Lemma enabled_live (c : cfg o) m : enabled p g c m = true -> dead c = false.
  Proof. unfold enabled. destruct (dead c); [discriminate | reflexivity]. Qed.

  (** whose turn it is while a call is pending *)
  Lemma top_sink_not_up (c : cfg o) k s d rest i :
    top_peer_is c (PUp i) = true -> stack c = (k, CDn s d) :: rest -> False.
  Proof. unfold top_peer_is. intros H E. rewrite E in H. discriminate. Qed.

  Lemma top_up_not_sink (c : cfg o) k i u rest s :
    top_peer_is c (PSink s) = true -> stack c = (k, CUp i u) :: rest -> False.
  Proof. unfold top_peer_is. intros H E. rewrite E in H. discriminate. Qed.

  Lemma en_guard (c : cfg o) i : enabled p g c (MIn i) = true -> g (ms c) i = true.
  Proof.
    unfold enabled. intros H. apply andb_prop in H. destruct H as [_ H].
    apply andb_prop in H. tauto.
  Qed.

  Lemma en_sub (c : cfg o) s aux :
    enabled p g c (MIn (ISub s aux)) = true ->
    stack c = [] /\ s < nsinks p /\ subd (ms c) s = false.
  Proof.
    unfold enabled, at_top. intros H. apply andb_prop in H. destruct H as [_ H].
    apply andb_prop in H. destruct H as [_ H].
    apply andb_prop in H. destruct H as [H H3]. apply andb_prop in H. destruct H as [H1 H2].
    destruct (stack c); [|discriminate].
    apply Nat.ltb_lt in H2. apply negb_true_iff in H3. auto.
  Qed.

  Lemma en_up (c : cfg o) s u :
    enabled p g c (MIn (IUp s u)) = true ->
    top_peer_is c (PSink s) = true /\ sk (ms c) s = SLive /\
    (u = UP -> one_pull p = true -> 0 < credit (ms c) s).
  Proof.
    unfold enabled. intros H. apply andb_prop in H. destruct H as [_ H].
    apply andb_prop in H. destruct H as [_ H].
    apply andb_prop in H. destruct H as [H H3]. apply andb_prop in H. destruct H as [H1 H2].
    repeat split; [exact H1 | destruct (sk (ms c) s); try discriminate; reflexivity |].
    intros -> E. rewrite E in H3. now apply Nat.ltb_lt in H3.
  Qed.

  Lemma en_greet (c : cfg o) i :
    enabled p g c (MIn (IDn i DH)) = true ->
    top_peer_is c (PUp i) = true /\ us (ms c) i = USubd /\
    (late_ok p = false -> exists k rest, stack c = (k, CSub i) :: rest).
  Proof.
    unfold enabled. intros H. apply andb_prop in H. destruct H as [_ H].
    apply andb_prop in H. destruct H as [_ H].
    apply andb_prop in H. destruct H as [H1 H]. apply andb_prop in H. destruct H as [H2 H3].
    repeat split; [exact H1 | destruct (us (ms c) i); try discriminate; reflexivity |].
    intros E. rewrite E in H3.
    destruct (stack c) as [|[k [j|j u|s d]] rest]; try discriminate.
    apply Nat.eqb_eq in H3. subst j. now exists k, rest.
  Qed.

  Lemma en_dn (c : cfg o) i d :
    d <> DH -> enabled p g c (MIn (IDn i d)) = true ->
    top_peer_is c (PUp i) = true /\ us (ms c) i = ULive /\
    (pullable p = true -> 0 < owed (ms c) i).
  Proof.
    unfold enabled. intros Hd H. apply andb_prop in H. destruct H as [_ H].
    apply andb_prop in H. destruct H as [_ H]. apply andb_prop in H. destruct H as [H1 H].
    assert (H' : us_live (us (ms c) i) && (negb (pullable p) || (0 <? owed (ms c) i)) = true)
      by (destruct d; [congruence | exact H..]).
    apply andb_prop in H'. destruct H' as [H2 H3].
    repeat split; [exact H1 | destruct (us (ms c) i); try discriminate; reflexivity |].
    intros E. rewrite E in H3. now apply Nat.ltb_lt in H3.
  Qed.

  (** a member's message: it comes from the callee of the innermost pending call, if any *)
  Lemma en_member (c : cfg o) i d :
    enabled p g c (MIn (IDn i d)) = true ->
    top_peer_is c (PUp i) = true /\ us (ms c) i = match d with DH => USubd | _ => ULive end.
  Proof.
    intros He. assert (H : d = DH \/ d <> DH) by (destruct d; [now left | right; discriminate ..]).
    destruct H as [->|Hd];
      [destruct (en_greet _ _ He) as (H1 & H2 & _) | destruct (en_dn _ _ Hd He) as (H1 & H2 & _)];
      split; auto. now destruct d.
  Qed.

  Lemma en_tick (c : cfg o) s :
    enabled p g c (MIn (ITick s)) = true -> stack c = [] /\ task (ms c) s = true.
  Proof.
    unfold enabled, at_top. intros H. apply andb_prop in H. destruct H as [_ H].
    apply andb_prop in H. destruct H as [_ H]. apply andb_prop in H.
    destruct (stack c); [tauto | destruct H; discriminate].
  Qed.

  Lemma en_ret (c : cfg o) :
    enabled p g c MRet = true ->
    exists k cl rest, stack c = (k, cl) :: rest /\
      (late_ok p = false -> forall i, cl = CSub i -> us (ms c) i <> USubd).
  Proof.
    unfold enabled. intros H. apply andb_prop in H. destruct H as [_ H].
    destruct (stack c) as [|[k cl] rest]; [discriminate|].
    exists k, cl, rest. split; [reflexivity|]. intros E i ->. rewrite E in H.
    intros E'. rewrite E' in H. discriminate.
  Qed.

  Lemma enabled_deliverable (c : cfg o) i :
    enabled p g c (MIn i) = true -> deliverable (ms c) i = true.
  Proof.
    intros He. destruct i as [s aux|s u|i d|s]; cbn.
    - reflexivity.
    - now destruct (en_up _ _ _ He) as (_ & -> & _).
    - destruct (en_member _ _ _ He) as [_ ->]. now destruct d.
    - now destruct (en_tick _ _ He).
  Qed.

  Lemma enabled_ret_stack (c : cfg o) :
    enabled p g c MRet = true -> exists k cl rest, stack c = (k, cl) :: rest.
  Proof. intros He. destruct (en_ret _ He) as (k & cl & rest & H & _). now exists k, cl, rest. Qed.

  Lemma en_step (c : cfg o) mv :
    enabled p g c mv = true -> stepped c mv (base c mv) (result c mv).
  Proof.
    intros He. apply live_step; [exact (enabled_live _ _ He)|]. destruct mv as [i|].
    - exact (enabled_deliverable _ _ He).
    - destruct (enabled_ret_stack _ He) as (k & cl & rest & ->). discriminate.
  Qed.

  Lemma en_trace (c : cfg o) mv :
    enabled p g c mv = true ->
    trace (step p c mv) = trace c ++ move_event mv :: map EObs (snd (fst (result c mv)))
                                  ++ [act_event (snd (result c mv))].
  Proof. intros He. exact (stepped_trace (en_step _ _ He)). Qed.

  Lemma en_step_in (c : cfg o) i :
    enabled p g c (MIn i) = true ->
    forall s' os a, handle o i (cst c) = (s', os, a) ->
    cst (step p c (MIn i)) = s' /\
    stack (step p c (MIn i)) = match a with ACall cl k => (k, cl) :: stack c | _ => stack c end /\
    ms (step p c (MIn i)) = ms_settle (mon_input p (ms c) i) os a /\
    dead (step p c (MIn i)) = match a with APanic => true | _ => false end.
  Proof. intros He. apply step_in; [eapply enabled_live | apply enabled_deliverable]; exact He. Qed.

  Lemma en_step_ret (c : cfg o) k cl rest :
    enabled p g c MRet = true -> stack c = (k, cl) :: rest ->
    forall s' os a, resume o k (cst c) = (s', os, a) ->
    cst (step p c MRet) = s' /\
    stack (step p c MRet) = match a with ACall cl' k' => (k', cl') :: rest | _ => rest end /\
    ms (step p c MRet) = ms_settle (mon_event p (ms c) ERet) os a /\
    dead (step p c MRet) = match a with APanic => true | _ => false end.
  Proof. intros He. apply step_ret. eapply enabled_live. exact He. Qed.

  Lemma stepped_in {c : cfg o} {i r} :
    enabled p g c (MIn i) = true -> handle o i (cst c) = r -> stepped c (MIn i) (stack c) r.
  Proof. intros He <-. exact (en_step _ _ He). Qed.

  Lemma stepped_ret {c : cfg o} {k cl rest r} :
    enabled p g c MRet = true -> stack c = (k, cl) :: rest -> resume o k (cst c) = r ->
    stepped c MRet rest r.
  Proof. intros He Hst <-. pose proof (en_step _ _ He) as H. cbn [base result] in H.
    now rewrite Hst in H.
  Qed.

  (** invariants are proved by induction on [reach], with [reach c] at hand in the step *)
  Lemma reach_invariant (I : cfg o -> Prop) :
    I (cfg0 o) ->
    (forall c m, reach p g c -> I c -> enabled p g c m = true -> I (step p c m)) ->
    forall c, reach p g c -> I c.
  Proof. intros H0 HS c Hr. induction Hr; [exact H0 | now apply HS]. Qed.

  Lemma reach_cstack (c : cfg o) : reach p g c -> cstack (ms c) = map snd (stack c).
  Proof.
    revert c. apply reach_invariant; [reflexivity|]. intros c mv _ IH He.
    destruct (en_step _ _ He) as [_ Hs Hm _ _]. rewrite Hs, Hm, ms_settle_cstack.
    assert (E : cstack (mon_move (ms c) mv) = map snd (base c mv)).
    { destruct mv as [i|]; cbn [mon_move base]; [now rewrite mon_input_cstack|].
      cbn. rewrite IH. now destruct (stack c). }
    rewrite E. now destruct (snd (result c mv)).
  Qed.

  Lemma ms_settle_call m cl (k : Fr o) :
    ms_settle m [] (ACall cl k)
    = add_viols (check_call p m cl) (set_cstack (mon_call_upd m cl) (cl :: cstack m)).
  Proof. unfold ms_settle. cbn. now rewrite mon_call_upd_cstack. Qed.

  Lemma ms_settle_ret m :
    ms_settle m [] (@ARet (Fr o))
    = match cstack m with [] => add_viols (check_quiescent p m) m | _ => m end.
  Proof. reflexivity. Qed.

  Lemma ms_settle_quiet m : check_quiescent p m = [] -> ms_settle m [] (@ARet (Fr o)) = m.
  Proof. intros H. rewrite ms_settle_ret. destruct (cstack m); [now rewrite H | reflexivity]. Qed.

End Facts.
Arguments stepped_trace {p o c mv st r}.
Arguments en_step {p o g c mv}.
Arguments stepped_in {p o g c i r}.
Arguments stepped_ret {p o g c k cl rest r}.
