(** * Inv_concat: the invariant of concat, for every member count [n] and every regime

    [n] stays a variable throughout ([n = 0] is the special branch of
    src/concat.rs:95-113).  The invariant [Inv] says where the run is
    ([phase]) and what the members look like around the cursor [cc_i]:
    members below it have ended, members above it were never subscribed, the
    member at it is subscribed / live / stopped / failed according to the
    phase.  The stack only matters in two ways: every frame is [CcDone]
    (except the one [CcZero] frame of the zero-member greeting), and while the
    current member has not greeted the subscribing call is the innermost
    pending call, so that by local reaction nobody but that member can act
    and the sink never sees the stale talkback of the previous member.

    Where the demand counts are checked ([c14 p = true], with a pullable upstream
    and one Pull per message) [Dem] adds the counters:

      owed cc_i + ndata 0 = npull 0     every Pull is answered or owed by the member
      credit 0 + owed cc_i = 1          the one token is with the sink or upstream

    while the member at the cursor is live; at a boundary (member [cc_i - 1] ended,
    member [cc_i] subscribed and not yet greeting) the demand is in transit: nothing
    is owed, the sink holds no credit and [npull 0 = 1 + ndata 0], so [cc_got_pull]
    is set and the greeting of the new member re-issues the Pull.

    A second invariant [TInv] ties the cursor to the trace (it counts the
    member Terminates) and the Terminate of the sink to [cc_i = n]. *)
From CB Require Import Ports MonitorFacts.

Set Implicit Arguments.

(** payloads received from any member, in order of arrival *)
Fixpoint all_in (tr : list event) : list val :=
  match tr with
  | [] => []
  | EIn (IDn _ (DD v)) :: tr' => v :: all_in tr'
  | _ :: tr' => all_in tr'
  end.

Lemma all_in_app tr1 tr2 : all_in (tr1 ++ tr2) = all_in tr1 ++ all_in tr2.
Proof.
  induction tr1 as [|e tr1 IH]; cbn; [reflexivity|].
  destruct e as [[s a|s u|j [|v|e|]|s]|c| | |ob|]; cbn; try exact IH.
  now rewrite IH.
Qed.

(** how many member Terminates have arrived *)
Fixpoint dt_in (tr : list event) : nat :=
  match tr with
  | [] => 0
  | EIn (IDn _ DT) :: tr' => S (dt_in tr')
  | _ :: tr' => dt_in tr'
  end.

Lemma dt_in_app tr1 tr2 : dt_in (tr1 ++ tr2) = dt_in tr1 + dt_in tr2.
Proof.
  induction tr1 as [|e tr1 IH]; cbn; [reflexivity|].
  destruct e as [[s a|s u|j [|v|e|]|s]|c| | |ob|]; cbn; try exact IH.
  now rewrite IH.
Qed.

(** ** The members around the cursor [i], as the monitor sees them ([u] their status, [w]
    what they owe): those before it have ended, those after it were never subscribed *)
Definition around (i : nat) (u : nat -> uss) (w : nat -> nat) : Prop :=
  (forall j, j < i -> u j = UEnded) /\ (forall j, i < j -> u j = UNone /\ w j = 0).

Lemma around_us i u w x : around i u w -> around i (upd u i x) w.
Proof. intros [H1 H2]. split; intros j Hj; rewrite upd_other by lia; auto. Qed.

Lemma around_owed i u w x : around i u w -> around i u (upd w i x).
Proof. intros [H1 H2]. split; intros j Hj; rewrite ?upd_other by lia; auto. Qed.

(** the cursor moves past a member that has ended *)
Lemma around_next i u w : around i u w -> u i = UEnded -> around (S i) u w.
Proof.
  intros [H1 H2] H. split; intros j Hj; [|apply H2; lia].
  destruct (Nat.eq_dec j i) as [->|]; [exact H | apply H1; lia].
Qed.

Lemma at_cursor i u w j : around i u w -> u j = USubd \/ u j = ULive -> j = i.
Proof.
  intros [H1 H2] H. destruct (Nat.lt_trichotomy j i) as [L|[E|L]]; [|exact E|].
  - rewrite (H1 j L) in H. destruct H; discriminate.
  - rewrite (proj1 (H2 j L)) in H. destruct H; discriminate.
Qed.

(** the monitor's base ([pbase] of Ports.v) of an operator that may subscribe any port *)
Notation cbase := (obase (fun _ => True)).

Section ConcatInv.
  Variable n : nat.
  Variable p : mparams.
  Hypothesis Hns : nsinks p = 1.
  Hypothesis Hnonest : no_nest p = false.
  Hypothesis Hreg : c14 p = true -> pullable p = true /\ one_pull p = true.
  Hypothesis Hlate : late_ok p = false.
  Let o := concat_op n.
  Local Notation Call := (@ACall (Fr o)).

  (** every suspended activation is one that just returns when resumed *)
  Definition done_frames (stk : list (cc_fr * call)) : Prop :=
    Forall (fun fc => fst fc = CcDone) stk.

  Lemma done_cons cl stk : done_frames stk -> done_frames ((CcDone, cl) :: stk).
  Proof. intros H. constructor; [reflexivity | exact H]. Qed.

  Lemma done_nil : done_frames [].
  Proof. constructor. Qed.

  Lemma done_inv k cl stk : done_frames ((k, cl) :: stk) -> k = CcDone /\ done_frames stk.
  Proof. intros H. inversion H. split; assumption. Qed.

  (** ** Where the run is.

      [PhInit]: nobody subscribed yet.
      [PhSubd]: member [cc_i] has been subscribed and has not greeted; the
                subscribing call is on top of the stack, so only that member
                can act (and it can only greet).
      [PhLive]: member [cc_i] is live, its talkback is the stored one, the
                sink is live.
      [PhOver]: the output is over (disposed, failed or completed); nobody
                can act any more, the stack just unwinds.
      [PhZGreet], [PhZDisp]: zero members, inside the greeting of the sink. *)
  Inductive phase (c : cfg o) : Prop :=
  | PhInit :
      subd (ms c) 0 = false -> cst c = st0 o -> stack c = [] ->
      sk (ms c) 0 = SNone -> us (ms c) 0 = UNone -> npull (ms c) 0 = 0 -> phase c
  | PhSubd k rest :
      subd (ms c) 0 = true -> cc_i (cst c) < n ->
      us (ms c) (cc_i (cst c)) = USubd ->
      stack c = (k, CSub (cc_i (cst c))) :: rest -> done_frames (stack c) ->
      sk (ms c) 0 = match cc_i (cst c) with 0 => SNone | S _ => SLive end -> phase c
  | PhLive :
      subd (ms c) 0 = true -> cc_i (cst c) < n ->
      us (ms c) (cc_i (cst c)) = ULive -> sk (ms c) 0 = SLive ->
      cc_tb (cst c) = Some (cc_i (cst c)) -> done_frames (stack c) -> phase c
  | PhOver :
      subd (ms c) 0 = true -> sk_over (sk (ms c) 0) = true ->
      match us (ms c) (cc_i (cst c)) with USubd | ULive => False | _ => True end ->
      done_frames (stack c) -> phase c
  | PhZGreet :
      subd (ms c) 0 = true -> n = 0 -> cc_i (cst c) = 0 -> us (ms c) 0 = UNone ->
      sk (ms c) 0 = SLive -> cc_disposed (cst c) = false ->
      stack c = [(CcZero, CDn 0 DH)] -> phase c
  | PhZDisp :
      subd (ms c) 0 = true -> n = 0 -> cc_i (cst c) = 0 -> us (ms c) 0 = UNone ->
      sk (ms c) 0 = SDisposed -> cc_disposed (cst c) = true ->
      stack c = [(CcZero, CDn 0 DH)] -> phase c.

  Record Inv (c : cfg o) : Prop := {
    i_dead : dead c = false;
    i_base : cbase None (ms c);
    i_around : around (cc_i (cst c)) (us (ms c)) (owed (ms c));
    i_le : cc_i (cst c) <= n;
    i_pull : 0 < n -> (cc_got_pull (cst c) = true <-> 0 < npull (ms c) 0);
    i_phase : phase c;
  }.

  (** the demand counters, where they are checked *)
  Record Dem (c : cfg o) : Prop := {
    d_init : c14 p = true -> subd (ms c) 0 = false -> owed (ms c) 0 = 0 /\ cnt3 (ms c) = (0, 0, 0);
    d_subd : c14 p = true -> us (ms c) (cc_i (cst c)) = USubd ->
             credit (ms c) 0 = 0 /\ owed (ms c) (cc_i (cst c)) = 0 /\
             npull (ms c) 0 = match cc_i (cst c) with 0 => 0 | S _ => 1 end + ndata (ms c) 0;
    d_live : c14 p = true -> us (ms c) (cc_i (cst c)) = ULive ->
             owed (ms c) (cc_i (cst c)) + ndata (ms c) 0 = npull (ms c) 0 /\
             credit (ms c) 0 + owed (ms c) (cc_i (cst c)) = 1;
  }.

  Lemma inv0 : Inv (cfg0 o) /\ Dem (cfg0 o).
  Proof.
    split; constructor; cbn; auto; try lia; try discriminate.
    - apply pbase0.
    - split; intros j Hj; [lia | auto].
    - apply PhInit; reflexivity.
  Qed.

  Ltac phases H :=
    destruct H as [A B C D E F|k0 rest0 A B C D E F|A B C D E F|A B C D|A B C D E F G|A B C D E F G].

  (** a member that is subscribed and not over is the one at the cursor, and the phase is
      [PhSubd] or [PhLive] accordingly *)
  Lemma current c j : Inv c -> us (ms c) j = USubd \/ us (ms c) j = ULive ->
    j = cc_i (cst c) /\ cc_i (cst c) < n /\ done_frames (stack c) /\ subd (ms c) 0 = true /\
    (us (ms c) j = USubd ->
     sk (ms c) 0 = match cc_i (cst c) with 0 => SNone | S _ => SLive end) /\
    (us (ms c) j = ULive -> sk (ms c) 0 = SLive /\ cc_tb (cst c) = Some (cc_i (cst c))).
  Proof.
    intros [_ _ HA _ _ Hph] Hj. pose proof (at_cursor j HA Hj). subst j.
    split; [reflexivity|]. phases Hph.
    - rewrite B in Hj. cbn in Hj. destruct Hj; congruence.
    - repeat split; auto; congruence.
    - repeat split; auto; congruence.
    - destruct Hj as [Hj|Hj]; rewrite Hj in C; destruct C.
    - rewrite C in Hj. destruct Hj; congruence.
    - rewrite C in Hj. destruct Hj; congruence.
  Qed.

  Lemma live_current c j : Inv c -> us (ms c) j = ULive ->
                           j = cc_i (cst c) /\ sk (ms c) 0 = SLive /\ cc_i (cst c) < n /\
                           cc_tb (cst c) = Some (cc_i (cst c)) /\ done_frames (stack c) /\
                           subd (ms c) 0 = true.
  Proof.
    intros HI Hj. destruct (current j HI (or_intror Hj)) as (E & ? & ? & ? & _ & H).
    destruct (H Hj). auto 7.
  Qed.

  Lemma subd_current c j : Inv c -> us (ms c) j = USubd ->
                           j = cc_i (cst c) /\ cc_i (cst c) < n /\
                           sk (ms c) 0 = match cc_i (cst c) with 0 => SNone | S _ => SLive end /\
                           done_frames (stack c) /\ subd (ms c) 0 = true.
  Proof.
    intros HI Hj. destruct (current j HI (or_introl Hj)) as (E & ? & ? & ? & H & _). auto 6.
  Qed.

  Definition s_init : cc_st :=
    {| cc_i := 0; cc_tb := None; cc_got_pull := false; cc_disposed := false |}.

  Lemma h_sub_z aux s : n = 0 ->
    handle o (ISub 0 aux) s = (s_init, [], Call (CDn 0 DH) CcZero).
  Proof.
    intros H. unfold o, concat_op, handle, cc_handle.
    destruct (Nat.eqb_spec n 0); [reflexivity | congruence].
  Qed.

  Lemma h_sub_s aux s : n <> 0 ->
    handle o (ISub 0 aux) s = (s_init, [], Call (CSub 0) CcDone).
  Proof.
    intros H. unfold o, concat_op, handle, cc_handle, cc_next. cbn [cc_i].
    destruct (Nat.eqb_spec n 0); [congruence|].
    destruct (Nat.eqb_spec 0 n); [congruence | reflexivity].
  Qed.

  Lemma h_up_z u s : n = 0 ->
    handle o (IUp 0 u) s =
    (if umsg_is_term u
     then {| cc_i := cc_i s; cc_tb := cc_tb s; cc_got_pull := cc_got_pull s; cc_disposed := true |}
     else s, [], ARet).
  Proof.
    intros H. unfold o, concat_op, handle, cc_handle.
    destruct (Nat.eqb_spec n 0); [|congruence]. destruct (umsg_is_term u); reflexivity.
  Qed.

  Lemma h_up_s u s k : n <> 0 -> cc_tb s = Some k ->
    handle o (IUp 0 u) s =
    (if umsg_is_term u then s
     else {| cc_i := cc_i s; cc_tb := cc_tb s; cc_got_pull := true; cc_disposed := cc_disposed s |},
     [], Call (CUp k u) CcDone).
  Proof.
    intros H Htb. unfold o, concat_op, handle, cc_handle.
    destruct (Nat.eqb_spec n 0); [congruence|]. rewrite Htb. destruct u; reflexivity.
  Qed.

  Lemma h_data j v s : handle o (IDn j (DD v)) s = (s, [], Call (CDn 0 (DD v)) CcDone).
  Proof. reflexivity. Qed.

  Lemma h_error j e s : handle o (IDn j (DE e)) s = (s, [], Call (CDn 0 (DE e)) CcDone).
  Proof. reflexivity. Qed.

  Definition past (s : cc_st) : cc_st :=
    {| cc_i := S (cc_i s); cc_tb := cc_tb s; cc_got_pull := cc_got_pull s;
       cc_disposed := cc_disposed s |}.

  Lemma h_dt_last j s : S (cc_i s) = n ->
    handle o (IDn j DT) s = (past s, [], Call (CDn 0 DT) CcDone).
  Proof.
    intros H. unfold o, concat_op, handle, cc_handle, cc_next. cbn [cc_i].
    destruct (Nat.eqb_spec (S (cc_i s)) n); [reflexivity | congruence].
  Qed.

  Lemma h_dt_next j s : S (cc_i s) <> n ->
    handle o (IDn j DT) s = (past s, [], Call (CSub (S (cc_i s))) CcDone).
  Proof.
    intros H. unfold o, concat_op, handle, cc_handle, cc_next. cbn [cc_i].
    destruct (Nat.eqb_spec (S (cc_i s)) n); [congruence | reflexivity].
  Qed.

  Definition with_tb (s : cc_st) (j : nat) : cc_st :=
    {| cc_i := cc_i s; cc_tb := Some j; cc_got_pull := cc_got_pull s;
       cc_disposed := cc_disposed s |}.

  Lemma h_dh_first j s : cc_i s = 0 ->
    handle o (IDn j DH) s = (with_tb s j, [], Call (CDn 0 DH) CcDone).
  Proof. intros H. unfold with_tb. cbn. destruct (cc_i s); [reflexivity | discriminate]. Qed.

  Lemma h_dh_pull j s : cc_i s <> 0 -> cc_got_pull s = true ->
    handle o (IDn j DH) s = (with_tb s j, [], Call (CUp j UP) CcDone).
  Proof.
    intros H H'. unfold with_tb. cbn. rewrite H'. destruct (cc_i s); [congruence | reflexivity].
  Qed.

  Lemma h_dh_idle j s : cc_i s <> 0 -> cc_got_pull s = false ->
    handle o (IDn j DH) s = (with_tb s j, [], ARet).
  Proof.
    intros H H'. unfold with_tb. cbn. rewrite H'. destruct (cc_i s); [congruence | reflexivity].
  Qed.

  Lemma h_zero s :
    resume o CcZero s =
    (s, [], if cc_disposed s then ARet else Call (CDn 0 DT) CcDone).
  Proof. cbn. destruct (cc_disposed s); reflexivity. Qed.

  Notation inv c := (Inv c /\ Dem c).

  Local Hint Resolve around_us around_owed done_cons done_nil : core.

  (** the fields of [Inv] and [Dem] for the new configuration that follow from what became of
      the ports; the new phase and the counter equations remain *)
  Ltac fields Ec :=
    cnts; split; constructor; rewrite ?Ec; cbn [cc_i cc_got_pull s_init with_tb past]; auto;
    try congruence; rw_ports; repeat match goal with H : npull _ 0 = _ |- _ => rewrite H end;
    auto; try lia; try congruence.

  Lemma inv_sub c s aux : reach p g_std c -> inv c -> enabled p g_std c (MIn (ISub s aux)) = true ->
    inv (step p c (MIn (ISub s aux))).
  Proof.
    intros Hr [HI [Z0 ZS ZL]] He. pose proof HI as [Hd HB HA Hle Hpl Hph].
    destruct (en_sub _ _ _ _ _ He) as (_ & Hs & Hsub). rewrite Hns in Hs.
    assert (s = 0) by lia. subst s. pose proof (en_guard _ _ _ _ He) as Hg.
    destruct aux; [clear Hg | discriminate].
    phases Hph; try congruence.
    assert (Ei : cc_i (cst c) = 0) by (rewrite B; reflexivity). rewrite Ei in *.
    destruct (Nat.eq_dec n 0) as [Hn|Hn].
    - step_eqs (en_step_in _ _ _ _ He (h_sub_z 0 (cst c) Hn)). env_half (pin_sub Em1 HB).
      op_half (pcall_greet Em B1); [congruence|]. rewrite C in Es.
      fields Ec. apply PhZGreet; rewrite ?Ec; rw_ports; auto; congruence.
    - step_eqs (en_step_in _ _ _ _ He (h_sub_s 0 (cst c) Hn)). env_half (pin_sub Em1 HB).
      op_half (pcall_sub Em B1 I); [congruence | now rewrite K1, D | exact S1 |]. rewrite C in Es.
      fields Ec.
      + apply PhSubd with CcDone (@nil (cc_fr * call)); rewrite ?Ec, ?Es, ?S2; cbn [cc_i s_init];
          rw_ports; auto; lia.
      + intros Hc _. destruct (Z0 Hc Hsub) as [Z1 Z2]. rewrite Z2 in *. cnts. lia.
  Qed.

  (** the sink pulls or stops: it is live, and not inside a subscribing call *)
  Lemma inv_up c s u : reach p g_std c -> inv c -> enabled p g_std c (MIn (IUp s u)) = true ->
    inv (step p c (MIn (IUp s u))).
  Proof.
    intros Hr [HI [Z0 ZS ZL]] He. pose proof HI as [Hd HB HA Hle Hpl Hph].
    pose proof (reach_cstack Hr) as Hcs.
    destruct (en_up _ _ _ _ _ He) as (Htop & Hsk & Hcr).
    pose proof (live_sink_0 HB Hsk). subst s.
    phases Hph; try congruence.
    - unfold top_peer_is in Htop. rewrite D in Htop. discriminate.
    - assert (Hn : n <> 0) by lia. pose proof (h_up_s u (cst c) Hn E) as Hh.
      destruct (umsg_is_term u) eqn:Hu.
      + step_eqs (en_step_in _ _ _ _ He Hh). env_half (pin_stop Em1 HB Hu).
        op_half (pcall_stop Em B1 Hu); [congruence|].
        fields Ec. apply PhOver; rewrite ?Ec, ?Es; rw_ports; auto.
      + destruct u; try discriminate.
        step_eqs (en_step_in _ _ _ _ He Hh). env_half (pin_pull Em1 HB).
        assert (Hc : c14 p = true -> credit (ms c) 0 = 1 /\ owed (ms c) (cc_i (cst c)) = 0).
        { intros Hc. destruct (ZL Hc C). destruct (Hreg Hc) as [_ H1].
          pose proof (Hcr eq_refl H1). lia. }
        op_half (pcall_pull Em B1); [congruence | intros Hc'; rewrite O1; now apply Hc |].
        fields Ec.
        * apply PhLive; rewrite ?Ec, ?Es; cbn [cc_i cc_tb]; rw_ports; auto.
        * intros Hc' _. destruct (Hc Hc'), (ZL Hc' C). lia.
    - rewrite Hsk in B. discriminate.
    - (* zero members: the no-op talkback returns into the pending greeting *)
      step_eqs (en_step_in _ _ _ _ He (h_up_z u (cst c) B)). rewrite C in *.
      assert (Hst : cstack m1 <> []) by (rewrite Em1, mon_input_cstack, Hcs, G; discriminate).
      destruct (umsg_is_term u) eqn:Hu.
      + env_half (pin_stop Em1 HB Hu). done_half pcall_done; [|intros; contradiction..].
        fields Ec; rewrite ?C; auto; try lia.
        apply PhZDisp; rewrite ?Ec, ?Es; rw_ports; auto; congruence.
      + destruct u; try discriminate.
        env_half (pin_pull Em1 HB). done_half pcall_done; [|intros; contradiction..].
        fields Ec; rewrite ?C; auto; try lia.
        apply PhZGreet; rewrite ?Ec, ?Es; rw_ports; auto; congruence.
  Qed.

  Lemma inv_dn c j d : reach p g_std c -> inv c -> enabled p g_std c (MIn (IDn j d)) = true ->
    inv (step p c (MIn (IDn j d))).
  Proof.
    intros Hr [HI [Z0 ZS ZL]] He. pose proof HI as [Hd HB HA Hle Hpl Hph].
    pose proof (reach_cstack Hr) as Hcs. pose proof (nest_off Hnonest) as Hnn.
    destruct d as [|v|e|].
    - (* the member at the cursor greets *)
      destruct (en_greet _ _ _ _ He) as (_ & Hus & Hsc).
      destruct (Hsc Hlate) as (k1 & rest1 & Hst).
      destruct (subd_current j HI Hus) as (-> & Hlt & Hsk & Hfr & Hsub).
      destruct (Nat.eq_dec (cc_i (cst c)) 0) as [Ei|Ei];
        [|destruct (cc_got_pull (cst c)) eqn:Egp;
          assert (Hsk' : sk (ms c) 0 = SLive) by (destruct (cc_i (cst c)); congruence)].
      + step_eqs (en_step_in _ _ _ _ He (h_dh_first _ _ Ei)).
        env_half (pin_greet Em1 HB); [congruence|]. rewrite Ei in Hsk.
        op_half (pcall_greet Em B1); [congruence|].
        fields Ec.
        * apply PhLive; rewrite ?Ec, ?Es; cbn [cc_i with_tb cc_tb]; rw_ports; auto.
        * intros Hc _. destruct (ZS Hc Hus) as (? & ? & ?). rewrite Ei in *. lia.
      + step_eqs (en_step_in _ _ _ _ He (h_dh_pull _ _ Ei Egp)).
        env_half (pin_greet Em1 HB); [congruence|].
        op_half (pcall_pull Em B1); [now rewrite U1, upd_same | |].
        { intros Hc. rewrite O1. now destruct (ZS Hc Hus) as (_ & ? & _). }
        fields Ec.
        * now rewrite Egp.
        * apply PhLive; rewrite ?Ec, ?Es; cbn [cc_i with_tb cc_tb]; rw_ports; auto.
        * intros Hc _. destruct (ZS Hc Hus) as (? & ? & ?).
          destruct (cc_i (cst c)); [congruence | lia].
      + (* no Pull to carry over; where the counts are checked there always is one *)
        step_eqs (en_step_in _ _ _ _ He (h_dh_idle _ _ Ei Egp)).
        assert (Hne : cstack m1 <> []) by (rewrite Em1, mon_input_cstack, Hcs, Hst; discriminate).
        env_half (pin_greet Em1 HB); [congruence|].
        done_half pcall_done; [|intros; contradiction..].
        fields Ec.
        * now rewrite Egp.
        * apply PhLive; rewrite ?Ec, ?Es; cbn [cc_i with_tb cc_tb]; rw_ports; auto.
        * intros Hc _. exfalso. destruct (ZS Hc Hus) as (_ & _ & Hn).
          assert (Hp : 0 < npull (ms c) 0) by (destruct (cc_i (cst c)); [congruence | lia]).
          apply Hpl in Hp; [congruence | lia].
    - (* a datum from the member at the cursor *)
      destruct (@en_dn p o g_std c j (DD v) ltac:(discriminate) He) as (_ & Hus & How).
      destruct (live_current j HI Hus) as (-> & Hsk & Hlt & Htb & Hfr & Hsub).
      step_eqs (en_step_in _ _ _ _ He (h_data _ v (cst c))). env_half (pin_data Em1 HB).
      assert (Hc : c14 p = true -> credit (ms c) 0 = 0 /\ owed (ms c) (cc_i (cst c)) = 1 /\
                                   S (ndata (ms c) 0) = npull (ms c) 0).
      { intros Hc. destruct (ZL Hc Hus). destruct (Hreg Hc) as [H1 _]. pose proof (How H1). lia. }
      op_half (pcall_data Em B1 (Hnn _)); [congruence | |]; cnts.
      { intros Hc'. destruct (Hc Hc') as (_ & _ & ?). lia. }
      fields Ec.
      + apply PhLive; rewrite ?Ec, ?Es; rw_ports; auto.
      + intros Hc' _. destruct (Hc Hc') as (? & ? & ?). lia.
    - (* the member at the cursor fails: the sink is failed with the same Error *)
      destruct (@en_dn p o g_std c j (DE e) ltac:(discriminate) He) as (_ & Hus & _).
      destruct (live_current j HI Hus) as (-> & Hsk & Hlt & Htb & Hfr & Hsub).
      step_eqs (en_step_in _ _ _ _ He (h_error _ e (cst c))).
      env_half (pin_error Em1 HB Hns Hsk); [congruence|].
      op_half (pcall_error Em B1 (Hnn _)); [congruence|].
      fields Ec. apply PhOver; rewrite ?Ec, ?Es; rw_ports; auto.
    - (* the member at the cursor ends: the next one is subscribed, or the sink completed *)
      destruct (@en_dn p o g_std c j DT ltac:(discriminate) He) as (_ & Hus & How).
      destruct (live_current j HI Hus) as (-> & Hsk & Hlt & Htb & Hfr & Hsub).
      assert (Hc : c14 p = true -> credit (ms c) 0 = 0 /\ npull (ms c) 0 = 1 + ndata (ms c) 0).
      { intros Hc. destruct (ZL Hc Hus). destruct (Hreg Hc) as [H1 _]. pose proof (How H1). lia. }
      destruct (proj2 HA _ (Nat.lt_succ_diag_r (cc_i (cst c)))) as [Hnx Hno].
      assert (HA1 : forall u w, u = upd (us (ms c)) (cc_i (cst c)) UEnded ->
                   w = upd (owed (ms c)) (cc_i (cst c)) (pred (owed (ms c) (cc_i (cst c)))) ->
                   around (S (cc_i (cst c))) u w).
      { intros u w -> ->. apply around_next; [auto | apply upd_same]. }
      destruct (Nat.eq_dec (S (cc_i (cst c))) n) as [Hn|Hn].
      + step_eqs (en_step_in _ _ _ _ He (h_dt_last _ _ Hn)).
        env_half (pin_term Em1 HB); [congruence|].
        op_half (pcall_term Em B1 (Hnn _)); [congruence|].
        fields Ec; [|intros _; rewrite upd_other, Hnx by lia; discriminate..].
        apply PhOver; rewrite ?Ec, ?Es; cbn [cc_i past]; rw_ports; auto.
        now rewrite upd_other, Hnx by lia.
      + step_eqs (en_step_in _ _ _ _ He (h_dt_next _ _ Hn)).
        env_half (pin_term Em1 HB); [congruence|].
        op_half (pcall_sub Em B1 I); [| now rewrite K1, Hsk | now rewrite S1 |].
        { now rewrite U1, upd_other, Hnx by lia. }
        fields Ec.
        * apply PhSubd with CcDone (stack c); rewrite ?Ec, ?Es; cbn [cc_i past]; rw_ports; auto; lia.
        * intros Hc' _. destruct (Hc Hc'). rewrite upd_other, Hno by lia. lia.
  Qed.

  Lemma inv_ret c : reach p g_std c -> inv c -> enabled p g_std c MRet = true ->
    inv (step p c MRet).
  Proof.
    intros Hr [HI [Z0 ZS ZL]] He. pose proof HI as [Hd HB HA Hle Hpl Hph].
    pose proof (reach_cstack Hr) as Hcs. pose proof (nest_off Hnonest) as Hnn.
    destruct (en_ret _ _ _ He) as (k & cl & rest & Hst & Hsc).
    phases Hph.
    - congruence.
    - rewrite Hst in D. injection D as _ -> _. now destruct (Hsc Hlate _ eq_refl).
    - rewrite Hst in F. destruct (done_inv F) as [-> Hfr].
      step_eqs (en_step_ret _ _ _ He Hst (s' := cst c) (os := []) (a := ARet) eq_refl).
      env_half (pin_ret Em1 HB). pose proof (cnt3_eq C1) as (Cc & Cp & Cd).
      done_half pcall_done.
      + fields Ec; [|intros Hc _; destruct (ZL Hc C); lia].
        apply PhLive; rewrite ?Ec, ?Es; rw_ports; auto.
      + rewrite K1, D. discriminate.
      + intros _ Hc _ Hall. destruct (ZL Hc C). rewrite Cp, Cd.
        assert (Hz : owed m1 (cc_i (cst c)) = 0) by (apply Hall, (pb_known B1); congruence).
        rewrite O1 in Hz. lia.
    - rewrite Hst in D. destruct (done_inv D) as [-> Hfr].
      step_eqs (en_step_ret _ _ _ He Hst (s' := cst c) (os := []) (a := ARet) eq_refl).
      env_half (pin_ret Em1 HB).
      done_half pcall_done.
      + fields Ec; [|intros _ Hu; rewrite Hu in C; contradiction..].
        apply PhOver; rewrite ?Ec, ?Es; rw_ports; auto.
      + intros _ _ j Hj. rewrite U1 in Hj. rewrite (at_cursor j HA (or_intror Hj)) in Hj.
        now rewrite Hj in C.
      + intros _ _ Hl. rewrite K1 in Hl. rewrite Hl in B. discriminate.
    - (* zero members: the sink has been greeted and has not disposed: it is completed *)
      rewrite G in Hst. injection Hst as <- <- <-. rewrite C in *.
      pose proof (h_zero (cst c)) as Hh. rewrite F in Hh.
      step_eqs (en_step_ret _ _ _ He G Hh). env_half (pin_ret Em1 HB).
      op_half (pcall_term Em B1 (Hnn _)); [congruence|].
      fields Ec; rewrite ?C; auto; try lia.
      apply PhOver; rewrite ?Ec, ?Es, ?C; rw_ports; auto.
    - (* zero members: the sink disposed inside its greeting *)
      rewrite G in Hst. injection Hst as <- <- <-. rewrite C in *.
      pose proof (h_zero (cst c)) as Hh. rewrite F in Hh.
      step_eqs (en_step_ret _ _ _ He G Hh). env_half (pin_ret Em1 HB).
      done_half pcall_done.
      + fields Ec; rewrite ?C; auto; try lia.
        apply PhOver; rewrite ?Ec, ?Es, ?C; rw_ports; auto.
      + intros _ _ j Hj. rewrite U1 in Hj. rewrite (at_cursor j HA (or_intror Hj)) in Hj. congruence.
      + rewrite K1, E. discriminate.
  Qed.

  Lemma inv_step c mv : reach p g_std c -> inv c -> enabled p g_std c mv = true -> inv (step p c mv).
  Proof.
    destruct mv as [[s aux|s u|j d|s]|];
      [apply inv_sub | apply inv_up | apply inv_dn | | apply inv_ret].
    intros _ [[_ HB _ _ _ _] _] He. destruct (en_tick _ _ _ _ He) as [_ Ht].
    now rewrite (pb_task HB) in Ht.
  Qed.

  Theorem inv_dem_reach c : reach p g_std c -> inv c.
  Proof. revert c. apply (reach_invariant (fun c => inv c)); [exact inv0 | exact inv_step]. Qed.

  (** ** What one activation appends to the trace, whatever the state *)
  Lemma handle_shape inp s s' os a : handle o inp s = (s', os, a) ->
    os = [] /\
    cc_i s' = match inp with ISub 0 _ => 0 | IDn _ DT => S (cc_i s) | _ => cc_i s end /\
    data_out 0 [act_event o a] = all_in [EIn inp] /\
    (act_event o a = ECall (CDn 0 DT) -> exists j, inp = IDn j DT /\ S (cc_i s) = n).
  Proof using.
    intros H. destruct inp as [[|s1] aux|[|s1] u|j [|v|e|]|s1].
    - destruct (Nat.eq_dec n 0) as [Hn|Hn];
        [rewrite (h_sub_z aux s Hn) in H | rewrite (h_sub_s aux s Hn) in H];
        injection H as <- <- <-; repeat split; discriminate.
    - injection H as <- <- <-. repeat split; discriminate.
    - destruct (Nat.eq_dec n 0) as [Hn|Hn]; [rewrite (h_up_z u s Hn) in H|].
      + injection H as <- <- <-. repeat split; [now destruct (umsg_is_term u) | discriminate].
      + destruct (cc_tb s) as [k|] eqn:Etb.
        * rewrite (h_up_s u s Hn Etb) in H. injection H as <- <- <-.
          repeat split; [now destruct (umsg_is_term u) | discriminate].
        * unfold o, concat_op, handle, cc_handle in H.
          destruct (Nat.eqb_spec n 0); [contradiction|]. rewrite Etb in H. injection H as <- <- <-.
          repeat split; [now destruct u | discriminate].
    - injection H as <- <- <-. repeat split; discriminate.
    - destruct (Nat.eq_dec (cc_i s) 0) as [Ei|Ei]; [rewrite (h_dh_first j s Ei) in H|];
        [|destruct (cc_got_pull s) eqn:Egp;
          [rewrite (h_dh_pull j s Ei Egp) in H | rewrite (h_dh_idle j s Ei Egp) in H]];
        injection H as <- <- <-; repeat split; discriminate.
    - injection H as <- <- <-. repeat split; discriminate.
    - injection H as <- <- <-. repeat split; discriminate.
    - destruct (Nat.eq_dec (S (cc_i s)) n) as [Hn|Hn];
        [rewrite (h_dt_last j s Hn) in H | rewrite (h_dt_next j s Hn) in H];
        injection H as <- <- <-; repeat split; try discriminate.
      intros _. now exists j.
    - injection H as <- <- <-. repeat split; discriminate.
  Qed.

  Lemma resume_shape k s s' os a : resume o k s = (s', os, a) ->
    os = [] /\ s' = s /\ data_out 0 [act_event o a] = [] /\
    (act_event o a = ECall (CDn 0 DT) -> k = CcZero /\ cc_disposed s = false).
  Proof using.
    destruct k; cbn.
    - intros H; inversion H; subst; cbn. repeat split; discriminate.
    - destruct (cc_disposed s) eqn:E; intros H; inversion H; subst; cbn; repeat split; discriminate.
  Qed.

  Lemma reach_inv c : reach p g_std c -> Inv c.
  Proof. intros Hr. exact (proj1 (inv_dem_reach Hr)). Qed.

  (** C09, the data: what the sink has been given is exactly what the members
      sent, in the order of arrival *)
  Lemma order_data (c : cfg o) : reach p g_std c -> data_out 0 (trace c) = all_in (trace c).
  Proof using.
    induction 1 as [|c m Hr IH He]; [reflexivity|].
    pose proof (enabled_live _ _ _ _ He) as Hlive.
    destruct m as [inp|].
    - pose proof (enabled_deliverable _ _ _ _ He) as Hdel.
      destruct (handle o inp (cst c)) as [[s' os] a] eqn:Hh.
      rewrite (step_in_trace p c inp Hlive Hdel Hh), data_out_app, all_in_app, IH.
      f_equal. destruct (handle_shape _ _ Hh) as (-> & _ & Hdata & _).
      change (EIn inp :: map EObs [] ++ [act_event o a]) with ([EIn inp] ++ [act_event o a]).
      rewrite data_out_app, all_in_app, Hdata. destruct a; cbn; now rewrite ?app_nil_r.
    - destruct (enabled_ret_stack _ _ _ He) as (k & cl & rest & Hst).
      destruct (resume o k (cst c)) as [[s' os] a] eqn:Hres.
      rewrite (step_ret_trace p c Hlive Hst Hres), data_out_app, all_in_app, IH.
      f_equal. destruct (resume_shape _ _ Hres) as (-> & _ & Hdata & _).
      change (ERet :: map EObs [] ++ [act_event o a]) with ([ERet] ++ [act_event o a]).
      rewrite data_out_app, all_in_app, Hdata. destruct a; reflexivity.
  Qed.

  (** C09, the order: a member is subscribed only after its predecessor ended *)
  Lemma order_members (c : cfg o) k : Inv c -> us (ms c) (S k) <> UNone -> us (ms c) k = UEnded.
  Proof using.
    intros [_ _ [Hbef Haft] _ _ _] Hk. apply Hbef.
    destruct (Nat.lt_ge_cases k (cc_i (cst c))) as [H|H]; [exact H|].
    exfalso. apply Hk. apply Haft. now apply Nat.lt_succ_r.
  Qed.

  Lemma live_dt m k : sk m 0 = SLive ->
    sk (ms_settle p o m [] (ACall (CDn 0 DT) k)) 0 = SFinished.
  Proof using.
    intros H. unfold ms_settle. cbn [fold_left map mon_event]. rewrite add_viols_eq. cbn.
    rewrite H. reflexivity.
  Qed.

  Lemma act_dt (a : act (Fr o)) : act_event o a = ECall (CDn 0 DT) -> exists k, a = ACall (CDn 0 DT) k.
  Proof using. destruct a as [| |cl k]; cbn; intros H; inversion H. now exists k. Qed.

  Lemma dt_in_act (a : act (Fr o)) : dt_in [act_event o a] = 0.
  Proof using. destruct a; reflexivity. Qed.

  Lemma sub_enabled_init (c : cfg o) s aux : Inv c -> enabled p g_std c (MIn (ISub s aux)) = true ->
    s = 0 /\ cst c = st0 o /\ sk (ms c) 0 = SNone.
  Proof using Hns.
    intros [_ _ _ _ _ Hph] He. destruct (en_sub _ _ _ _ _ He) as (_ & Hs & Hsub). rewrite Hns in Hs.
    split; [lia|]. assert (s = 0) by lia. subst s. phases Hph; try congruence. auto.
  Qed.

  Lemma frames_zero (c : cfg o) cl rs : Inv c -> stack c = (CcZero, cl) :: rs ->
    cc_disposed (cst c) = false -> n = 0 /\ cc_i (cst c) = 0 /\ sk (ms c) 0 = SLive.
  Proof using.
    intros [_ _ _ _ _ Hph] Hst Hdis. phases Hph; try congruence; try tauto.
    all: match goal with
         | H : done_frames (stack _) |- _ =>
             rewrite Hst in H; apply done_inv in H; destruct H; discriminate
         end.
  Qed.

  (** the part of the invariant that talks about the trace *)
  Record TInv (c : cfg o) : Prop := {
    t_cnt : cc_i (cst c) = dt_in (trace c);
    t_mem : forall j, j < cc_i (cst c) -> In (EIn (IDn j DT)) (trace c);
    t_done : In (ECall (CDn 0 DT)) (trace c) -> cc_i (cst c) = n /\ sk (ms c) 0 = SFinished;
    t_conv : 0 < n -> cc_i (cst c) = n -> In (ECall (CDn 0 DT)) (trace c);
  }.

  Lemma tinv_step (c : cfg o) m : Inv c -> TInv c -> enabled p g_std c m = true -> TInv (step p c m).
  Proof using Hns.
    intros HI [] He. pose proof (enabled_live _ _ _ _ He) as Hlive.
    destruct m as [inp|].
    - pose proof (enabled_deliverable _ _ _ _ He) as Hdel.
      destruct (handle o inp (cst c)) as [[s' os] a] eqn:Hh.
      destruct (step_in p c inp Hlive Hdel Hh) as (Hc & _ & Hm & _).
      pose proof (step_in_trace p c inp Hlive Hdel Hh) as Ht.
      destruct (handle_shape _ _ Hh) as (-> & Hi & _ & Hdt). cbn [map app] in Ht.
      assert (Hcases : (exists j, inp = IDn j DT) \/
                       (cc_i s' = cc_i (cst c) /\ dt_in [EIn inp] = 0 /\
                        act_event o a <> ECall (CDn 0 DT) /\ EIn inp <> ECall (CDn 0 DT))).
      { assert (Hnodt : (forall j, inp <> IDn j DT) -> act_event o a <> ECall (CDn 0 DT)).
        { intros Hne Ha. destruct (Hdt Ha) as (j & Hj & _). exact (Hne j Hj). }
        destruct inp as [s aux|s u|j d|s].
        - right. destruct (sub_enabled_init _ _ HI He) as (-> & E0 & _).
          rewrite Hi, E0. split; [reflexivity|]. split; [reflexivity|].
          split; [apply Hnodt|]; discriminate.
        - right. split; [destruct s; exact Hi|]. split; [reflexivity|].
          split; [apply Hnodt|]; discriminate.
        - destruct d as [|v|e|]; [right|right|right|left; now exists j].
          all: split; [exact Hi|]; split; [reflexivity|]; split; [apply Hnodt|]; discriminate.
        - right. split; [exact Hi|]. split; [reflexivity|].
          split; [apply Hnodt|]; discriminate. }
      destruct Hcases as [[j ->]|(Hsame & Hz & Hna & Hni)].
      + (* a member terminates *)
        destruct (@en_dn p o g_std c j DT ltac:(discriminate) He) as (_ & Eus & _).
        destruct (live_current j HI Eus) as (-> & Hsk & Hlt & _).
        constructor; rewrite ?Hc, ?Ht, ?Hi.
        * rewrite dt_in_app.
          change (dt_in [EIn (IDn (cc_i (cst c)) DT); act_event o a])
            with (S (dt_in [act_event o a])).
          rewrite dt_in_act. lia.
        * intros j Hj. apply in_or_app. destruct (Nat.eq_dec j (cc_i (cst c))) as [->|Hne].
          -- right. now left.
          -- left. apply t_mem0. lia.
        * intros Hin. apply in_app_or in Hin. destruct Hin as [Hin|Hin].
          -- destruct (t_done0 Hin) as [_ Hf]. congruence.
          -- destruct Hin as [Hin|[Hin|[]]]; [discriminate|].
             destruct (Hdt Hin) as (_ & _ & Hn). split; [exact Hn|].
             destruct (act_dt _ Hin) as [k ->]. rewrite Hm. apply live_dt. exact Hsk.
        * intros Hpos Hn. apply in_or_app. right. right. left.
          rewrite (h_dt_last _ _ Hn) in Hh. inversion Hh. reflexivity.
      + constructor; rewrite ?Hc, ?Ht, ?Hsame.
        * rewrite dt_in_app. 
          change (dt_in [EIn inp; act_event o a]) with (dt_in ([EIn inp] ++ [act_event o a])).
          rewrite dt_in_app, Hz, dt_in_act. lia.
        * intros j Hj. apply in_or_app. left. now apply t_mem0.
        * intros Hin. apply in_app_or in Hin. destruct Hin as [Hin|Hin].
          -- destruct (t_done0 Hin) as [Hn Hf]. split; [exact Hn|]. exact (finished_step He Hf).
          -- destruct Hin as [Hin|[Hin|[]]]; congruence.
        * intros Hpos Hn. apply in_or_app. left. now apply t_conv0.
    - destruct (enabled_ret_stack _ _ _ He) as (k & cl & rest & Hst).
      destruct (resume o k (cst c)) as [[s' os] a] eqn:Hres.
      destruct (step_ret p c Hlive Hst Hres) as (Hc & _ & Hm & _).
      pose proof (step_ret_trace p c Hlive Hst Hres) as Ht.
      destruct (resume_shape _ _ Hres) as (-> & -> & _ & Hdt). cbn [map app] in Ht.
      constructor; rewrite ?Hc, ?Ht.
      + rewrite dt_in_app.
        change (dt_in [ERet; act_event o a]) with (dt_in [act_event o a]).
        rewrite dt_in_act. lia.
      + intros j Hj. apply in_or_app. left. now apply t_mem0.
      + intros Hin. apply in_app_or in Hin. destruct Hin as [Hin|Hin].
        * destruct (t_done0 Hin) as [Hn Hf]. split; [exact Hn|]. exact (finished_step He Hf).
        * destruct Hin as [Hin|[Hin|[]]]; [discriminate|].
          destruct (Hdt Hin) as [-> Hdis].
          destruct (frames_zero HI Hst Hdis) as (Hn & Hi & Hsk).
          split; [congruence|]. destruct (act_dt _ Hin) as [k ->]. rewrite Hm. apply live_dt.
          exact Hsk.
      + intros Hpos Hn. apply in_or_app. left. now apply t_conv0.
  Qed.

  Lemma tinv0 : TInv (cfg0 o).
  Proof.
    constructor; cbn.
    - reflexivity.
    - intros j Hj. lia.
    - intros [].
    - intros Hpos Hn. lia.
  Qed.

  Lemma tinv_reach (c : cfg o) : reach p g_std c -> TInv c.
  Proof.
    revert c. apply reach_invariant; [exact tinv0|].
    intros c m Hr IH He. apply tinv_step; [now apply reach_inv | exact IH | exact He].
  Qed.

  Lemma live_lt (c : cfg o) : Inv c -> 0 < n -> sk (ms c) 0 = SLive -> cc_i (cst c) < n.
  Proof.
    intros [_ _ _ _ _ Hph] Hpos Hsk. phases Hph; try congruence; try lia.
    rewrite Hsk in B. discriminate.
  Qed.

  (** whenever the sink is in a position to use its talkback, the stored
      member talkback is the current member's and that member is live: the
      [expect("source talkback not set")] sites are unreachable and no message
      of the sink reaches a member that is over *)
  Lemma sink_turn (c : cfg o) : Inv c -> 0 < n -> sk (ms c) 0 = SLive ->
    top_peer_is c (PSink 0) = true ->
    cc_tb (cst c) = Some (cc_i (cst c)) /\ us (ms c) (cc_i (cst c)) = ULive.
  Proof using.
    intros [_ _ _ _ _ Hph] Hpos Hsk Htop. phases Hph; try congruence; try tauto.
    - unfold top_peer_is in Htop. rewrite D in Htop. discriminate.
    - rewrite Hsk in B. discriminate.
    - rewrite B in Hpos. inversion Hpos.
  Qed.

  Lemma pull_carried (c : cfg o) j :
    Inv c -> enabled p g_std c (MIn (IDn j DH)) = true -> 0 < j ->
    (0 < npull (ms c) 0 ->
     trace (step p c (MIn (IDn j DH))) = trace c ++ [EIn (IDn j DH); ECall (CUp j UP)] /\
     stack (step p c (MIn (IDn j DH))) = (CcDone, CUp j UP) :: stack c) /\
    (npull (ms c) 0 = 0 ->
     trace (step p c (MIn (IDn j DH))) = trace c ++ [EIn (IDn j DH); EDone] /\
     stack (step p c (MIn (IDn j DH))) = stack c).
  Proof using.
    clear Hns. intros HI He Hj.
    pose proof (enabled_live _ _ _ _ He) as Hlive.
    pose proof (enabled_deliverable _ _ _ _ He) as Hdel.
    destruct (en_greet _ _ _ _ He) as (_ & Eus & _).
    destruct (subd_current j HI Eus) as (-> & Hlt & _).
    assert (Hi : cc_i (cst c) <> 0) by lia.
    assert (Hpos : 0 < n) by lia. pose proof (i_pull HI Hpos) as Hpl.
    split; intros Hp.
    - assert (Egp : cc_got_pull (cst c) = true) by (apply Hpl; exact Hp).
      pose proof (h_dh_pull (cc_i (cst c)) (cst c) Hi Egp) as Hh.
      destruct (step_in p c _ Hlive Hdel Hh) as (_ & Hs & _).
      split; [|exact Hs]. rewrite (step_in_trace p c _ Hlive Hdel Hh). reflexivity.
    - assert (Egp : cc_got_pull (cst c) = false).
      { destruct (cc_got_pull (cst c)); [|reflexivity].
        assert (0 < npull (ms c) 0) by (apply Hpl; reflexivity). lia. }
      pose proof (h_dh_idle (cc_i (cst c)) (cst c) Hi Egp) as Hh.
      destruct (step_in p c _ Hlive Hdel Hh) as (_ & Hs & _).
      split; [|exact Hs]. rewrite (step_in_trace p c _ Hlive Hdel Hh). reflexivity.
  Qed.

End ConcatInv.

(** Regime: one sink, no resubscription, no nesting check, no demand counts,
    members greet inside the subscribing call. *)

Lemma inv_reach n p :
  nsinks p = 1 -> resub p = false -> no_nest p = false -> c14 p = false -> late_ok p = false ->
  forall c : cfg (concat_op n), reach p g_std c -> Inv c.
Proof.
  intros H1 _ H3 H4 H5 c Hr. exact (reach_inv H1 H3 (no_c14 H4) H5 Hr).
Qed.

(** C01-C05, C17: no protocol violation and no panic in any reachable configuration,
    for every member count (zero included) *)
Theorem concat_safe n p :
  nsinks p = 1 -> resub p = false -> no_nest p = false -> c14 p = false -> late_ok p = false ->
  forall c : cfg (concat_op n), reach p g_std c -> viols (ms c) = [] /\ dead c = false.
Proof.
  intros H1 H2 H3 H4 H5 c Hr. destruct (inv_reach H1 H2 H3 H4 H5 Hr) as [Hd HB _ _ _ _].
  split; [exact (pb_viols HB) | exact Hd].
Qed.
Print Assumptions concat_safe.

(** C09: the sink receives exactly the data the members sent, in the order of
    arrival; a member is subscribed only after its predecessor ended; at most
    one member (the one at the cursor) is subscribed-and-not-over, all members
    before it have ended and none after it was ever subscribed; and whenever
    it is the sink's turn the stored talkback is the current, live member's. *)
Theorem concat_order n p :
  nsinks p = 1 -> resub p = false -> no_nest p = false -> c14 p = false -> late_ok p = false ->
  forall c : cfg (concat_op n), reach p g_std c ->
    data_out 0 (trace c) = all_in (trace c) /\
    (forall k, S k < n -> us (ms c) (S k) <> UNone -> us (ms c) k = UEnded) /\
    (forall j, us (ms c) j = USubd \/ us (ms c) j = ULive -> j = cc_i (cst c)) /\
    (forall j, j < cc_i (cst c) -> us (ms c) j = UEnded) /\
    (forall j, cc_i (cst c) < j -> us (ms c) j = UNone) /\
    (0 < n -> sk (ms c) 0 = SLive -> top_peer_is c (PSink 0) = true ->
     cc_tb (cst c) = Some (cc_i (cst c)) /\ us (ms c) (cc_i (cst c)) = ULive).
Proof.
  intros H1 H2 H3 H4 H5 c Hr. pose proof (inv_reach H1 H2 H3 H4 H5 Hr) as HI.
  split; [|split; [|split; [|split; [|split]]]].
  - exact (order_data Hr).
  - intros k _. now apply order_members.
  - intros j. apply (at_cursor j (i_around HI)).
  - exact (proj1 (i_around HI)).
  - intros j Hj. apply (proj2 (i_around HI) j Hj).
  - exact (sink_turn HI).
Qed.
Print Assumptions concat_order.

(** C09: completion.  [cc_i] counts the member Terminates received; while the
    sink is live it is below [n]; the sink has been sent Terminate exactly when
    [n] member Terminates have arrived (for [n >= 1]; for [n = 0] the sink is
    completed after its greeting unless it disposed), and then every member
    ended by its own Terminate and the sink is finished. *)
Theorem concat_completes n p :
  nsinks p = 1 -> resub p = false -> no_nest p = false -> c14 p = false -> late_ok p = false ->
  forall c : cfg (concat_op n), reach p g_std c ->
    cc_i (cst c) = dt_in (trace c) /\
    (0 < n -> sk (ms c) 0 = SLive -> cc_i (cst c) < n) /\
    (In (ECall (CDn 0 DT)) (trace c) ->
       sk (ms c) 0 = SFinished /\ dt_in (trace c) = n /\
       forall j, j < n -> us (ms c) j = UEnded /\ In (EIn (IDn j DT)) (trace c)) /\
    (0 < n -> dt_in (trace c) = n -> In (ECall (CDn 0 DT)) (trace c)).
Proof.
  intros H1 H2 H3 H4 H5 c Hr.
  pose proof (inv_reach H1 H2 H3 H4 H5 Hr) as HI.
  destruct (tinv_reach H1 H3 (no_c14 H4) H5 Hr) as [Hcnt Hmem Hdone Hconv].
  split; [exact Hcnt|]. split; [now apply live_lt|]. split.
  - intros Hin. destruct (Hdone Hin) as [Hn Hf]. split; [exact Hf|]. split; [congruence|].
    intros j Hj. split; [apply (proj1 (i_around HI)) | apply Hmem]; lia.
  - intros Hpos Hn. apply Hconv; congruence.
Qed.
Print Assumptions concat_completes.

(** C09: the sink's demand is carried over.  The flag says exactly whether the
    sink ever pulled, and a member other than the first is pulled in the very
    activation in which it greets iff the sink has pulled before. *)
Theorem concat_pull_carried n p :
  nsinks p = 1 -> resub p = false -> no_nest p = false -> c14 p = false -> late_ok p = false ->
  forall c : cfg (concat_op n), reach p g_std c ->
    (0 < n -> (cc_got_pull (cst c) = true <-> 0 < npull (ms c) 0)) /\
    (forall j, enabled p g_std c (MIn (IDn j DH)) = true -> 0 < j ->
       (0 < npull (ms c) 0 ->
        trace (step p c (MIn (IDn j DH))) = trace c ++ [EIn (IDn j DH); ECall (CUp j UP)] /\
        stack (step p c (MIn (IDn j DH))) = (CcDone, CUp j UP) :: stack c) /\
       (npull (ms c) 0 = 0 ->
        trace (step p c (MIn (IDn j DH))) = trace c ++ [EIn (IDn j DH); EDone] /\
        stack (step p c (MIn (IDn j DH))) = stack c)).
Proof.
  intros H1 H2 H3 H4 H5 c Hr. pose proof (inv_reach H1 H2 H3 H4 H5 Hr) as HI. split.
  - exact (i_pull HI).
  - intros j He Hj. now apply pull_carried.
Qed.
Print Assumptions concat_pull_carried.


(** ** Non-vacuity: a conformant run of two members in which the sink pulls
    inside its greeting, member 0 sends one item and terminates, member 1 is
    subscribed inside that Terminate, is pulled at once, sends one item and
    terminates, and the sink is completed. *)
Definition p_std : mparams :=
  {| nsinks := 1; late_ok := false; pullable := false; one_pull := false;
     resub := false; no_nest := false; c14 := false |}.

Definition witness_script : list move :=
  [MIn (ISub 0 0); MIn (IDn 0 DH); MIn (IUp 0 UP); MRet; MRet;
   MIn (IDn 0 (DD (VN 1))); MRet;
   MIn (IDn 0 DT); MIn (IDn 1 DH); MIn (IDn 1 (DD (VN 2))); MRet; MRet;
   MIn (IDn 1 DT); MRet; MRet; MRet].

Example concat_witness :
  let c := run p_std (concat_op 2) witness_script in
  reach p_std g_std c /\ stack c = [] /\ sk (ms c) 0 = SFinished /\
  data_out 0 (trace c) = [VN 1; VN 2] /\ In (ECall (CDn 0 DT)) (trace c) /\
  In (ECall (CUp 1 UP)) (trace c).
Proof.
  split; [apply reach_run; vm_compute; reflexivity|].
  vm_compute. repeat split; auto 30.
Qed.
