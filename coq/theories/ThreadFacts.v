(** * ThreadFacts: what the thread proofs (Inv_threads_*.v) share and no model owns.

    - the monitors of ThreadSpec.v on a trace that grows at its end;
    - [cnt P k], the number of indices below [k] at which a boolean map holds, and what a step of
      one thread does to it;
    - the scheduler of Threads.v: whatever every step preserves holds of what the driver computes;
    - a sweep over the talkback cells, as three functions of the cells before it;
    - take behind a fan-in: its counter against the trace ([tally]), and the three arguments about
      its [end] flag ([ticket], [one_end], [why_end]), stated over a boolean map "thread t is at such
      a program counter" of which a step changes one entry.

    The proofs go through the branches of a step function in three ways.  Inv_threads_merge.v and
    Inv_threads_fine.v restate the step once as an inductive relation with one named constructor per
    branch and the guards as premises ([mstep_at] with [mstep_of], [fstep_at] with [fstep_of]); every
    invariant is then proved by [destruct] of that relation.  This is the one to copy for a model with
    several invariants: the case split is computed once and every case has a name.  The files for take
    behind a fan-in compute the same split anew in each proof by a tactic that evaluates the step
    function ([xm_cases], [xc_cases], [xf_cases]); Inv_threads_take.v and Inv_threads_combine.v, whose
    step functions are small, [destruct] the program counter in place. *)

From CB Require Import Threads ThreadSpec ThreadsFine.

Set Implicit Arguments.

#[local] Arguments count : simpl never.

Notation b2n := Nat.b2n.

(** case distinction [j = t] on a goal about [upd _ t _ j] *)
Ltac pw j t :=
  let ne := fresh "ne" in
  destruct (Nat.eq_dec j t) as [->|ne]; [rewrite ?upd_same | rewrite ?(upd_other _ _ ne)].

Lemma upd_cases A (Q : A -> Prop) (f : nat -> A) t x j :
  (j = t -> Q x) -> (j <> t -> Q (f j)) -> Q (upd f t x j).
Proof. intros H1 H2. pw j t; auto. Qed.

(** a step of thread [t] leaves the entry of every other thread as it is *)
Ltac upd_others t :=
  let t0 := fresh "t0" in let ne := fresh "ne" in
  intros t0 ne; cbn beta; rewrite upd_other by exact ne; reflexivity.

(** the conjunctions among the hypotheses, taken apart *)
Ltac ands := repeat match goal with H : _ /\ _ |- _ => destruct H end.

(** a conjunction of clauses that follow from hypotheses of the same shape: conjunct by conjunct *)
Ltac clauses := ands; repeat split; intros; auto; try congruence; try lia.

(** the guards of a branch of a step function, as propositions *)
Ltac guards :=
  repeat match goal with
         | H : (_ <? _) = true |- _ => apply Nat.ltb_lt in H
         | H : (_ <? _) = false |- _ => apply Nat.ltb_ge in H
         | H : (_ =? _) = true |- _ => apply Nat.eqb_eq in H
         | H : (_ =? _) = false |- _ => apply Nat.eqb_neq in H
         end.

Lemma b2n_le1 b : b2n b <= 1.
Proof. destruct b; cbn; lia. Qed.

(** ** [count], [existsb], [flat_map] *)

Lemma count_cons A (f : A -> bool) x l : count f (x :: l) = b2n (f x) + count f l.
Proof. unfold count. cbn [filter]. destruct (f x); reflexivity. Qed.

(** the same at [tevent = nat * tev], so that rewriting leaves [@count tevent] *)
Lemma count_cons_t (f : tevent -> bool) (e : tevent) (l : list tevent) :
  @count tevent f (e :: l) = b2n (f e) + @count tevent f l.
Proof. apply count_cons. Qed.

Lemma count_app A (f : A -> bool) l1 l2 : count f (l1 ++ l2) = count f l1 + count f l2.
Proof. unfold count. now rewrite filter_app, app_length. Qed.

Lemma count_rev A (f : A -> bool) l : count f (rev l) = count f l.
Proof.
  induction l as [|x l IH]; [reflexivity|].
  cbn [rev]. rewrite count_app, IH, !count_cons. change (count f []) with 0. lia.
Qed.

Lemma count_ext A (f g : A -> bool) l : (forall x, f x = g x) -> count f l = count g l.
Proof. intros H. induction l as [|x l IH]; [reflexivity|]. now rewrite !count_cons, H, IH. Qed.

Lemma existsb_rev A (f : A -> bool) l : existsb f (rev l) = existsb f l.
Proof.
  induction l as [|x l IH]; [reflexivity|].
  cbn [rev]. rewrite existsb_app, IH. cbn. rewrite orb_false_r. apply orb_comm.
Qed.

Lemma existsb_false A (f : A -> bool) l : (forall x, f x = false) -> existsb f l = false.
Proof. intros H. induction l as [|x l IH]; cbn; [reflexivity|]. now rewrite H. Qed.

Lemma flat_map_nil A B (f : A -> list B) l : (forall x, In x l -> f x = []) -> flat_map f l = [].
Proof.
  induction l as [|x l IH]; cbn; intros H; [reflexivity|].
  rewrite H by auto. apply IH. auto.
Qed.

Lemma val_eqb_refl : forall v, val_eqb v v = true.
Proof.
  fix IH 1. intros [x|l]; cbn.
  - apply Nat.eqb_refl.
  - induction l as [|a l IHl]; [reflexivity|]. now rewrite IH.
Qed.

Lemma is_prefix_app a b : is_prefix a (a ++ b) = true.
Proof. induction a; cbn; [reflexivity|]. now rewrite val_eqb_refl. Qed.

Lemma list_val_eqb_refl a : list_val_eqb a a = true.
Proof. induction a; cbn; [reflexivity|]. now rewrite val_eqb_refl. Qed.

(** ** The monitors of ThreadSpec.v on a trace that grows at its end *)

(** an event that may come before the greeting *)
Definition not_early (e : tevent) : Prop :=
  match snd e with TBegin DH => True | TBegin _ => False | _ => True end.

Lemma bgo_snoc l e :
  before_greet_ok l = true -> 1 <= count is_begin_greet l \/ not_early e ->
  before_greet_ok (l ++ [e]) = true.
Proof.
  induction l as [|[t0 [[| | |]| | |]] l IH]; cbn; intros H Hd; try reflexivity; try discriminate;
    try (apply IH; assumption).
  destruct Hd as [Hd|Hd]; [unfold count in Hd; cbn in Hd; lia|].
  destruct e as [t [[| | |]| | |]]; cbn in *; auto; contradiction.
Qed.

Lemma bgo_prefix l e : before_greet_ok (l ++ [e]) = true -> before_greet_ok l = true.
Proof.
  induction l as [|[t0 [[| | |]| | |]] l IH]; cbn; intros H; auto.
Qed.

Lemma bgo_data_greet l :
  before_greet_ok l = true -> 1 <= count is_begin_data l -> 1 <= count is_begin_greet l.
Proof.
  induction l as [|[t0 [[| | |]| | |]] l IH]; rewrite ?count_cons; cbn; intros H Hd;
    try discriminate; try lia; auto.
Qed.

Definition ev_data (t : nat) (e : tevent) : list val :=
  match e with (t', TBegin (DD v)) => if Nat.eqb t t' then [v] else [] | _ => [] end.

Lemma delivered_snoc t l e : delivered_by t (l ++ [e]) = delivered_by t l ++ ev_data t e.
Proof. unfold delivered_by. rewrite flat_map_app. cbn. now rewrite app_nil_r. Qed.

Lemma deliv_cons j t e tr :
  (forall v, e = TBegin (DD v) -> j <> t) ->
  delivered_by j (rev ((t, e) :: tr)) = delivered_by j (rev tr).
Proof.
  intros H. cbn [rev]. rewrite delivered_snoc.
  destruct e as [[| v | |]| | |]; cbn; try apply app_nil_r.
  destruct (Nat.eqb_spec j t) as [E|_]; [|apply app_nil_r]. exfalso. exact (H v eq_refl E).
Qed.

Lemma flagt_nil b v : flagt b v = [] -> b = true.
Proof. destruct b; [reflexivity|discriminate]. Qed.

Lemma any_err_intro n fins f e : f < n -> fins f = FinErr e -> any_err n fins = true.
Proof.
  intros Hf He. apply existsb_exists. exists f. split; [apply in_seq; lia|now rewrite He].
Qed.

Lemma any_err_elim n fins : any_err n fins = true -> exists f e, f < n /\ fins f = FinErr e.
Proof.
  intros (f & Hf & He)%existsb_exists. apply in_seq in Hf.
  destruct (fins f) as [|e|] eqn:E; try discriminate. exists f, e. split; [lia|exact E].
Qed.

Lemma all_term_elim n fins t : all_term n fins = true -> t < n -> fins t = FinTerm.
Proof.
  unfold all_term. rewrite forallb_forall. intros H Ht.
  assert (Hx : match fins t with FinTerm => true | _ => false end = true) by (apply H, in_seq; lia).
  now destruct (fins t).
Qed.

Inductive qext (t : nat) (tr : list tevent) : list tevent -> Prop :=
| qext0 : qext t tr tr
| qextS tr1 j m : qext t tr tr1 -> qext t tr ((t, TUp j m) :: tr1).

Lemma qext_count (f : tevent -> bool) t tr tr1 :
  (forall t0 j m, f (t0, TUp j m) = false) -> qext t tr tr1 -> count f tr1 = count f tr.
Proof.
  intros Hf Hq. induction Hq as [|tr1 j m Hq IH]; [reflexivity|].
  rewrite count_cons_t, Hf, IH. reflexivity.
Qed.

Lemma qext_panic t tr tr1 : qext t tr tr1 -> existsb is_panic tr1 = existsb is_panic tr.
Proof. intros Hq. induction Hq as [|tr1 j m Hq IH]; [reflexivity|]. cbn. exact IH. Qed.

Lemma qext_forall (P : tevent -> Prop) t tr tr1 :
  (forall t0 j m, P (t0, TUp j m)) -> qext t tr tr1 -> Forall P tr -> Forall P tr1.
Proof. intros HP Hq Hf. induction Hq as [|tr1 j m Hq IH]; [assumption|]. constructor; auto. Qed.

Lemma qext_delivered t tr tr1 j :
  qext t tr tr1 -> delivered_by j (rev tr1) = delivered_by j (rev tr).
Proof.
  intros Hq. induction Hq as [|tr1 i m Hq IH]; [reflexivity|].
  rewrite deliv_cons by discriminate. exact IH.
Qed.

(** ** [cnt P k]: the number of [i < k] with [P i = true] *)

Fixpoint cnt (P : nat -> bool) (k : nat) : nat :=
  match k with 0 => 0 | S k' => b2n (P k') + cnt P k' end.

Lemma cnt_ext P Q k : (forall j, j < k -> P j = Q j) -> cnt P k = cnt Q k.
Proof.
  induction k as [|k IH]; cbn; intros H; [reflexivity|].
  rewrite H, IH by auto with arith. reflexivity.
Qed.

Lemma cnt_ge P k t : t < k -> b2n (P t) <= cnt P k.
Proof.
  induction k as [|k IH]; intros Ht; [lia|]. cbn.
  destruct (Nat.eq_dec t k) as [->|ne]; [|specialize (IH ltac:(lia))]; lia.
Qed.

Lemma cnt_pos P k t : t < k -> P t = true -> 1 <= cnt P k.
Proof. intros Ht H. pose proof (cnt_ge P Ht) as G. now rewrite H in G. Qed.

Lemma cnt_zero P k : cnt P k = 0 -> forall j, j < k -> P j = false.
Proof.
  intros H j Hj. pose proof (cnt_ge P Hj) as G. destruct (P j); [cbn in G; lia | reflexivity].
Qed.

Lemma cnt_none P k : (forall j, j < k -> P j = false) -> cnt P k = 0.
Proof.
  induction k as [|k IH]; cbn; intros H; [reflexivity|]. now rewrite H, IH by auto with arith.
Qed.

Lemma cnt_zero_or P k : cnt P k = 0 \/ exists j, j < k /\ P j = true.
Proof.
  induction k as [|k [IH|(j & Hj & HP)]]; cbn; [now left | | right; exists j; auto].
  destruct (P k) eqn:E; [right; exists k; auto | now left].
Qed.

Lemma cnt_compl P k : cnt P k + cnt (fun i => negb (P i)) k = k.
Proof. induction k as [|k IH]; cbn; [reflexivity|]. destruct (P k); cbn; lia. Qed.

Lemma cnt_le P k : cnt P k <= k.
Proof. pose proof (cnt_compl P k). lia. Qed.

Lemma cnt_all P k : (forall j, j < k -> P j = true) -> cnt P k = k.
Proof.
  intros H. pose proof (cnt_compl P k) as C. rewrite (@cnt_none (fun i => negb (P i))) in C; [lia|].
  intros j Hj. now rewrite H.
Qed.

Lemma cnt_full P k : cnt P k = k -> forall j, j < k -> P j = true.
Proof.
  intros H j Hj. pose proof (cnt_compl P k) as C.
  apply negb_false_iff, (@cnt_zero (fun i => negb (P i)) k); [lia | exact Hj].
Qed.

Lemma cnt_lt P k t : t < k -> P t = false -> cnt P k < k.
Proof.
  intros Ht H. pose proof (cnt_compl P k).
  assert (1 <= cnt (fun i => negb (P i)) k) by (apply cnt_pos with (t := t); [exact Ht | now rewrite H]).
  lia.
Qed.

Lemma cnt_change P Q k t :
  t < k -> (forall j, j < k -> j <> t -> Q j = P j) -> cnt Q k + b2n (P t) = cnt P k + b2n (Q t).
Proof.
  induction k as [|k IH]; intros Ht H; [lia|]. cbn.
  destruct (Nat.eq_dec t k) as [->|ne].
  - rewrite (@cnt_ext Q P k) by (intros; apply H; lia). lia.
  - rewrite (H k) by lia. specialize (IH ltac:(lia) ltac:(auto with arith)). lia.
Qed.

Lemma cnt_moved P Q k t c c' :
  t < k -> (forall j, j <> t -> Q j = P j) -> c = cnt P k -> c' + b2n (P t) = c + b2n (Q t) ->
  c' = cnt Q k.
Proof. intros Ht H -> Hc. pose proof (@cnt_change P Q k t Ht (fun j _ => H j)). lia. Qed.

Lemma cnt_upd A (P : A -> bool) (f : nat -> A) t x k :
  t < k -> cnt (fun i => P (upd f t x i)) k + b2n (P (f t)) = cnt (fun i => P (f i)) k + b2n (P x).
Proof.
  intros Ht. pose proof (@cnt_change (fun i => P (f i)) (fun i => P (upd f t x i)) k t Ht) as C.
  cbv beta in C. rewrite upd_same in C. apply C. intros j _ ne. now rewrite upd_other.
Qed.

Lemma cnt_flip P Q k t :
  t < k -> (forall j, j < k -> j <> t -> P j = Q j) -> P t = false -> Q t = true ->
  cnt Q k = S (cnt P k).
Proof.
  intros Ht H HP HQ. pose proof (@cnt_change P Q k t Ht) as C.
  rewrite HP, HQ in C. cbn in C. rewrite Nat.add_0_r, Nat.add_1_r in C. apply C.
  intros j Hj ne. symmetry. now apply H.
Qed.

Lemma cnt_but_one P k t :
  t < k -> P t = false -> S (cnt P k) = k -> forall j, j < k -> j <> t -> P j = true.
Proof.
  intros Ht HP Hc j Hj ne. rewrite <- (@upd_other _ P t true j ne).
  apply (@cnt_full _ k); [|exact Hj]. transitivity (S (cnt P k)); [|exact Hc].
  apply cnt_flip with (t := t); [exact Ht | | exact HP | apply upd_same].
  intros i _ ni. now rewrite upd_other.
Qed.

Lemma cnt_le_one P k : (forall i j, i < k -> j < k -> P i = true -> P j = true -> i = j) -> cnt P k <= 1.
Proof.
  induction k as [|k IH]; cbn; intros H; [lia|].
  destruct (P k) eqn:E; [|apply IH; intros; apply H; auto].
  rewrite cnt_none; [cbn; lia|]. intros j Hj. destruct (P j) eqn:E2; auto.
  assert (j = k) by (apply H; auto). lia.
Qed.

(** ** The scheduler: what every step preserves holds of what [run_full] computes *)

Section Driver.
  Variable St : Type.
  Variable step : St -> nat -> St.
  Variable finished : St -> nat -> bool.
  Variable P : St -> Prop.
  Hypothesis P_step : forall s t, P s -> P (step s t).

  Lemma run_sched_inv sch : forall s, P s -> P (run_sched step finished sch s).
  Proof.
    induction sch as [|t sch IH]; intros s H; [exact H|].
    cbn [run_sched]. apply IH. destruct (finished s t); auto.
  Qed.

  Lemma drain_threads_inv n fuel : forall s, P s -> P (drain_threads step finished n fuel s).
  Proof.
    induction fuel as [|f IH]; intros s H; [exact H|].
    cbn [drain_threads]. destruct (first_unfinished finished n s); auto.
  Qed.

  Lemma run_full_inv n sch fuel s : P s -> P (run_full step finished n sch fuel s).
  Proof. intros H. now apply drain_threads_inv, run_sched_inv. Qed.
End Driver.

Section FirstUnfinished.
  Variable St : Type.
  Variable finished : St -> nat -> bool.

  Lemma first_unfinished_none n s :
    first_unfinished finished n s = None -> forall t, t < n -> finished s t = true.
  Proof.
    induction n as [|n IH]; intros H t Ht; [lia|]. cbn [first_unfinished] in H.
    destruct (first_unfinished finished n s); [discriminate|].
    destruct (finished s n) eqn:E; [|discriminate].
    destruct (Nat.eq_dec t n) as [->|ne]; [exact E | apply IH; [reflexivity|lia]].
  Qed.

  Lemma all_finished_first_unfinished n s :
    (forall t, t < n -> finished s t = true) -> first_unfinished finished n s = None.
  Proof.
    induction n as [|n IH]; intros H; [reflexivity|].
    cbn [first_unfinished]. now rewrite IH, H by auto with arith.
  Qed.

  Lemma first_unfinished_some n s t :
    t < n -> finished s t = false -> (forall t', t' < t -> finished s t' = true) ->
    first_unfinished finished n s = Some t.
  Proof.
    induction n as [|n IH]; intros Ht Hf Hb; [lia|]. cbn [first_unfinished].
    destruct (Nat.eq_dec t n) as [->|ne].
    - now rewrite (all_finished_first_unfinished Hb), Hf.
    - now rewrite IH by (auto; lia).
  Qed.
End FirstUnfinished.

Lemma members_finished A (pcs : nat -> A) (F : A) (fin : nat -> bool) n :
  (forall t, fin t = true -> pcs t = F) -> (forall t, n <= t -> pcs t = F) ->
  (forall t, t < n -> fin t = true) -> forall t, pcs t = F.
Proof. intros H1 H2 H3 t. destruct (Nat.lt_ge_cases t n); auto. Qed.

(** ** A sweep over the cells [0 .. k): thread [t] takes the talkback out of every full cell [j] that
    it does not pass over ([hit j]) and tells that member to stop, in index order.  [cell] is the
    cells as they were before the sweep; the three components of the result, and what they are
    pointwise. *)

Section Sweep.
  Variables (hit : nat -> bool) (t : nat) (cell : nat -> bool).

  Fixpoint sw_cell (k : nat) : nat -> bool :=
    match k with
    | 0 => cell
    | S k' => if hit k' && cell k' then upd (sw_cell k') k' false else sw_cell k'
    end.

  Fixpoint sw_stp (stp : nat -> bool) (k : nat) : nat -> bool :=
    match k with
    | 0 => stp
    | S k' => if hit k' && cell k' then upd (sw_stp stp k') k' true else sw_stp stp k'
    end.

  Fixpoint sw_tr (tr : list tevent) (k : nat) : list tevent :=
    match k with
    | 0 => tr
    | S k' => if hit k' && cell k' then (t, TUp k' UT) :: sw_tr tr k' else sw_tr tr k'
    end.

  Definition swept (k j : nat) : bool := (j <? k) && hit j && cell j.

  Lemma swept_S k j : swept (S k) j = swept k j || ((j =? k) && hit k && cell k).
  Proof.
    unfold swept. destruct (Nat.eqb_spec j k) as [->|ne].
    - rewrite Nat.ltb_irrefl, (proj2 (Nat.ltb_lt k (S k))) by lia. reflexivity.
    - rewrite orb_false_r. destruct (Nat.ltb_spec j (S k)), (Nat.ltb_spec j k); auto; lia.
  Qed.

  Lemma sw_cell_spec k j : sw_cell k j = cell j && negb (swept k j).
  Proof.
    induction k as [|k IH]; [cbn; now rewrite andb_true_r|].
    rewrite swept_S. cbn [sw_cell]. destruct (hit k && cell k) eqn:E.
    - destruct (Nat.eq_dec j k) as [->|ne].
      + rewrite upd_same, Nat.eqb_refl, <- andb_assoc, E, orb_true_r. now rewrite andb_false_r.
      + rewrite upd_other, IH, (proj2 (Nat.eqb_neq j k)) by assumption. now rewrite orb_false_r.
    - rewrite IH, <- andb_assoc, E, andb_false_r, orb_false_r. reflexivity.
  Qed.

  Lemma sw_cell_hit k j : j < k -> hit j = true -> sw_cell k j = false.
  Proof.
    intros Hj Hh. rewrite sw_cell_spec. unfold swept. rewrite (proj2 (Nat.ltb_lt j k) Hj), Hh.
    now destruct (cell j).
  Qed.

  Lemma sw_stp_spec stp k j : sw_stp stp k j = stp j || swept k j.
  Proof.
    induction k as [|k IH]; [cbn; now rewrite orb_false_r|].
    rewrite swept_S. cbn [sw_stp]. destruct (hit k && cell k) eqn:E.
    - destruct (Nat.eq_dec j k) as [->|ne].
      + rewrite upd_same, Nat.eqb_refl, <- andb_assoc, E. now rewrite !orb_true_r.
      + rewrite upd_other, IH, (proj2 (Nat.eqb_neq j k)) by assumption. now rewrite orb_false_r.
    - rewrite IH, <- andb_assoc, E, andb_false_r, orb_false_r. reflexivity.
  Qed.

  Lemma sw_tr_qext tr k : qext t tr (sw_tr tr k).
  Proof. induction k; cbn [sw_tr]; [constructor|]. destruct (_ && _); [now constructor|assumption]. Qed.

  Lemma sw_tr_count (f : tevent -> bool) tr k :
    (forall t0 j m, f (t0, TUp j m) = false) -> count f (sw_tr tr k) = count f tr.
  Proof. intros Hf. exact (qext_count f Hf (sw_tr_qext tr k)). Qed.

  Lemma sw_tr_panic tr k : existsb is_panic (sw_tr tr k) = existsb is_panic tr.
  Proof. exact (qext_panic (sw_tr_qext tr k)). Qed.

  Lemma sw_tr_forall (P : tevent -> Prop) tr k :
    (forall t0 j m, P (t0, TUp j m)) -> Forall P tr -> Forall P (sw_tr tr k).
  Proof. intros HP. exact (qext_forall HP (sw_tr_qext tr k)). Qed.

  Lemma sw_tr_up tr k j :
    count (is_up_term_of j) (sw_tr tr k) = count (is_up_term_of j) tr + b2n (swept k j).
  Proof.
    induction k as [|k IH]; [cbn; lia|].
    rewrite swept_S. cbn [sw_tr]. rewrite (Nat.eqb_sym j k). destruct (hit k && cell k) eqn:E.
    - rewrite count_cons_t, IH, <- andb_assoc, E, andb_true_r. cbn [is_up_term_of snd].
      destruct (Nat.eqb_spec k j) as [<-|ne]; [|now rewrite orb_false_r].
      unfold swept. rewrite Nat.ltb_irrefl. cbn. lia.
    - rewrite IH, <- andb_assoc, E, andb_false_r, orb_false_r. reflexivity.
  Qed.

  Lemma sweep_cases stp k j :
    (sw_cell k j = cell j /\ sw_stp stp k j = stp j)
    \/ (cell j = true /\ sw_cell k j = false /\ sw_stp stp k j = true).
  Proof.
    rewrite sw_cell_spec, sw_stp_spec. destruct (swept k j) eqn:E.
    - right. unfold swept in E. apply andb_true_iff in E. rewrite (proj2 E), orb_true_r. auto.
    - left. now rewrite andb_true_r, orb_false_r.
  Qed.
End Sweep.

(** ** Take's counter and the talkback calls, against the trace: [tk] items were taken, [stp j] says
    that member [j] was told to stop *)

Record tally (max tk : nat) (stp : nat -> bool) (tr : list tevent) : Prop := {
  t_taken : tk = count is_begin_data tr;
  t_le : tk <= max;
  t_up : forall j, count (is_up_term_of j) tr = b2n (stp j) }.

Definition quiet (e : tev) : bool := match e with TBegin (DD _) | TUp _ _ => false | _ => true end.

Lemma tally_quiet max tk stp tr t e :
  quiet e = true -> tally max tk stp tr -> tally max tk stp ((t, e) :: tr).
Proof.
  intros Hq [Ha Hb Hc].
  constructor; [|assumption|intros j]; rewrite count_cons_t;
    destruct e as [[| | |]| | |]; try discriminate Hq; cbn; auto.
Qed.

Lemma tally_take max tk stp tr t v :
  tk < max -> tally max tk stp tr -> tally max (S tk) stp ((t, TBegin (DD v)) :: tr).
Proof.
  intros Hlt [Ha Hb Hc]. constructor; [|lia|intros j]; rewrite count_cons_t; cbn; auto.
Qed.

Lemma tally_stop max tk stp tr t j :
  stp j = false -> tally max tk stp tr -> tally max tk (upd stp j true) ((t, TUp j UT) :: tr).
Proof.
  intros Hs [Ha Hb Hc]. constructor; [|assumption|intros i]; rewrite count_cons_t; cbn [is_begin_data is_up_term_of snd]; auto.
  rewrite Hc. destruct (Nat.eq_dec i j) as [->|ne].
  - now rewrite upd_same, Nat.eqb_refl, Hs.
  - now rewrite upd_other, (proj2 (Nat.eqb_neq j i)) by auto.
Qed.

Lemma tally_sweep hit t cell max tk stp tr k :
  (forall j, cell j = true -> stp j = false) -> tally max tk stp tr ->
  tally max tk (sw_stp hit cell stp k) (sw_tr hit t cell tr k).
Proof.
  intros Hs [Ha Hb Hc]. constructor; [|assumption|intros j].
  - now rewrite sw_tr_count.
  - rewrite sw_tr_up, sw_stp_spec, Hc. destruct (swept hit cell k j) eqn:E; [|now rewrite Nat.add_0_r, orb_false_r].
    unfold swept in E. apply andb_true_iff in E. rewrite (Hs j (proj2 E)). reflexivity.
Qed.

(** with the talkback cells of merge!: a talkback is called only by the step that takes it out of its
    cell *)
Definition Talc (max tk : nat) (cell stp : nat -> bool) (tr : list tevent) : Prop :=
  tally max tk stp tr /\ forall j, stp j = true -> cell j = false.

Lemma Talc_cells max tk cell cell' stp tr :
  (forall j, cell j = false -> cell' j = false) -> Talc max tk cell stp tr -> Talc max tk cell' stp tr.
Proof. intros H (Ha & Hc). split; auto. Qed.

Lemma Talc_quiet max tk cell stp tr t e :
  quiet e = true -> Talc max tk cell stp tr -> Talc max tk cell stp ((t, e) :: tr).
Proof. intros Hq (Ha & Hc). split; [now apply tally_quiet|exact Hc]. Qed.

Lemma Talc_take max tk cell stp tr t v :
  tk < max -> Talc max tk cell stp tr -> Talc max (S tk) cell stp ((t, TBegin (DD v)) :: tr).
Proof. intros Hlt (Ha & Hc). split; [now apply tally_take|exact Hc]. Qed.

Lemma Talc_fill max tk cell stp tr t :
  stp t = false -> Talc max tk cell stp tr -> Talc max tk (upd cell t true) stp tr.
Proof.
  intros Ht (Ha & Hc). split; [exact Ha|]. intros j Hj.
  destruct (Nat.eq_dec j t) as [->|ne]; [congruence|]. rewrite upd_other by assumption. auto.
Qed.

Lemma Talc_empty max tk cell stp tr t :
  Talc max tk cell stp tr -> Talc max tk (upd cell t false) stp tr.
Proof.
  apply Talc_cells. intros j Hj. destruct (Nat.eq_dec j t) as [->|ne]; [apply upd_same|].
  now rewrite upd_other.
Qed.

Lemma Talc_stop max tk cell stp tr t j :
  cell j = true -> Talc max tk cell stp tr ->
  Talc max tk (upd cell j false) (upd stp j true) ((t, TUp j UT) :: tr).
Proof.
  intros Hj (Ha & Hc). split.
  - apply tally_stop; [|exact Ha]. destruct (stp j) eqn:E; [|reflexivity]. now rewrite (Hc j E) in Hj.
  - intros i. destruct (Nat.eq_dec i j) as [->|ne]; [now rewrite !upd_same|].
    rewrite !upd_other by assumption. apply Hc.
Qed.

Lemma Talc_sweep hit t max tk cell stp tr k :
  Talc max tk cell stp tr ->
  Talc max tk (sw_cell hit cell k) (sw_stp hit cell stp k) (sw_tr hit t cell tr k).
Proof.
  intros (Ha & Hc). split.
  - apply tally_sweep; [|exact Ha]. intros j Hj. destruct (stp j) eqn:E; [|reflexivity].
    now rewrite (Hc j E) in Hj.
  - intros j. destruct (sweep_cases hit cell stp k j) as [[-> ->]|(_ & -> & _)]; auto.
Qed.

Lemma takemerge_check_nil max tr :
  count is_begin_data tr <= max -> count is_begin_term tr <= 1 ->
  (forall j, count (is_up_term_of j) tr <= 1) -> existsb is_panic tr = false ->
  (max <= count is_begin_data tr -> count is_begin_term tr = 1) ->
  takemerge_check max (rev tr) = [].
Proof.
  intros H1 H2 H3 H4 H5. unfold takemerge_check. cbv zeta.
  match goal with |- context [forallb ?f ?l] => assert (Hup : forallb f l = true) end.
  { apply forallb_forall. intros i _. apply Nat.leb_le. rewrite count_rev.
    rewrite (@count_ext _ _ (is_up_term_of i)); [apply H3|].
    intros [t0 [m| |j [| |]|]]; cbn; try reflexivity; apply Nat.eqb_sym. }
  rewrite Hup, !count_rev, existsb_rev, H4.
  rewrite (proj2 (Nat.leb_le _ _) H1), (proj2 (Nat.leb_le _ _) H2).
  destruct (Nat.leb_spec max (count is_begin_data tr)) as [Hle|Hlt]; [|reflexivity].
  rewrite (H5 Hle). reflexivity.
Qed.

(** ** Take's [end] flag

    [h t0] says that thread [t0] is at a program counter of some kind; a step of thread [t] turns
    [h] into [h'], which agrees with [h] on every other thread. *)

(** the ticket: while [max] items were taken and the flag is unset, the thread that got the last
    ticket is on its way to the swap ([hp]: at the delivery of item [max], or at the swap).  With
    [max = 0] nobody ever takes a ticket and the flag stays unset, hence [1 <= max]
    ([take_threads_complete_needs_pos]) *)
Definition ticket (max tk : nat) (te : bool) (hp : nat -> bool) : Prop :=
  1 <= max -> tk = max -> te = true \/ exists t0, hp t0 = true.

(** the sink's terminal message: whoever finds the flag unset ends the sink, at once or after some
    steps during which it is the only thread in between ([hd]); [nt]: terminal messages begun,
    [pan]: a panic happened (the thread in between may panic instead) *)
Record one_end (te : bool) (nt : nat) (pan : bool) (hd : nat -> bool) : Prop := {
  e_hold : forall t0, hd t0 = true -> te = true /\ nt = 0;
  e_uniq : forall t1 t2, hd t1 = true -> hd t2 = true -> t1 = t2;
  e_le : nt <= b2n te;
  e_eq : (forall t0, hd t0 = false) -> pan = false -> nt = b2n te }.

(** why the flag is set: merge's [ended] flag is, or every member has completed, or the thread that
    claimed the end is about to set [ended] ([hd]), or it has panicked *)
Definition why_end (n : nat) (te en : bool) (ec : nat) (pan : bool) (hd : nat -> bool) : Prop :=
  te = true -> en = true \/ n <= ec \/ (exists t0, hd t0 = true) \/ pan = true.

Lemma one_end_init hd : (forall t, hd t = false) -> one_end false 0 false hd.
Proof.
  intros H. constructor; [| |reflexivity|reflexivity].
  - intros t0 Ht. now rewrite H in Ht.
  - intros t1 t2 Ht. now rewrite H in Ht.
Qed.

Section EndFlag.
  Variables (h h' : nat -> bool) (t : nat).
  Hypothesis others : forall t0, t0 <> t -> h' t0 = h t0.

  Lemma nobody_upd : (forall t0, h t0 = false) -> h' t = false -> forall t0, h' t0 = false.
  Proof. intros Hn Ht t0. destruct (Nat.eq_dec t0 t) as [->|ne]; [exact Ht|]. now rewrite others. Qed.

  Lemma somebody_upd (R : Prop) :
    (exists t0, h t0 = true) -> (h t = true -> h' t = true \/ R) -> (exists t0, h' t0 = true) \/ R.
  Proof.
    intros [t0 H] Ht. destruct (Nat.eq_dec t0 t) as [->|ne].
    - destruct (Ht H); [left; now exists t | now right].
    - left. exists t0. now rewrite others.
  Qed.

  Lemma ticket_frame max tk te te' :
    ticket max tk te h -> (te = true -> te' = true) -> (h t = true -> h' t = true \/ te' = true) ->
    ticket max tk te' h'.
  Proof.
    intros HI He Hh Hpos Hm. destruct (HI Hpos Hm) as [H|H]; [left; auto|].
    destruct (somebody_upd H Hh); auto.
  Qed.

  Lemma one_end_nobody nt pan : one_end false nt pan h -> (forall t0, h t0 = false) /\ nt = 0.
  Proof.
    intros [Ha _ Hc _]. split; [|cbn in Hc; lia].
    intros t0. destruct (h t0) eqn:E; [|reflexivity]. now destruct (Ha t0 E).
  Qed.

  Lemma one_end_frame te nt pan pan' :
    one_end te nt pan h -> (pan' = false -> pan = false) -> h' t = h t -> one_end te nt pan' h'.
  Proof.
    intros [Ha Hb Hc Hd] Hp Hh.
    assert (Hall : forall t0, h' t0 = h t0).
    { intros t0. destruct (Nat.eq_dec t0 t) as [->|ne]; [assumption|now apply others]. }
    constructor; auto.
    - intros t0. rewrite Hall. apply Ha.
    - intros t1 t2. rewrite !Hall. apply Hb.
    - intros H1 H2. apply Hd; auto. intros t0. rewrite <- Hall. apply H1.
  Qed.

  Lemma one_end_set nt pan pan' :
    one_end false nt pan h -> h' t = false -> one_end true (S nt) pan' h'.
  Proof.
    intros HI Ht. destruct (one_end_nobody HI) as [Hno ->].
    pose proof (nobody_upd Hno Ht) as Hp.
    constructor; auto.
    - intros t0 H. rewrite Hp in H. discriminate.
    - intros t1 t2 H. rewrite Hp in H. discriminate.
  Qed.

  Lemma one_end_enter nt pan : one_end false nt pan h -> h' t = true -> one_end true nt pan h'.
  Proof.
    intros HI Ht. destruct (one_end_nobody HI) as [Hno ->].
    assert (Hz : forall t0, h' t0 = true -> t0 = t).
    { intros t0 H. destruct (Nat.eq_dec t0 t) as [|ne]; [assumption|].
      rewrite others, Hno in H by assumption. discriminate. }
    constructor; auto.
    - intros t1 t2 H1 H2. rewrite (Hz _ H1), (Hz _ H2). reflexivity.
    - cbn. lia.
    - intros Hn. rewrite Hn in Ht. discriminate.
  Qed.

  Lemma one_end_leave te nt pan nt' pan' :
    one_end te nt pan h -> h t = true -> h' t = false ->
    nt' = S nt \/ (nt' = nt /\ pan' = true) -> one_end te nt' pan' h'.
  Proof.
    intros [Ha Hb Hc Hd] Hh Hl Hn. destruct (Ha t Hh) as [-> ->].
    assert (Hp : forall t0, h' t0 = false).
    { intros t0. destruct (Nat.eq_dec t0 t) as [->|ne]; [assumption|]. rewrite others by assumption.
      destruct (h t0) eqn:E; auto. exfalso. apply ne. now apply Hb. }
    constructor.
    - intros t0 H. rewrite Hp in H. discriminate.
    - intros t1 t2 H. rewrite Hp in H. discriminate.
    - cbn. destruct Hn as [->|[-> _]]; lia.
    - intros _ Hnp. destruct Hn as [->|[_ Hn]]; [reflexivity|congruence].
  Qed.

  Lemma why_end_keep n te en ec pan en' ec' pan' :
    why_end n te en ec pan h -> (en = true -> en' = true) -> ec <= ec' -> (pan = true -> pan' = true) ->
    (h t = true -> h' t = true \/ en' = true \/ pan' = true) -> why_end n te en' ec' pan' h'.
  Proof.
    intros HT He Hc Hp Hh Ht.
    destruct (HT Ht) as [H|[H|[H|H]]]; [left; auto | right; left; lia | | right; right; right; auto].
    destruct (somebody_upd H Hh) as [H'|[H'|H']]; [right; right; left; exact H' | now left | now right; right; right].
  Qed.
End EndFlag.
