(** * Inv_threads_always: the two halves together - every run of the driver ends (Inv_threads_total.v)
      and the finished trace passes the whole check (each file's theorem about the driver's run): for
      every schedule, with enough fuel, under that theorem's hypotheses on endings and queues. *)
From CB Require Import Threads ThreadSpec ThreadsFine ThreadsTakeMerge ThreadsTakeCombine ThreadFacts.
From CB Require Import Inv_threads_take Inv_threads_merge Inv_threads_combine Inv_threads_fine
  Inv_threads_takemerge Inv_threads_takecombine Inv_threads_total.

Set Implicit Arguments.

Theorem merge_always_passes n qs fins sch fuel :
  1 <= n -> at_most_one_err n fins -> fuel >= merge_fuel n qs n ->
  merge_check n qs fins (rev (mgs_tr (run_full (mg_step n) mg_finished n sch fuel (mg_init n qs fins)))) = [].
Proof.
  intros Hn Ha Hf. apply (@merge_driver_final n qs fins n sch fuel Hn Ha).
  exact (@merge_run_full_total n qs fins n sch fuel Hf).
Qed.

Theorem merge_fine_always_passes n qs fins sch fuel :
  1 <= n -> at_most_one_err n fins -> fuel >= merge_fine_fuel n qs n ->
  merge_check_fine n qs fins
    (rev (mfs_tr (run_full (mf_step true n) mf_finished n sch fuel (mf_init true n qs fins)))) = [].
Proof.
  intros Hn Ha Hf. apply (@fine_driver_final n qs fins n sch fuel Hn Ha).
  exact (@merge_fine_run_full_total n qs fins n sch fuel Hf).
Qed.

Theorem combine_always_passes n qs fins sch fuel :
  1 <= n -> fuel >= combine_fuel n qs n ->
  combine_check n qs fins (rev (cbs_tr (run_full (cb_step true n) cb_finished n sch fuel (cb_init n qs fins)))) = [].
Proof.
  intros Hn Hf. apply (proj2 (@combine_threads_run_full_check n qs fins n sch fuel Hn)).
  exact (@combine_run_full_total n qs fins n sch fuel Hf).
Qed.

Theorem take_always_passes max qs n sch fuel :
  1 <= max -> (forall t, n <= t -> qs t = []) -> fuel >= take_fuel qs n ->
  take_check max (rev (tks_tr (run_full (tk_step true max) tk_finished n sch fuel (tk_init qs)))) = [].
Proof.
  intros Hm Hq Hf. apply (@run_full_check_n max qs n sch fuel Hm Hq).
  apply all_finished_first_unfinished. exact (@take_run_full_total max qs n sch fuel Hf).
Qed.

Theorem takemerge_always_passes max n qs fins sch fuel :
  1 <= max -> fuel >= takemerge_fuel n qs n ->
  takemerge_check max (rev (xms_tr (run_full (xm_step true max n) xm_finished n sch fuel (xm_init n qs fins)))) = [].
Proof.
  intros Hm Hf. apply (@takemerge_driver_final max n qs fins n sch fuel Hm).
  exact (@takemerge_run_full_total max n qs fins n sch fuel Hf).
Qed.

Theorem takecombine_always_passes max n qs fins sch fuel :
  1 <= n -> 1 <= max -> fuel >= takecombine_fuel n qs n ->
  takecombine_check max n qs
    (rev (xcs_tr (run_full (xc_step true max n) xc_finished n sch fuel (xc_init n qs fins)))) = [].
Proof.
  intros Hn Hm Hf. apply (proj2 (@takecombine_driver_final max n qs fins n sch fuel Hn Hm)).
  exact (@takecombine_run_full_total max n qs fins n sch fuel Hf).
Qed.

(** non-vacuity: the driver's fuel (400) is enough for three members with queues of four *)
Example always_passes_fuel :
  let qs := fun t : nat => if t <? 3 then [VN 1; VN 2; VN 3; VN 4] else [] in
  merge_fuel 3 qs 3 <= 400 /\ merge_fine_fuel 3 qs 3 <= 400 /\ combine_fuel 3 qs 3 <= 400 /\
  take_fuel qs 3 <= 400 /\ takemerge_fuel 3 qs 3 <= 400 /\ takecombine_fuel 3 qs 3 <= 400.
Proof. vm_compute. repeat split; lia. Qed.

Print Assumptions merge_always_passes.
Print Assumptions merge_fine_always_passes.
Print Assumptions combine_always_passes.
Print Assumptions take_always_passes.
Print Assumptions takemerge_always_passes.
Print Assumptions takecombine_always_passes.
