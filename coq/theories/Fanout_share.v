(** * Fanout_share: C12, completeness clause - every attached sink receives every datum and
      the termination emitted while it is attached.

    Stated for the passive continuation (Passive.v) of a reachable quiescent configuration:
    the upstream emits, and every call share then makes is answered by a plain return until
    control is back at top level.  The loop is the frame [ShFan m rest]. *)
From CB Require Import ProofLib Spec Passive Inv_share.

Set Implicit Arguments.

Section Fanout.
  Variable p : mparams.
  Hypothesis Hresub : resub p = true.
  Hypothesis Hnonest : no_nest p = false.
  Hypothesis Hc14 : c14 p = false.
  Hypothesis Hlate : late_ok p = false.

  Lemma reach_inv (c : cfg share_op) : reach p g_share c -> Inv c.
  Proof. intros Hr. exact (inv_reach Hresub Hnonest Hc14 Hlate Hr). Qed.

  Lemma attached_char (c : cfg share_op) :
    reach p g_share c -> stack c = [] ->
    (forall s, In s (sh_sinks (cst c)) <-> sk (ms c) s = SLive) /\
    NoDup (sh_sinks (cst c)).
  Proof.
    intros Hr Hst. pose proof (i_at (reach_inv Hr)) as HA.
    pose proof (a_mode HA) as Hmode. pose proof (a_usubd HA) as Hus.
    rewrite Hst in Hmode. cbn in Hmode. destruct Hmode as (N0 & N1 & _ & _).
    split; [|exact (a_nodup HA)].
    intros s. split; [|apply N0].
    apply N1. intros E. destruct (Hus E) as (_ & _ & _ & E'). rewrite Hst in E'. discriminate.
  Qed.

  (** ** The loop: a suspended fan-out [ShFan m rest] calls the sinks of [rest] in order *)
  Lemma fan_runs m : forall rest s,
    runs share_op (resume share_op (ShFan m rest) s) (map (fun x => CDn x m) rest)
         (if dmsg_is_term m then with_sinks s [] else s).
  Proof.
    induction rest as [|b rest IH]; intros s; cbn.
    - destruct (dmsg_is_term m); reflexivity.
    - split; [exact I|]. exists (ShFan m rest), s. split; [reflexivity | apply IH].
  Qed.

  Lemma fan_loop m rest (c : cfg share_op) x :
    reach p g_share c -> stack c = [(ShFan m rest, CDn x m)] ->
    exists fuel,
      drain_enabled p g_share fuel c = true /\
      stack (drain p fuel c) = [] /\
      exists evs, trace (drain p fuel c) = trace c ++ evs /\
        calls_of evs = map (fun s => CDn s m) rest /\
        sh_sinks (cst (drain p fuel c)) = (if dmsg_is_term m then [] else sh_sinks (cst c)).
  Proof.
    intros Hr Hst. pose proof (i_dead (reach_inv Hr)) as Hd.
    destruct (drain_loop p g_share _ c _ Hd Hst I (fan_runs m rest (cst c)))
      as (H1 & H2 & _ & (evs & H3 & H4) & H5).
    exists (S (length (map (fun s => CDn s m) rest))). split; [exact H5|]. split; [exact H1|].
    exists evs. split; [exact H3|]. split; [exact H4|].
    cbv zeta in H2. rewrite H2. now destruct (dmsg_is_term m).
  Qed.

  (** ** The first step: the upstream emits [d] (not the greeting) at a quiescent point *)
  Lemma fan_start (c : cfg share_op) d :
    reach p g_share c -> stack c = [] -> d <> DH ->
    enabled p g_share c (MIn (IDn 0 d)) = true ->
    exists x rest,
      sh_sinks (cst c) = x :: rest /\
      cst (step p c (MIn (IDn 0 d))) = cst c /\
      stack (step p c (MIn (IDn 0 d))) = [(ShFan d rest, CDn x d)] /\
      trace (step p c (MIn (IDn 0 d))) = trace c ++ [EIn (IDn 0 d); ECall (CDn x d)] /\
      reach p g_share (step p c (MIn (IDn 0 d))).
  Proof.
    intros Hr Hst HnDH He.
    assert (Hr' : reach p g_share (step p c (MIn (IDn 0 d)))) by (apply reachS; assumption).
    pose proof (a_mode (i_at (reach_inv Hr))) as Hmode. rewrite Hst in Hmode. cbn in Hmode.
    destruct Hmode as (_ & _ & N2 & _).
    pose proof (enabled_live _ _ _ _ He) as Hlive.
    pose proof (enabled_deliverable _ _ _ _ He) as Hdel.
    destruct (@en_dn p share_op g_share c 0 d HnDH He) as (_ & Eus & _).
    destruct (sh_sinks (cst c)) as [|x rest] eqn:El.
    { exfalso. rewrite Eus in N2. cbn in N2. destruct N2 as [N2 _].
      specialize (N2 eq_refl). discriminate. }
    exists x, rest. split; [reflexivity|].
    assert (Hh : handle share_op (IDn 0 d) (cst c) = (cst c, [], ACall (CDn x d) (ShFan d rest))).
    { rewrite (h_emit _ HnDH), El. reflexivity. }
    destruct (step_in p c (IDn 0 d) Hlive Hdel Hh) as (Hc & Hs & _ & _).
    pose proof (step_in_trace p c (IDn 0 d) Hlive Hdel Hh) as Htr.
    rewrite Hst in Hs.
    repeat split; assumption.
  Qed.

  Lemma fanout (c : cfg share_op) d :
    reach p g_share c -> stack c = [] -> d <> DH ->
    enabled p g_share c (MIn (IDn 0 d)) = true ->
    exists fuel,
      let c' := drain p fuel (step p c (MIn (IDn 0 d))) in
      stack c' = [] /\
      exists evs, trace c' = trace c ++ evs /\
        calls_of evs = map (fun s => CDn s d) (sh_sinks (cst c)) /\
        sh_sinks (cst c') = (if dmsg_is_term d then [] else sh_sinks (cst c)) /\
        reach p g_share c'.
  Proof.
    intros Hr Hst HnDH He.
    destruct (fan_start Hr Hst HnDH He) as (x & rest & El & Hc1 & Hs1 & Htr1 & Hr1).
    destruct (fan_loop Hr1 Hs1) as (fuel & Hde & Hstk & evs & Hevs & Hcalls & Hsinks).
    exists fuel. cbv zeta. split; [exact Hstk|].
    exists ([EIn (IDn 0 d); ECall (CDn x d)] ++ evs). split; [|split; [|split]].
    - rewrite Hevs, Htr1, <- app_assoc. reflexivity.
    - rewrite calls_of_app, El. cbn. rewrite Hcalls. reflexivity.
    - rewrite Hsinks, Hc1. reflexivity.
    - exact (drain_reach fuel Hr1 Hde).
  Qed.
End Fanout.

(** Regime of [share_safe]. *)

(** the attached list of a reachable quiescent configuration is exactly the set of live
    sinks, without repetition (in attach order: [ISub k] appends [k], Ops.v sh_handle) *)
Theorem share_attached p :
  resub p = true -> no_nest p = false -> c14 p = false -> late_ok p = false ->
  forall c : cfg share_op, reach p g_share c -> stack c = [] ->
    (forall s, In s (sh_sinks (cst c)) <-> sk (ms c) s = SLive) /\
    NoDup (sh_sinks (cst c)).
Proof. intros H1 H2 H3 H4 c Hr Hst. exact (attached_char H1 H2 H3 H4 Hr Hst). Qed.
Print Assumptions share_attached.

(** C12, data: the calls of the passive continuation of an upstream datum are exactly one
    [CDn s (DD v)] per attached sink [s], in attach order; the attached list is unchanged *)
Theorem share_fanout_data p :
  resub p = true -> no_nest p = false -> c14 p = false -> late_ok p = false ->
  forall (c : cfg share_op) v, reach p g_share c -> stack c = [] ->
    enabled p g_share c (MIn (IDn 0 (DD v))) = true ->
    exists fuel,
      let c' := drain p fuel (step p c (MIn (IDn 0 (DD v)))) in
      stack c' = [] /\
      exists evs, trace c' = trace c ++ evs /\
        calls_of evs = map (fun s => CDn s (DD v)) (sh_sinks (cst c)) /\
        sh_sinks (cst c') = sh_sinks (cst c) /\ reach p g_share c'.
Proof.
  intros H1 H2 H3 H4 c v Hr Hst He.
  assert (Hn : DD v <> DH) by discriminate.
  exact (fanout H1 H2 H3 H4 Hr Hst Hn He).
Qed.
Print Assumptions share_fanout_data.

(** C12, termination: for [d = DT] or [d = DE e] the calls of the passive continuation are
    exactly one [CDn s d] per attached sink, in attach order; afterwards nothing is attached,
    and the handler of the next subscription calls [CSub 0]: a fresh upstream subscription *)
Theorem share_fanout_term p :
  resub p = true -> no_nest p = false -> c14 p = false -> late_ok p = false ->
  forall (c : cfg share_op) d, reach p g_share c -> stack c = [] ->
    dmsg_is_term d = true ->
    enabled p g_share c (MIn (IDn 0 d)) = true ->
    exists fuel,
      let c' := drain p fuel (step p c (MIn (IDn 0 d))) in
      stack c' = [] /\
      exists evs, trace c' = trace c ++ evs /\
        calls_of evs = map (fun s => CDn s d) (sh_sinks (cst c)) /\
        sh_sinks (cst c') = [] /\ reach p g_share c' /\
        (forall k aux,
           handle share_op (ISub k aux) (cst c') =
           ({| sh_sinks := [k]; sh_tb := sh_tb (cst c'); sh_first := k |}, [],
            ACall (CSub 0) ShDone)) /\
        (forall k, enabled p g_share c' (MIn (ISub k 0)) = true ->
           trace (step p c' (MIn (ISub k 0))) = trace c' ++ [EIn (ISub k 0); ECall (CSub 0)]).
Proof.
  intros H1 H2 H3 H4 c d Hr Hst Ht He.
  assert (Hn : d <> DH) by (intros ->; discriminate).
  destruct (fanout H1 H2 H3 H4 Hr Hst Hn He) as (fuel & Hstk & evs & Hevs & Hcalls & Hsinks & Hr').
  cbv zeta in *. rewrite Ht in Hsinks.
  exists fuel. cbv zeta. split; [exact Hstk|].
  exists evs. split; [exact Hevs|]. split; [exact Hcalls|]. split; [exact Hsinks|].
  split; [exact Hr'|].
  set (c' := drain p fuel (step p c (MIn (IDn 0 d)))) in *.
  assert (Hh : forall k aux,
           handle share_op (ISub k aux) (cst c') =
           ({| sh_sinks := [k]; sh_tb := sh_tb (cst c'); sh_first := k |}, [],
            ACall (CSub 0) ShDone)).
  { intros k aux. cbn. rewrite Hsinks. reflexivity. }
  split; [exact Hh|].
  intros k Hek.
  pose proof (enabled_live _ _ _ _ Hek) as Hlive.
  pose proof (enabled_deliverable _ _ _ _ Hek) as Hdel.
  exact (step_in_trace p c' (ISub k 0) Hlive Hdel (Hh k 0)).
Qed.
Print Assumptions share_fanout_term.

(** ** "Exactly once", spelled out: in the passive continuation of an upstream message [d]
    (a datum or a terminal message) at a reachable quiescent configuration, no call is made
    twice, and sink [s] is called with [d] iff it is attached ([SLive]) *)
Lemma map_cdn_nodup d l : NoDup l -> NoDup (map (fun s => CDn s d) l).
Proof.
  induction 1 as [|x l Hx Hl IH]; cbn; constructor; [|exact IH].
  intros H. apply in_map_iff in H. destruct H as (y & E & Hy). inversion E. subst. tauto.
Qed.

Theorem share_fanout_once p :
  resub p = true -> no_nest p = false -> c14 p = false -> late_ok p = false ->
  forall (c : cfg share_op) d, reach p g_share c -> stack c = [] -> d <> DH ->
    enabled p g_share c (MIn (IDn 0 d)) = true ->
    exists fuel,
      let c' := drain p fuel (step p c (MIn (IDn 0 d))) in
      stack c' = [] /\ reach p g_share c' /\
      exists evs, trace c' = trace c ++ evs /\
        NoDup (calls_of evs) /\
        (forall cl, In cl (calls_of evs) -> exists s, cl = CDn s d) /\
        (forall s, In (CDn s d) (calls_of evs) <-> sk (ms c) s = SLive).
Proof.
  intros H1 H2 H3 H4 c d Hr Hst Hn He.
  destruct (attached_char H1 H2 H3 H4 Hr Hst) as [Hlive Hnd].
  destruct (fanout H1 H2 H3 H4 Hr Hst Hn He) as (fuel & Hstk & evs & Hevs & Hcalls & _ & Hr').
  cbv zeta in *. exists fuel. cbv zeta. split; [exact Hstk|]. split; [exact Hr'|].
  exists evs. split; [exact Hevs|]. rewrite Hcalls. split; [|split].
  - now apply map_cdn_nodup.
  - intros cl H. apply in_map_iff in H. destruct H as (s & <- & _). now exists s.
  - intros s. rewrite <- Hlive. split.
    + intros H. apply in_map_iff in H. destruct H as (y & E & Hy). inversion E. now subst.
    + intros H. apply in_map_iff. now exists s.
Qed.
Print Assumptions share_fanout_once.

(** ** Non-vacuity: three sinks attached, a datum then an Error fanned out passively;
    the hypotheses of the theorems hold of these runs *)
Definition p_fan : mparams :=
  {| nsinks := 5; late_ok := false; pullable := false; one_pull := false;
     resub := true; no_nest := false; c14 := false |}.

Definition fan_script : list move :=
  [ MIn (ISub 0 0); MIn (IDn 0 DH); MRet; MRet; MIn (ISub 1 0); MRet; MIn (ISub 2 0); MRet ].

Example fan_demo :
  let c := run p_fan share_op fan_script in
  reach p_fan g_share c /\ stack c = [] /\ sh_sinks (cst c) = [0; 1; 2] /\
  enabled p_fan g_share c (MIn (IDn 0 (DD (VN 7)))) = true /\
  enabled p_fan g_share c (MIn (IDn 0 (DE 100))) = true /\
  enabled p_fan g_share c (MIn (IDn 0 DT)) = true /\
  calls_of (skipn (length (trace c))
              (trace (drain p_fan 3 (step p_fan c (MIn (IDn 0 (DD (VN 7)))))))) =
    [CDn 0 (DD (VN 7)); CDn 1 (DD (VN 7)); CDn 2 (DD (VN 7))] /\
  calls_of (skipn (length (trace c))
              (trace (drain p_fan 3 (step p_fan c (MIn (IDn 0 (DE 100))))))) =
    [CDn 0 (DE 100); CDn 1 (DE 100); CDn 2 (DE 100)].
Proof.
  cbv zeta. split; [apply reach_run; vm_compute; reflexivity|].
  vm_compute. repeat split.
Qed.
