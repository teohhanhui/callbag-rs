(** * Tree: operator trees - every program built from the crate's sources and operators - as nets of
      component configurations, and the composition theorem for them.

    Generalises Chain.v from linear pipelines to trees: node [c]'s sink 0 may be wired to port [k] of
    a parent node [P] ([par c = Some (P, k)], [kid P k = Some c]); children have smaller indices than
    their parents; every port that is not wired is external.  A net step is a [step] of exactly one
    node.  Unlike in Chain.v, nodes may run in regimes with [late_ok = false] (concat!, combine!,
    flatten need their upstreams to greet inside the subscribing call): the child of such a parent
    must greet synchronously ([greets_sync_sig], a per-component theorem).

    [tree_sound]: if every node is safe in its regime then in every reachable net every node's
    configuration is reachable in its own conformant environment. *)

From CB Require Import ProofLib Spec MonitorSound MonitorFacts Chain.

Set Implicit Arguments.

(** ** Wiring *)

Record wiring : Type := mk_wiring {
  par : nat -> option (nat * nat);      (* node -> (parent, port of the parent) *)
  kid : nat -> nat -> option nat;       (* parent -> port -> child *)
}.

Definition wiring_ok (w : wiring) (len : nat) : Prop :=
  (forall c P k, par w c = Some (P, k) <-> kid w P k = Some c) /\
  (forall c P k, par w c = Some (P, k) -> c < P /\ P < len).

Inductive tkind : Type := TExt | TUp (k : nat) | TDn.

Definition troute (w : wiring) (i : nat) (c : call) : tkind :=
  match c with
  | CSub k | CUp k _ => match kid w i k with Some _ => TUp k | None => TExt end
  | CDn 0 _ => match par w i with Some _ => TDn | None => TExt end
  | CDn (S _) _ => TExt
  end.

Definition txlate (w : wiring) (i : nat) (c : call) : input :=
  match c with
  | CSub _ => ISub 0 0
  | CUp _ u => IUp 0 u
  | CDn _ d => match par w i with Some (_, k) => IDn k d | None => IDn 0 d end
  end.

(** the node whose handler runs while the call [e] is pending *)
Definition towner (w : wiring) (e : nat * tkind) : nat :=
  match e with
  | (j, TExt) => j
  | (j, TUp k) => match kid w j k with Some c => c | None => j end
  | (j, TDn) => match par w j with Some (P, _) => P | None => j end
  end.

(** ** The neighbour of [y] in the direction of [v] *)

Section Toward.
  Variable w : wiring.
  Variable len : nat.
  Hypothesis Hw : wiring_ok w len.

  (** climb from [v] towards the root; stop at the child of [y] on the way *)
  Fixpoint climb (y : nat) (fuel : nat) (v : nat) : option nat :=
    match fuel with
    | 0 => None
    | S f => match par w v with
             | Some (P, _) => if P =? y then Some v else climb y f P
             | None => None
             end
    end.

  Definition toward (y v : nat) : nat :=
    match climb y len v with
    | Some u => u
    | None => match par w y with Some (P, _) => P | None => y end
    end.

  Lemma par_lt c P k : par w c = Some (P, k) -> c < P /\ P < len.
  Proof. destruct Hw as [_ H]. apply H. Qed.
  Arguments par_lt [c P k] _.

  Lemma climb_fuel y : forall f1 f2 v, len - v <= f1 -> len - v <= f2 -> climb y f1 v = climb y f2 v.
  Proof.
    induction f1 as [|f1 IH]; intros f2 v H1 H2.
    - destruct f2 as [|f2]; [reflexivity|]. cbn.
      destruct (par w v) as [[P k]|] eqn:E; [|reflexivity].
      destruct (par_lt E). lia.
    - destruct f2 as [|f2].
      + cbn. destruct (par w v) as [[P k]|] eqn:E; [|reflexivity]. destruct (par_lt E). lia.
      + cbn. destruct (par w v) as [[P k]|] eqn:E; [|reflexivity].
        destruct (P =? y); [reflexivity|]. destruct (par_lt E). apply IH; lia.
  Qed.

  Lemma climb_ge y : forall f v u, climb y f v = Some u -> v <= u /\ exists k, par w u = Some (y, k).
  Proof.
    induction f as [|f IH]; intros v u H; [discriminate|]. cbn in H.
    destruct (par w v) as [[P k]|] eqn:E; [|discriminate].
    destruct (Nat.eqb_spec P y) as [->|Hne].
    - inversion H; subst. split; [lia|]. now exists k.
    - destruct (IH _ _ H) as [Hle Hk]. destruct (par_lt E). split; [lia|exact Hk].
  Qed.

  Lemma climb_S y f v :
    climb y (S f) v =
    match par w v with
    | Some (P, _) => if P =? y then Some v else climb y f P
    | None => None
    end.
  Proof. reflexivity. Qed.

  Lemma toward_child y c k : par w c = Some (y, k) -> toward y c = c.
  Proof.
    intros E. unfold toward. destruct (par_lt E) as [H1 H2].
    assert (El : exists l, len = S l) by (exists (pred len); lia). destruct El as [l El].
    rewrite El, climb_S, E, Nat.eqb_refl. reflexivity.
  Qed.

  Lemma toward_parent y P k : par w y = Some (P, k) -> toward y P = P.
  Proof.
    intros E. unfold toward. rewrite E.
    destruct (climb y len P) as [u|] eqn:C; [|reflexivity].
    destruct (climb_ge _ _ _ C) as [Hle [k' Hk]].
    destruct (par_lt E), (par_lt Hk). lia.
  Qed.

  Lemma toward_edge y v P k : par w v = Some (P, k) -> v <> y -> P <> y -> toward y v = toward y P.
  Proof.
    intros E Hv HP. unfold toward. destruct (par_lt E) as [H1 H2].
    assert (C : climb y len v = climb y len P).
    { assert (El : exists l, len = S l) by (exists (pred len); lia). destruct El as [l El].
      rewrite El at 1. rewrite climb_S, E.
      destruct (Nat.eqb_spec P y); [contradiction|]. apply climb_fuel; lia. }
    now rewrite C.
  Qed.

  (** two nodes joined by an edge (or equal), neither of them [y], lie in the same direction *)
  Definition adjacent_or_eq (a b : nat) : Prop :=
    a = b \/ (exists k, par w a = Some (b, k)) \/ (exists k, par w b = Some (a, k)).

  Lemma toward_adj y a b : adjacent_or_eq a b -> a <> y -> b <> y -> toward y a = toward y b.
  Proof.
    intros [->|[[k E]|[k E]]] Ha Hb; [reflexivity| |].
    - now apply (toward_edge E).
    - symmetry. now apply (toward_edge E).
  Qed.
End Toward.
Arguments par_lt [w len] Hw [c P k] _.
Arguments toward_child [w len] Hw [y c k] _.
Arguments toward_parent [w len] Hw [y P k] _.

(** ** Tree nets *)

Record tnet : Type := mk_tnet {
  tnodes : list node;
  tgst : list (nat * tkind);         (* pending calls of all nodes, innermost first *)
  tpend : pending;
}.

Section TreeNet.
  Variable w : wiring.
  Variable len : nat.
  Hypothesis Hw : wiring_ok w len.

  Definition tafter_step (N : tnet) (i : nat) (n' : node) : tnet :=
    let nodes' := set_nth i n' (tnodes N) in
    match nlast n' with
    | Some (ECall c) =>
        match troute w i c with
        | TExt => mk_tnet nodes' ((i, TExt) :: tgst N) PIdle
        | TUp k => mk_tnet nodes' ((i, TUp k) :: tgst N) (PTo (towner w (i, TUp k)) (txlate w i c))
        | TDn => mk_tnet nodes' ((i, TDn) :: tgst N) (PTo (towner w (i, TDn)) (txlate w i c))
        end
    | Some EDone =>
        match tgst N with
        | (j, TUp _) :: _ | (j, TDn) :: _ => mk_tnet nodes' (tgst N) (PRet j)
        | _ => mk_tnet nodes' (tgst N) PIdle
        end
    | _ => mk_tnet nodes' (tgst N) PIdle
    end.

  Lemma tafter_step_nodes N x n' : tnodes (tafter_step N x n') = set_nth x n' (tnodes N).
  Proof.
    unfold tafter_step. destruct (nlast n') as [[i|c| | |ob|]|]; try reflexivity.
    - destruct (troute w x c); reflexivity.
    - destruct (tgst N) as [|[j [|k|]] G]; reflexivity.
  Qed.

  Definition tnet_step (N : tnet) (mv : nmove) : tnet :=
    match mv, tpend N with
    | NEnv i m, PIdle =>
        match nth_error (tnodes N) i with
        | Some n =>
            let N1 := match m with
                      | MRet => mk_tnet (tnodes N) (tl (tgst N)) PIdle
                      | MIn _ => N
                      end in
            tafter_step N1 i (nstep n m)
        | None => N
        end
    | NTau, PTo i inp =>
        match nth_error (tnodes N) i with
        | Some n => tafter_step N i (nstep n (MIn inp))
        | None => N
        end
    | NTau, PRet j =>
        match nth_error (tnodes N) j with
        | Some n => tafter_step (mk_tnet (tnodes N) (tl (tgst N)) PIdle) j (nstep n MRet)
        | None => N
        end
    | _, _ => N
    end.

  (** which external inputs exist at node [i]: the sink side if the node has no parent, port [k]
      if no child is wired to it *)
  Definition text_input_ok (i : nat) (inp : input) : bool :=
    match inp with
    | ISub _ _ | IUp _ _ => match par w i with None => true | Some _ => false end
    | IDn k _ => match kid w i k with None => true | Some _ => false end
    | ITick _ => true
    end.

  Definition tnet_enabled (N : tnet) (mv : nmove) : bool :=
    match mv, tpend N with
    | NTau, PIdle => false
    | NTau, _ => true
    | NEnv i m, PIdle =>
        match nth_error (tnodes N) i with
        | None => false
        | Some n =>
            nenabled n m &&
            match m with
            | MRet => match tgst N with (j, TExt) :: _ => j =? i | _ => false end
            | MIn inp =>
                text_input_ok i inp &&
                match tgst N with
                | [] => true
                | (j, TExt) :: _ => j =? i
                | _ => false
                end
            end
        end
    | NEnv _ _, _ => false
    end.

  Inductive tnet_reach (N0 : tnet) : tnet -> Prop :=
  | treach0 : tnet_reach N0 N0
  | treachS N mv : tnet_reach N0 N -> tnet_enabled N mv = true -> tnet_reach N0 (tnet_step N mv).

  (** ** The global stack *)

  Definition tkind_ok (len : nat) (e : nat * tkind) : Prop :=
    fst e < len /\
    match e with
    | (j, TExt) => True
    | (j, TUp k) => exists c, kid w j k = Some c
    | (j, TDn) => exists P k, par w j = Some (P, k)
    end.

  Fixpoint twfG (len : nat) (G : list (nat * tkind)) : Prop :=
    match G with
    | [] => True
    | e :: G' => tkind_ok len e /\ twfG len G' /\
                 match G' with [] => True | e' :: _ => fst e = towner w e' end
    end.

  Definition trunner_ok (x : nat) (G : list (nat * tkind)) : Prop :=
    match G with [] => True | e :: _ => towner w e = x end.

  Lemma twfG_tl l e G : twfG l (e :: G) -> twfG l G /\ trunner_ok (fst e) G.
  Proof. cbn. intros (_ & H & H'). split; [exact H|]. destruct G; cbn; auto. Qed.

  Lemma kid_par P k c : kid w P k = Some c -> par w c = Some (P, k).
  Proof. destruct Hw as [H _]. apply H. Qed.
  Lemma par_kid P k c : par w c = Some (P, k) -> kid w P k = Some c.
  Proof. destruct Hw as [H _]. apply H. Qed.

  Lemma towner_adj e : tkind_ok len e -> adjacent_or_eq w (fst e) (towner w e).
  Proof.
    destruct e as [j [|k|]]; cbn; intros [_ H].
    - now left.
    - destruct H as [c Hc]. rewrite Hc. right. right. exists k. now apply kid_par.
    - destruct H as (P & k & Hp). rewrite Hp. right. left. now exists k.
  Qed.

  (** the innermost pending call of any node [y] other than the running one points in the
      direction of the running one *)
  Lemma first_entry_toward G : forall x, twfG len G -> trunner_ok x G ->
    forall y, y <> x ->
      match filter (fun e => fst e =? y) G with
      | [] => True
      | e :: _ => towner w e = toward w len y x
      end.
  Proof.
    induction G as [|[j K] G IH]; intros x Hwf Hrun y Hy; [exact I|].
    destruct (twfG_tl Hwf) as [Hwf' Hrun']. cbn [fst] in Hrun'.
    destruct Hwf as (Hk & _ & _). unfold trunner_ok in Hrun.
    cbn [filter fst]. destruct (Nat.eqb_spec j y) as [->|Hjy].
    - (* the head is y's own entry: it calls x, an adjacent node *)
      rewrite Hrun. symmetry.
      destruct K as [|k|]; cbn in Hrun, Hk.
      + congruence.
      + destruct Hk as [_ [c Hc]]. rewrite Hc in Hrun. subst c.
        apply (@toward_child w len Hw y x k). now apply kid_par.
      + destruct Hk as [_ (P & k & Hp)]. rewrite Hp in Hrun. subst P.
        now apply (@toward_parent w len Hw y x k).
    - specialize (IH j Hwf' Hrun' y (fun E => Hjy (eq_sym E))).
      destruct (filter (fun e => fst e =? y) G) as [|e' rest]; [exact I|].
      rewrite IH. apply (toward_adj Hw); [|congruence|congruence].
      pose proof (towner_adj Hk) as Ha. cbn [fst] in Ha. rewrite Hrun in Ha. exact Ha.
  Qed.
End TreeNet.
Arguments kid_par [w len] Hw [P k c] _.
Arguments par_kid [w len] Hw [P k c] _.

(** ** The pending calls of a safe component: a talkback in use belongs to an upstream that has
       greeted; a delivery in progress goes to a sink that has been greeted; nothing is refused;
       and where a late greeting is not tolerated, an upstream subscribed but not yet heard from is
       being subscribed to right now *)

Section NodePending.
  Variable p : mparams.
  Variable o : op.
  Variable g : mstate -> input -> bool.
  Hypothesis Hsafe : forall c : cfg o, reach p g c -> viols (ms c) = [] /\ dead c = false.
  Hypothesis Hrs : resub p = false.
  Hypothesis Hg : forall m inp, g m inp = g_std m inp.

  Definition greeted_us (u : uss) : Prop := u <> UNone /\ u <> USubd.

  Definition pend_facts (m : mstate) : Prop :=
    (forall k u, In (CUp k u) (cstack m) -> greeted_us (us m k)) /\
    (forall d, In (CDn 0 d) (cstack m) -> sk m 0 <> SNone) /\
    (forall s, refused m s = None) /\
    (late_ok p = false -> forall k, us m k = USubd -> In (CSub k) (cstack m)).

  Lemma input_keeps_greeted m inp k : greeted_us (us m k) -> greeted_us (us (mon_input p m inp) k).
  Proof.
    intros H. destruct inp as [s [|a]|s [|e|]|i [|v|e|]|s]; cbn; try exact H;
      unfold upd; destruct (Nat.eqb k i); try exact H; split; discriminate.
  Qed.

  Lemma input_keeps_sk m inp : sk m 0 <> SNone -> sk (mon_input p m inp) 0 <> SNone.
  Proof.
    intros H E. rewrite (proj1 (input_status p m inp)) in E. now apply sk_next_none in E.
  Qed.

  Lemma callupd_keeps_sk m cl : sk m 0 <> SNone -> sk (mon_call_upd m cl) 0 <> SNone.
  Proof.
    intros H E. rewrite (proj1 (call_upd_status m cl)) in E. now apply sk_next_none in E.
  Qed.

  Lemma callupd_keeps_greeted m cl k :
    greeted_us (us m k) -> cl <> CSub k -> greeted_us (us (mon_call_upd m cl) k).
  Proof.
    intros [H1 H2] Hc. destruct (call_upd_status m cl) as (_ & B & _). rewrite B.
    destruct cl as [i|i u|s d]; cbn; [| |now split].
    - destruct (Nat.eqb_spec k i) as [->|]; [congruence | now split].
    - destruct (Nat.eqb k i && umsg_is_term u); split; (assumption || discriminate).
  Qed.

  Lemma reach_pend_facts (c : cfg o) : reach p g c -> pend_facts (ms c).
  Proof.
    induction 1 as [|c m Hr IH He].
    - split; [|split; [|split]]; cbn; intros; try contradiction; try reflexivity; discriminate.
    - destruct (Hsafe (reachS m Hr He)) as [Hv Hd].
      destruct IH as (I1 & I2 & I3 & I4).
      (* the state the step starts from *)
      set (m_in := mon_move p (ms c) m).
      assert (Hcs : forall cl, In cl (cstack m_in) -> In cl (cstack (ms c))).
      { unfold m_in. destruct m as [inp|]; cbn [mon_move].
        - rewrite mon_input_cstack. auto.
        - cbn. intros cl Hin. destruct (cstack (ms c)); [contradiction|now right]. }
      assert (J1 : forall k u, In (CUp k u) (cstack m_in) -> greeted_us (us m_in k)).
      { intros k u Hin. specialize (I1 k u (Hcs _ Hin)). unfold m_in.
        destruct m as [inp|]; cbn [mon_move]; [now apply input_keeps_greeted | exact I1]. }
      assert (J2 : forall d, In (CDn 0 d) (cstack m_in) -> sk m_in 0 <> SNone).
      { intros d Hin. specialize (I2 d (Hcs _ Hin)). unfold m_in.
        destruct m as [inp|]; cbn [mon_move]; [now apply input_keeps_sk | exact I2]. }
      assert (J3 : forall s, refused m_in s = None).
      { intros s. exact (eq_trans (f_equal (fun f => f s) (move_refused Hg He)) (I3 s)). }
      pose proof (reach_refused Hg (reachS m Hr He)) as K3.
      assert (K4 : late_ok p = false -> forall k, us (ms (step p c m)) k = USubd ->
                   In (CSub k) (cstack (ms (step p c m)))).
      { intros Hl k Hk. rewrite (reach_cstack (reachS m Hr He)).
        exact (subd_pending Hl (reachS m Hr He) k Hk). }
      destruct (step_summary _ _ _ _ He Hv Hd) as [m1 cl H1 _ Hchk H3|_ H3].
      + destruct H1 as (_ & B1 & C1 & R1 & S1). destruct H3 as (_ & B3 & C3 & _ & S3).
        fold m_in in B1, C1, R1, S1. cbn in B3, C3, S3.
        split; [|split; [|split]].
        * (* a talkback on the stack: greeted before the call, and the call is not a
             subscription of that upstream, which the check would have refused *)
          intros k u Hin. rewrite S3 in Hin. rewrite C3.
          assert (G : greeted_us (us m1 k)).
          { destruct Hin as [->|Hin]; [rewrite (check_up _ _ _ _ Hchk); split; discriminate|].
            rewrite C1. apply J1 with u. now rewrite <- S1. }
          apply callupd_keeps_greeted; [exact G|]. intros ->.
          rewrite (check_sub _ _ _ Hrs Hchk) in G. now destruct G.
        * intros d Hin. rewrite S3 in Hin. rewrite B3.
          destruct Hin as [->|Hin].
          -- rewrite (proj1 (call_upd_status m1 (CDn 0 d))).
             rewrite (check_dn_sk _ _ _ _ Hchk); [destruct d; discriminate|].
             rewrite R1. apply J3.
          -- rewrite S1 in Hin. specialize (J2 d Hin). rewrite <- B1 in J2.
             now apply callupd_keeps_sk.
        * exact K3.
        * exact K4.
      + destruct H3 as (_ & B3 & C3 & _ & S3). fold m_in in B3, C3, S3.
        split; [|split; [|split]].
        * intros k u Hin. rewrite S3 in Hin. rewrite C3. now apply J1 with u.
        * intros d Hin. rewrite S3 in Hin. rewrite B3. now apply J2 with d.
        * exact K3.
        * exact K4.
  Qed.
End NodePending.

(** ** The invariant of a reachable tree net *)

Definition sig3 : Type := (op * mparams * (mstate -> input -> bool))%type.

(** the component greets its sink before the subscribing call returns: subscribed and not yet
    greeting, it is still inside an activation *)
Definition greets_sync_sig (s : sig3) : Prop :=
  let '(o, p, g) := s in
  forall c : cfg o, reach p g c -> subd (ms c) 0 = true -> sk (ms c) 0 = SNone -> stack c <> [].

Section TreeSound.
  Variable w : wiring.
  Variable sigs : list sig3.
  Hypothesis Hw : wiring_ok w (length sigs).
  Hypothesis Hsafe : forall s, In s sigs -> safe_sig s.

  Definition tregime_ok (s : sig3) : Prop :=
    let '(o, p, g) := s in
    nsinks p = 1 /\ resub p = false /\ pullable p = false /\ one_pull p = false /\
    (forall m inp, g m inp = g_std m inp).
  Hypothesis Hreg : forall s, In s sigs -> tregime_ok s.

  (** along every edge: the parent tolerates a late greeting, or the child greets synchronously *)
  Hypothesis Hsync : forall c P k sc sp,
    par w c = Some (P, k) -> nth_error sigs c = Some sc -> nth_error sigs P = Some sp ->
    late_ok (snd (fst sp)) = true \/ greets_sync_sig sc.

  Definition tedge (c P k : nat) : Prop := par w c = Some (P, k).

  Lemma tedge_lt c P k : tedge c P k -> c < P.
  Proof. intros H. apply (par_lt Hw H). Qed.

  Lemma tedge_par c P k P' k' : tedge c P k -> tedge c P' k' -> P = P' /\ k = k'.
  Proof. unfold tedge. intros A B. rewrite A in B. now inversion B. Qed.

  Lemma tedge_kid c c' P k : tedge c P k -> tedge c' P k -> c = c'.
  Proof. intros A B. apply (par_kid Hw) in A, B. congruence. Qed.

  Definition tpend_ok (ns : list node) (G : list (nat * tkind)) (pd : pending) : Prop :=
    match pd with
    | PIdle => match G with [] => True | (_, TExt) :: _ => True | _ => False end
    | PTo i inp =>
        (exists j k, hd_error G = Some (j, k) /\ k <> TExt /\ towner w (j, k) = i) /\
        exists n, nth_error ns i = Some n /\ nenabled n (MIn inp) = true
    | PRet j => exists k, hd_error G = Some (j, k) /\ k <> TExt
    end.

  Definition TInv (N : tnet) : Prop :=
    nodes_ok sigs (tnodes N) /\ gstacks (troute w) (tnodes N) (fun _ => nms) (tgst N) /\
    twfG w (length sigs) (tgst N) /\
    tpend_ok (tnodes N) (tgst N) (tpend N) /\ glinks tedge (tnodes N) (eff (tpend N)).

  Lemma tree_node_facts ns i n :
    map nsig ns = sigs -> nth_error ns i = Some n ->
    nth_error sigs i = Some (nsig n) /\
    (forall c : cfg (nop n), reach (npar n) (ngrd n) c -> viols (ms c) = [] /\ dead c = false) /\
    nsinks (npar n) = 1 /\ resub (npar n) = false /\ pullable (npar n) = false /\
    one_pull (npar n) = false /\ (forall m inp, ngrd n m inp = g_std m inp).
  Proof.
    intros Hs Hn.
    assert (H : nth_error sigs i = Some (nsig n)).
    { rewrite <- Hs. now apply map_nth_error. }
    split; [exact H|]. split.
    - exact (Hsafe (nsig n) (nth_error_In _ _ H)).
    - exact (Hreg (nsig n) (nth_error_In _ _ H)).
  Qed.

  Lemma tlen ns : map nsig ns = sigs -> length ns = length sigs.
  Proof. intros <-. now rewrite map_length. Qed.

  Lemma tree_node_calls ns i n :
    nodes_ok sigs ns -> nth_error ns i = Some n -> pend_facts (npar n) (nms n).
  Proof.
    intros [Hs Hnd] Hn. destruct (@tree_node_facts ns i n Hs Hn) as (_ & Hsf & _ & Hrs & _ & _ & Hg).
    destruct (Hnd i n Hn) as [Hr _].
    exact (@reach_pend_facts (npar n) (nop n) (ngrd n) Hsf Hrs Hg (ncfg n) Hr).
  Qed.

  Lemma troute_up i cl k : troute w i cl = TUp k -> upk k cl /\ exists c, kid w i k = Some c.
  Proof.
    destruct cl as [j|j u|[|s] d]; cbn; intros H.
    - destruct (kid w i j) as [c|] eqn:E; [|discriminate]. inversion H; subst.
      split; [now left | now exists c].
    - destruct (kid w i j) as [c|] eqn:E; [|discriminate]. inversion H; subst.
      split; [right; now exists u | now exists c].
    - destruct (par w i); discriminate.
    - discriminate.
  Qed.

  Lemma troute_dn i cl : troute w i cl = TDn -> (exists d, cl = CDn 0 d) /\ exists P k, par w i = Some (P, k).
  Proof.
    destruct cl as [j|j u|[|s] d]; cbn; intros H.
    - destruct (kid w i j); discriminate.
    - destruct (kid w i j); discriminate.
    - destruct (par w i) as [[P k]|] eqn:E; [|discriminate]. split; [now exists d | now exists P, k].
    - discriminate.
  Qed.

  Lemma troute_ext i cl :
    troute w i cl = TExt ->
    (forall P k, tedge i P k -> ~ dn0 cl) /\ (forall c k, tedge c i k -> ~ upk k cl).
  Proof.
    intros Er. split.
    - intros P k Hp [d ->]. cbn in Er. rewrite Hp in Er. discriminate.
    - intros c k Hp H. apply (par_kid Hw) in Hp.
      destruct H as [->|[u ->]]; cbn in Er; rewrite Hp in Er; discriminate.
  Qed.

  Lemma top_call_toward ns G x m y ny :
    gstacks (troute w) ns (effx x m) G -> nth_error ns y = Some ny ->
    twfG w (length sigs) G -> trunner_ok w x G -> y <> x ->
    match cstack (nms ny) with
    | [] => True
    | cl :: _ => towner w (y, troute w y cl) = toward w (length sigs) y x
    end.
  Proof.
    intros Hst Hy Hwf Hrun Hyx. specialize (Hst y ny Hy). unfold effx in Hst.
    destruct (Nat.eqb_spec y x); [contradiction|].
    pose proof (@first_entry_toward w (length sigs) Hw G x Hwf Hrun y Hyx) as Hf.
    destruct (cstack (nms ny)) as [|cl rest]; [exact I|].
    cbn in Hst. unfold kinds in Hst.
    destruct (filter (fun e => fst e =? y) G) as [|[j K] G'] eqn:Ef; [discriminate|].
    cbn in Hst. injection Hst as HK _.
    assert (Hj : j = y).
    { assert (Hin : In (j, K) (filter (fun e => fst e =? y) G)) by (rewrite Ef; now left).
      apply filter_In in Hin. destruct Hin as [_ Hin]. cbn in Hin. now apply Nat.eqb_eq in Hin. }
    subst j. rewrite HK. exact Hf.
  Qed.

  Lemma top_of_child ns G x m c k nc :
    gstacks (troute w) ns (effx x m) G -> nth_error ns c = Some nc ->
    twfG w (length sigs) G -> trunner_ok w x G -> tedge c x k ->
    match cstack (nms nc) with [] => True | cl :: _ => dn0 cl end.
  Proof.
    intros Hst Hc Hwf Hrun Hp. pose proof (tedge_lt Hp) as Hlt.
    pose proof (top_call_toward Hst Hc Hwf Hrun ltac:(lia)) as Ht.
    destruct (cstack (nms nc)) as [|cl rest]; [exact I|].
    rewrite (toward_parent Hw Hp) in Ht.
    destruct (troute w c cl) as [|k'|] eqn:Er; cbn in Ht.
    - lia.
    - destruct (kid w c k') as [c'|] eqn:Ek; [|lia]. subst c'.
      pose proof (tedge_lt (kid_par Hw Ek)). lia.
    - exact (proj1 (troute_dn _ _ Er)).
  Qed.

  Lemma top_of_parent ns G x m P k nP :
    gstacks (troute w) ns (effx x m) G -> nth_error ns P = Some nP ->
    twfG w (length sigs) G -> trunner_ok w x G -> tedge x P k ->
    match cstack (nms nP) with [] => True | cl :: _ => upk k cl end.
  Proof.
    intros Hst HP Hwf Hrun Hp. pose proof (tedge_lt Hp) as Hlt.
    pose proof (top_call_toward Hst HP Hwf Hrun ltac:(lia)) as Ht.
    destruct (cstack (nms nP)) as [|cl rest]; [exact I|].
    rewrite (toward_child Hw Hp) in Ht.
    destruct (troute w P cl) as [|k'|] eqn:Er; cbn in Ht.
    - lia.
    - destruct (troute_up _ _ Er) as [Hup [c' Hk']]. rewrite Hk' in Ht. subst c'.
      now destruct (tedge_par (kid_par Hw Hk') Hp) as [_ ->].
    - destruct (troute_dn _ _ Er) as [_ (P1 & k1 & Hp1)]. rewrite Hp1 in Ht. subst P1.
      pose proof (tedge_lt Hp1). lia.
  Qed.

  Lemma tinv_intro ns G pd :
    nodes_ok sigs ns -> gstacks (troute w) ns (fun _ => nms) G -> twfG w (length sigs) G ->
    tpend_ok ns G pd -> glinks tedge ns (eff pd) -> TInv (mk_tnet ns G pd).
  Proof. intros A B C D F. exact (conj A (conj B (conj C (conj D F)))). Qed.

  Lemma tafter_step_inv (ns : list node) (G1 : list (nat * tkind)) (pd0 : pending) x n m :
    nodes_ok sigs ns -> nth_error ns x = Some n -> nenabled n m = true ->
    twfG w (length sigs) G1 -> trunner_ok w x G1 ->
    gstacks (troute w) ns (effx x m) G1 -> glinks tedge ns (effx x m) ->
    TInv (tafter_step w (mk_tnet ns G1 pd0) x (nstep n m)).
  Proof.
    intros Hok Hn He Hwf Hrun Hst Hlk. pose proof Hok as [Hsig Hnodes].
    destruct (tree_node_facts ns x Hsig Hn) as (_ & Hsafe_n & Hns & Hrs & Hpl & Hop & Hg).
    destruct (Hnodes x n Hn) as [Hr Hinit].
    destruct (nstep_summary m Hsafe_n Hg Hns Hr Hinit He) as (Hr' & Hsd' & Hsum).
    pose proof (nodes_ok_step x Hok Hn (nsig_nstep n m) Hr' Hsd') as Hok'.
    pose proof (tlen ns Hsig) as Hlen.
    assert (Hxlt : x < length sigs) by (rewrite <- Hlen; eapply nth_error_lt; eauto).
    unfold tafter_step. cbn [tnodes tgst].
    destruct Hsum as [m1 cl Hl Hchk H1 Hsd1 Hrf1 H3 Hcs Hcf Hpf|Hl H3]; rewrite Hl;
      set (n' := nstep n m) in *; set (ns' := set_nth x n' ns) in *;
      set (pre := mon_move (npar n) (nms n) m) in *.
    - (* the step ended in a call *)
      pose proof (gstacks_call n' Hst Hn Hcs) as Hstk. fold ns' in Hstk.
      assert (Hwfp : tkind_ok w (length sigs) (x, troute w x cl) ->
                     twfG w (length sigs) ((x, troute w x cl) :: G1)).
      { intros HK. cbn. split; [exact HK|]. split; [exact Hwf|].
        destruct G1 as [|e' G1']; [exact I|]. unfold trunner_ok in Hrun. cbn. congruence. }
      revert Hstk Hwfp. destruct (troute w x cl) as [|k0|] eqn:Er; intros Hstk Hwfp.
      + (* external call *)
        destruct (troute_ext _ _ Er) as [Hnd Hnu].
        apply tinv_intro; [exact Hok' | exact Hstk | apply Hwfp; split; [exact Hxlt|exact I] | exact I |].
        apply (glinks_keep tedge_lt n' Hn Hlk); [reflexivity| |].
        * intros P k HE. exact (Hcf (Hnd P k HE)).
        * intros c k HE. exact (Hpf k (Hnu c k HE)).
      + (* call up into the child wired to port k0 *)
        destruct (troute_up _ _ Er) as [Hup [c0 Hkid]].
        pose proof (kid_par Hw Hkid : tedge c0 x k0) as E0. pose proof (tedge_lt E0) as Hc0x.
        destruct (nth_error ns c0) as [nu|] eqn:Hnu; [|apply nth_error_None in Hnu; lia].
        destruct (tree_node_facts ns c0 Hsig Hnu) as (_ & Hsafe_u & Hns_u & _ & _ & Hop_u & Hg_u).
        destruct (Hnodes _ _ Hnu) as [Hr_u Hinit_u]. destruct (Hsafe_u _ Hr_u) as [_ Hd_u].
        assert (Htop : top_peer_is (ncfg nu) (PSink 0) = true).
        { apply top_peer_of_cstack; [exact (reach_cstack Hr_u)|].
          pose proof (top_of_child Hst Hnu Hwf Hrun E0) as Ht. change (ms (ncfg nu)) with (nms nu).
          destruct (cstack (nms nu)) as [|cl0 rest0]; [exact I|]. now destruct Ht as [d ->]. }
        assert (Hlk0 : linkk k0 (nms nu) m1).
        { apply (same_core_linkk (same_core_refl _) H1). exact (glinks_child tedge_lt Hn Hlk E0 Hnu). }
        destruct (xfer_up_k Hg_u Hd_u Hrs Hns_u Hop_u Hup Hchk Hlk0 Hinit_u Htop) as [Hen Hlk1].
        assert (Hxl : txlate w x cl = xlate cl) by (destruct Hup as [->|[u ->]]; reflexivity).
        assert (Hown : towner w (x, TUp k0) = c0) by (cbn; now rewrite Hkid).
        rewrite Hown, Hxl.
        apply tinv_intro;
          [exact Hok' | exact Hstk | apply Hwfp; split; [exact Hxlt|now exists c0] | |].
        * split; [exists x, (TUp k0); repeat split; [discriminate | exact Hown]|].
          exists nu. split; [|exact Hen]. unfold ns'. rewrite nth_set_other by lia. exact Hnu.
        * apply (glinks_up tedge_lt tedge_par tedge_kid n' Hn Hlk E0 Hnu).
          -- intros k [d Hd0]. destruct Hup as [->|[u ->]]; discriminate.
          -- intros P k _. apply Hcf. intros [d ->]. destruct Hup as [H|[u H]]; discriminate.
          -- intros k Hk. apply Hpf. intros Hu. exact (Hk (upk_inj Hu Hup)).
          -- exact (same_core_linkk (same_core_refl _) H3 Hlk1).
      + (* call down into the parent *)
        destruct (troute_dn _ _ Er) as [[d ->] (P0 & k0 & E0)]. change (tedge x P0 k0) in E0.
        pose proof (tedge_lt E0) as HxP0. pose proof (proj2 (par_lt Hw E0)) as HP0.
        destruct (nth_error ns P0) as [nd|] eqn:Hnd; [|apply nth_error_None in Hnd; lia].
        destruct (tree_node_facts ns P0 Hsig Hnd) as (Hsig_d & Hsafe_d & _ & _ & Hpl_d & _ & Hg_d).
        destruct (Hnodes _ _ Hnd) as [Hr_d _]. destruct (Hsafe_d _ Hr_d) as [_ Hd_d].
        pose proof (top_of_parent Hst Hnd Hwf Hrun E0) as Htopc.
        assert (Htop : top_peer_is (ncfg nd) (PUp k0) = true).
        { apply top_peer_of_cstack; [exact (reach_cstack Hr_d)|]. change (ms (ncfg nd)) with (nms nd).
          destruct (cstack (nms nd)) as [|cl0 rest0]; [exact I|].
          destruct Htopc as [->|[u ->]]; reflexivity. }
        assert (Hlk0 : linkk k0 m1 (nms nd)).
        { apply (same_core_linkk H1 (same_core_refl _)). exact (glinks_parent tedge_lt Hn Hlk E0 Hnd). }
        assert (Hlate : d = DH -> late_ok (npar nd) = true \/
                                  exists f rest, stack (ncfg nd) = (f, CSub k0) :: rest).
        { (* a parent that does not tolerate a late greeting is still inside its subscribing call *)
          intros ->. destruct (late_ok (npar nd)) eqn:El; [now left|right].
          pose proof (linkk_us _ _ _ Hlk0 Hsd1) as Hus.
          rewrite (check_greet _ _ _ Hchk) in Hus.
          destruct (tree_node_calls _ Hok Hnd) as (Pf1 & _ & _ & Pf4).
          specialize (Pf4 El k0 Hus).
          pose proof (reach_cstack Hr_d) as Hc. change (ms (ncfg nd)) with (nms nd) in Hc.
          destruct (cstack (nms nd)) as [|cl0 rest0] eqn:Ecs; [contradiction|].
          destruct (stack (ncfg nd)) as [|[f c1] st'] eqn:Est; [discriminate|].
          cbn in Hc. inversion Hc; subst c1.
          exists f, st'. f_equal. f_equal.
          destruct Htopc as [->|[u ->]]; [reflexivity|].
          exfalso. destruct (Pf1 k0 u (or_introl eq_refl)) as [_ Hns']. congruence. }
        destruct (xfer_dn_k Hg_d Hd_d Hpl_d Hlate Hchk Hlk0 Hsd1 Hrf1 Htop) as [Hen Hlk1].
        assert (Hown : towner w (x, TDn) = P0) by (cbn; now rewrite E0).
        assert (Hxl : txlate w x (CDn 0 d) = IDn k0 d) by (cbn; now rewrite E0).
        rewrite Hown, Hxl.
        apply tinv_intro;
          [exact Hok' | exact Hstk | apply Hwfp; split; [exact Hxlt|now exists P0, k0] | |].
        * split; [exists x, TDn; repeat split; [discriminate | exact Hown]|].
          exists nd. split; [|exact Hen]. unfold ns'. rewrite nth_set_other by lia. exact Hnd.
        * apply (glinks_dn tedge_lt tedge_par tedge_kid n' Hn Hlk E0 Hnd).
          -- intros k. apply Hpf. intros [H|[u H]]; discriminate.
          -- exact (same_core_linkk H3 (same_core_refl _) Hlk1).
    - (* the step ended with a return *)
      destruct H3 as (A3 & B3 & C3 & _ & S3).
      pose proof (gstacks_done n' Hst Hn S3) as Hstk.
      assert (Hlinks : forall pd, (forall j nn, eff pd j nn = nms nn) -> glinks tedge ns' (eff pd)).
      { intros pd Hpd. apply (glinks_keep tedge_lt n' Hn Hlk pd Hpd); intros;
          now rewrite ?A3, ?B3, ?C3. }
      destruct G1 as [|[j [|k1|]] G1']; apply tinv_intro; try assumption;
        try exact I; try (apply Hlinks; reflexivity).
      + exists (TUp k1). split; [reflexivity|discriminate].
      + exists TDn. split; [reflexivity|discriminate].
  Qed.

  (** a pending internal call can be returned from: in particular a subscribing call of a parent
      that does not tolerate a late greeting has been answered by the child's greeting *)
  Lemma tret_enabled ns G' j K n pd :
    nodes_ok sigs ns -> gstacks (troute w) ns (fun _ => nms) ((j, K) :: G') ->
    twfG w (length sigs) ((j, K) :: G') ->
    glinks tedge ns (eff pd) -> (forall i nn, eff pd i nn = nms nn) ->
    K <> TExt -> nth_error ns j = Some n ->
    nenabled n MRet = true.
  Proof.
    intros Hnok Hst Hwf Hlk Hpd HK Hn.
    pose proof Hnok as [Hsig Hnd].
    destruct (gstacks_ret Hst Hn) as (Hst' & cl & rest & Hcs & Hrt).
    destruct (Hnd j n Hn) as [Hr _].
    destruct (tree_node_facts ns j Hsig Hn) as (Hsj & Hsafe_n & _).
    destruct (Hsafe_n _ Hr) as [_ Hd].
    unfold nenabled, enabled. rewrite Hd. cbn [negb andb].
    pose proof (reach_cstack Hr) as Hc. change (ms (ncfg n)) with (nms n) in Hc.
    rewrite Hcs in Hc. destruct (stack (ncfg n)) as [|[f c0] st'] eqn:Est; [discriminate|].
    cbn in Hc. injection Hc as Hc1 Hc2. subst c0.
    destruct cl as [i0|i0 u0|s0 d0]; try reflexivity.
    (* the pending call is a subscription [CSub i0] of the child wired to port i0 *)
    destruct (late_ok (npar n)) eqn:El; [reflexivity|]. cbn [orb].
    change (ms (ncfg n)) with (nms n).
    destruct (us (nms n) i0) eqn:Eus; try reflexivity. exfalso.
    assert (Hk : K = TUp i0).
    { cbn in Hrt. destruct (kid w j i0) eqn:Ek; [congruence|]. exfalso. apply HK. congruence. }
    rewrite Hk in Hrt. destruct (troute_up _ _ Hrt) as [_ [c Hkid]].
    pose proof (kid_par Hw Hkid : tedge c j i0) as Hpar.
    pose proof (tedge_lt Hpar) as Hcj. pose proof (proj2 (par_lt Hw Hpar)) as Hjl.
    destruct (nth_error ns c) as [nc|] eqn:Hnc.
    2: { apply nth_error_None in Hnc. rewrite (tlen ns Hsig) in Hnc. lia. }
    (* the child has been subscribed and has not greeted *)
    specialize (Hlk c j i0 nc n Hpar Hnc Hn). rewrite !Hpd in Hlk.
    unfold linkk in Hlk. rewrite Eus in Hlk. destruct Hlk as [Hsd Hsk].
    (* so (it greets synchronously) it is still inside an activation *)
    destruct (tree_node_facts ns c Hsig Hnc) as (Hsc & _).
    destruct (@Hsync c j i0 (nsig nc) (nsig n) Hpar Hsc Hsj) as [Hl|Hgs].
    { cbn in Hl. congruence. }
    destruct (Hnd c nc Hnc) as [Hrc _].
    assert (Hne : stack (ncfg nc) <> []) by (apply Hgs; assumption).
    (* its innermost pending call is a delivery to the parent - but then it has greeted *)
    destruct (twfG_tl Hwf) as [Hwf' Hrun']. cbn [fst] in Hrun'.
    pose proof (top_of_child Hst' Hnc Hwf' Hrun' Hpar) as Ht.
    pose proof (reach_cstack Hrc) as Hcc. change (ms (ncfg nc)) with (nms nc) in Hcc.
    destruct (cstack (nms nc)) as [|cl0 rest0] eqn:Ecs.
    { destruct (stack (ncfg nc)); [contradiction|discriminate]. }
    destruct Ht as [d ->].
    destruct (tree_node_calls _ Hnok Hnc) as (_ & Pf2 & _).
    apply (Pf2 d); [rewrite Ecs; now left | exact Hsk].
  Qed.

  Inductive tnet_view (N : tnet) (mv : nmove) : Prop :=
  | tview x n m G1 :
      tnet_step w N mv = tafter_step w (mk_tnet (tnodes N) G1 PIdle) x (nstep n m) ->
      nth_error (tnodes N) x = Some n -> nenabled n m = true ->
      step_from (text_input_ok w x) (tpend N) x m ->
      twfG w (length sigs) G1 -> trunner_ok w x G1 ->
      gstacks (troute w) (tnodes N) (effx x m) G1 -> glinks tedge (tnodes N) (effx x m) ->
      tnet_view N mv.

  Lemma tnet_step_view N mv : TInv N -> tnet_enabled w N mv = true -> tnet_view N mv.
  Proof.
    destruct N as [ns G pd]. intros (Hnodes & Hst & Hwf & Hpend & Hlk) He.
    cbn [tnodes tgst tpend] in *. unfold tnet_enabled in He. cbn [tnodes tgst tpend] in He.
    destruct mv as [x m|]; destruct pd as [|t inp|j]; try discriminate.
    - destruct (nth_error ns x) as [n|] eqn:Hn; [|discriminate].
      apply andb_prop in He. destruct He as [Hen He].
      destruct m as [inp|].
      + apply andb_prop in He. destruct He as [Hext HG].
        apply tview with x n (MIn inp) G; cbn [tnodes tpend]; try assumption.
        * unfold tnet_step. cbn [tnodes tgst tpend]. now rewrite Hn.
        * destruct G as [|[j [|k|]] G']; try discriminate; [exact I|].
          apply Nat.eqb_eq in HG. cbn. exact HG.
        * now apply gstacks_input.
        * apply (glinks_move tedge_lt x (MIn inp) Hlk); [reflexivity|].
          intros n0 Hn0. cbn [mon_move]. split.
          -- intros (P & k & Hp).
             destruct (@input_sk0 (npar n0) (nms n0) inp) as [Ha Hb]; [|split; assumption].
             intros Hs. destruct inp as [s0 aux|s0 u|i0 d|s0]; cbn in Hs; try contradiction;
               unfold text_input_ok in Hext; rewrite Hp in Hext; discriminate.
          -- intros c k Hk. apply (par_kid Hw) in Hk. apply input_usk. intros [d ->].
             unfold text_input_ok in Hext. rewrite Hk in Hext. discriminate.
      + destruct G as [|[j [|k|]] G']; try discriminate.
        apply Nat.eqb_eq in He. subst j.
        destruct (twfG_tl Hwf) as [Hwf' Hrun']. cbn [fst] in Hrun'.
        destruct (gstacks_ret Hst Hn) as (Hs1 & _).
        apply tview with x n MRet G'; cbn [tnodes tpend]; try assumption; try exact I.
        * unfold tnet_step. cbn [tnodes tgst tpend]. now rewrite Hn.
        * now apply (glinks_ret tedge_lt x Hlk).
    - destruct Hpend as [(j & k & Hhd & Hk & Hown) (n & Hn & Hen)].
      apply tview with t n (MIn inp) G; cbn [tnodes tpend]; try assumption.
      + unfold tnet_step. cbn [tnodes tgst tpend]. now rewrite Hn.
      + now split.
      + destruct G as [|e G']; [discriminate|]. cbn in Hhd. inversion Hhd; subst e. exact Hown.
      + now apply gstacks_input.
      + now apply glinks_to.
    - destruct Hpend as (k & Hhd & Hk).
      destruct G as [|e G']; [discriminate|]. cbn in Hhd. inversion Hhd; subst e.
      destruct (twfG_tl Hwf) as [Hwf' Hrun']. cbn [fst] in Hrun'.
      assert (Hj : j < length sigs) by (destruct Hwf as ((Hko & _) & _); exact Hko).
      destruct (nth_error ns j) as [n|] eqn:Hn.
      2: { apply nth_error_None in Hn. rewrite (tlen ns (proj1 Hnodes)) in Hn. lia. }
      destruct (gstacks_ret Hst Hn) as (Hs1 & _).
      apply tview with j n MRet G'; cbn [tnodes tpend]; try assumption; try exact I.
      + unfold tnet_step. cbn [tnodes tgst tpend]. now rewrite Hn.
      + exact (tret_enabled Hnodes Hst Hwf Hlk (fun _ _ => eq_refl) Hk Hn).
      + now apply (glinks_ret tedge_lt j Hlk).
  Qed.

  Lemma tnet_step_inv N mv : TInv N -> tnet_enabled w N mv = true -> TInv (tnet_step w N mv).
  Proof.
    intros HI He. destruct (tnet_step_view _ HI He) as [x n m G1 -> Hn Hen _ Hwf Hrun Hst Hlk].
    apply tafter_step_inv; try assumption. apply HI.
  Qed.

  (** ** The composition theorem for trees *)

  Definition tnet0 (ns : list node) : tnet := mk_tnet ns [] PIdle.

  Lemma tinv0 ns :
    map nsig ns = sigs -> (forall n, In n ns -> ninit n) -> TInv (tnet0 ns).
  Proof.
    intros Hsig Hinit.
    apply tinv_intro; [now apply nodes_ok0 | now apply gstacks0 | exact I | exact I | now apply glinks0].
  Qed.

  Theorem tree_inv ns N :
    map nsig ns = sigs -> (forall n, In n ns -> ninit n) ->
    tnet_reach w (tnet0 ns) N -> TInv N.
  Proof.
    intros Hsig Hinit Hr. induction Hr as [|N mv Hr IH He]; [now apply tinv0|].
    now apply tnet_step_inv.
  Qed.

  (** every node of every reachable tree of components is reachable in its own conformant
      environment; so every theorem about the component holds of it *)
  Theorem tree_sound ns N :
    map nsig ns = sigs -> (forall n, In n ns -> ninit n) ->
    tnet_reach w (tnet0 ns) N ->
    forall i n, nth_error (tnodes N) i = Some n ->
      nth_error sigs i = Some (nsig n) /\ nreach n /\ viols (nms n) = [] /\ dead (ncfg n) = false.
  Proof.
    intros Hsig Hinit Hr i n Hn.
    destruct (tree_inv Hsig Hinit Hr) as ([Hs Hnd] & _).
    destruct (Hnd i n Hn) as [Hre _].
    destruct (@tree_node_facts (tnodes N) i n Hs Hn) as (Hsi & Hsafe_n & _).
    split; [exact Hsi|]. split; [exact Hre | exact (Hsafe_n _ Hre)].
  Qed.
End TreeSound.

Print Assumptions tree_sound.
