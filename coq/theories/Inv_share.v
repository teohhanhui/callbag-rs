(** * Inv_share: the invariant of share, for every number of sinks *)
From CB Require Import ProofLib Spec.

Set Implicit Arguments.

Lemma rf_in s k l : In s (remove_first k l) -> In s l.
Proof.
  induction l as [|x l IH]; cbn; [tauto|].
  destruct (Nat.eqb_spec x k); cbn; intros H; tauto.
Qed.

Lemma rf_in_neq s k l : In s l -> s <> k -> In s (remove_first k l).
Proof.
  induction l as [|x l IH]; cbn; [tauto|].
  intros [->|H] Hn.
  - destruct (Nat.eqb_spec s k); [congruence|]. now left.
  - destruct (Nat.eqb_spec x k); [assumption|]. right. now apply IH.
Qed.

Lemma rf_nodup k l : NoDup l -> NoDup (remove_first k l).
Proof.
  induction 1 as [|x l Hx Hl IH]; cbn; [constructor|].
  destruct (Nat.eqb_spec x k); [assumption|].
  constructor; [|assumption]. intros H. apply Hx. eapply rf_in; eassumption.
Qed.

Lemma rf_notin k l : NoDup l -> ~ In k (remove_first k l).
Proof.
  induction 1 as [|x l Hx Hl IH]; cbn; [tauto|].
  destruct (Nat.eqb_spec x k); [now subst|].
  cbn. intros [H|H]; [congruence | tauto].
Qed.

Lemma nodup_snoc (s : nat) l : NoDup l -> ~ In s l -> NoDup (l ++ [s]).
Proof.
  induction 1 as [|x l Hx Hl IH]; cbn; intros Hn.
  - repeat constructor. tauto.
  - constructor.
    + rewrite in_app_iff. cbn. intros [H|[H|[]]]; [tauto | subst; tauto].
    + apply IH. tauto.
Qed.

Definition stk := list (sh_fr * call).

(** the fan-out of a terminal message in progress (always the innermost activation) *)
Definition top_term (st : stk) : option (dmsg * list nat) :=
  match st with
  | (ShFan m rest, _) :: _ => if dmsg_is_term m then Some (m, rest) else None
  | _ => None
  end.

(** the sinks that suspended fan-outs will still call *)
Fixpoint fan_rest (st : stk) : list nat :=
  match st with
  | [] => []
  | (ShFan _ rest, _) :: st' => rest ++ fan_rest st'
  | (ShDone, _) :: st' => fan_rest st'
  end.

Definition frame_ok (k : sh_fr) (cl : call) (below : stk) : Prop :=
  top_term below = None /\
  match cl with
  | CDn s m =>
      pending_delivery (map snd below) = false /\
      match m with
      | DH => k = ShDone
      | _ => exists rest, k = ShFan m rest /\ NoDup (s :: rest)
      end
  | _ => k = ShDone
  end.

Fixpoint stk_ok (st : stk) : Prop :=
  match st with
  | [] => True
  | (k, cl) :: st' => frame_ok k cl st' /\ stk_ok st'
  end.

Lemma stk_ok_nofan st :
  stk_ok st -> pending_delivery (map snd st) = false -> fan_rest st = [].
Proof.
  induction st as [|[k cl] st IH]; cbn; [reflexivity|].
  intros [[Ht Hf] Hok] Hp. apply orb_false_elim in Hp. destruct Hp as [Hcl Hp].
  specialize (IH Hok Hp).
  destruct cl as [i|i u|s m]; try (subst k; exact IH).
  destruct Hf as [_ Hf]. destruct m; try discriminate. subst k. exact IH.
Qed.

Definition us_on (u : uss) : bool :=
  match u with USubd | ULive => true | _ => false end.

(** ** The monitor's side: any number of sinks, one upstream that may be subscribed again.

    [sbase] is what holds of the monitor state whatever share does; [view] is what the rest of
    the invariant reads.  The lemmas say, for each input and for each call, what becomes of
    them; [term_inv] is the state of the fan-out of a Terminate/Error. *)
Module Fan.

  Record sbase (m : mstate) : Prop := {
    sb_viols : viols m = [];
    sb_subd : forall s, subd m s = false -> sk m s = SNone;
    sb_us_other : forall i, i <> 0 -> us m i = UNone;
    sb_task : forall s, task m s = false;
  }.

  Definition view (m : mstate) := (subd m, sk m, us m, err_due m, errs_in m).

  Lemma view_eq m a b c d e :
    view m = (a, b, c, d, e) -> subd m = a /\ sk m = b /\ us m = c /\ err_due m = d /\ errs_in m = e.
  Proof. unfold view. intros E. inversion E. auto. Qed.

  (** during the fan-out of a terminal message [d], [rest] still to be served *)
  Definition term_inv (m : mstate) (d : dmsg) (rest : list nat) : Prop :=
    us m 0 = UEnded /\
    (forall s, sk m s = SLive -> In s rest) /\
    (forall s e, err_due m s = Some e -> d = DE e /\ In s rest) /\
    (forall e, d = DE e -> existsb (Nat.eqb e) (errs_in m) = true).

  (** the sink at the head of the list has been served *)
  Lemma term_next m m' d x l :
    term_inv m d (x :: l) -> us m' = us m -> errs_in m' = errs_in m ->
    sk m' = upd (sk m) x SFinished -> err_due m' x = None ->
    (forall y, y <> x -> err_due m' y = err_due m y) -> term_inv m' d l.
  Proof.
    intros (M1 & M2 & M3 & M4) Hu He Hk Hx Hy. unfold term_inv. rewrite Hu, He, Hk.
    repeat split; auto.
    - intros s. unfold upd. destruct (Nat.eqb_spec s x); [discriminate|].
      intros H. destruct (M2 _ H); [congruence | assumption].
    - destruct (Nat.eq_dec s x) as [->|Hn]; [congruence|]. rewrite Hy in H by exact Hn.
      now destruct (M3 _ _ H).
    - destruct (Nat.eq_dec s x) as [->|Hn]; [congruence|]. rewrite Hy in H by exact Hn.
      destruct (M3 _ _ H) as [_ [|]]; congruence.
  Qed.

  Lemma known_up_0 m i : sbase m -> us m i <> UNone -> i = 0.
  Proof.
    intros B H. destruct i; [reflexivity|]. now rewrite (sb_us_other B) in H by discriminate.
  Qed.

  Section Monitor.
    Variable p : mparams.
    Hypothesis Hresub : resub p = true.
    Hypothesis Hnonest : no_nest p = false.
    Hypothesis Hc14 : c14 p = false.

    Ltac fields := rewrite ?add_viols_eq; cbn; unfold upd; cbn.
    Ltac at_ix :=
      intros; repeat match goal with
                     | |- context [Nat.eqb ?x ?y] => destruct (Nat.eqb_spec x y); subst
                     | H : context [Nat.eqb ?x ?y] |- _ => destruct (Nat.eqb_spec x y); subst
                     end; auto; try congruence.

    Lemma in_sub m s : sbase m -> let m' := mon_input p m (ISub s 0) in
      sbase m' /\ view m' = (upd (subd m) s true, sk m, us m, err_due m, errs_in m).
    Proof using. intros []. cbn. repeat split; auto; fields; at_ix. Qed.

    Lemma in_pull m s : sbase m -> let m' := mon_input p m (IUp s UP) in
      sbase m' /\ view m' = view m.
    Proof using. intros []. cbn. repeat split; auto. Qed.

    Lemma in_stop m s u : umsg_is_term u = true -> sbase m -> sk m s = SLive ->
      let m' := mon_input p m (IUp s u) in
      sbase m' /\ subd m' = subd m /\ sk m' = upd (sk m) s SDisposed /\ us m' = us m /\
      err_due m' = upd (err_due m) s None.
    Proof using.
      intros Hu [] Hk. destruct u; try discriminate; cbn; (repeat split; auto); fields; at_ix.
      all: apply sb_subd0 in H; congruence.
    Qed.

    Lemma in_greet m : sbase m -> let m' := mon_input p m (IDn 0 DH) in
      sbase m' /\ view m' = (subd m, sk m, upd (us m) 0 ULive, err_due m, errs_in m).
    Proof using. intros []. cbn. repeat split; auto; fields; at_ix. Qed.

    Lemma in_data m v : sbase m -> let m' := mon_input p m (IDn 0 (DD v)) in
      sbase m' /\ view m' = view m.
    Proof using. intros []. cbn. repeat split; auto. Qed.

    (** the upstream ends: every live sink is owed the message *)
    Lemma in_end m d l : dmsg_is_term d = true -> sbase m ->
      (forall x, err_due m x = None) -> (forall x, sk m x = SLive -> In x l) ->
      let m' := mon_input p m (IDn 0 d) in
      sbase m' /\ subd m' = subd m /\ sk m' = sk m /\ term_inv m' d l.
    Proof using.
      intros Hd [] Hn Hl. unfold term_inv.
      destruct d as [|v|e|]; try discriminate; cbn -[due_on_error]; (repeat split; auto); fields;
        at_ix.
      - unfold due_on_error in H. rewrite Hn in H.
        destruct ((s <? nsinks p) && _); [congruence | discriminate].
      - unfold due_on_error in H. rewrite Hn in H. apply Hl.
        destruct (sk m s); auto; rewrite Bool.andb_false_r in H; discriminate.
    Qed.

    Section Calls.
      Variable o : op.
      Variable k : Fr o.
      Notation settle m cl := (ms_settle p o m [] (ACall cl k)).

      Lemma call_sub m : sbase m -> us m 0 <> USubd -> us m 0 <> ULive ->
        let m' := settle m (CSub 0) in
        sbase m' /\ view m' = (subd m, sk m, upd (us m) 0 USubd, err_due m, errs_in m).
      Proof using Hresub.
        intros [] H1 H2. rewrite ms_settle_call. fields. rewrite Hresub. cbn.
        destruct (us m 0) eqn:E; try congruence; cbn; repeat split; auto; fields; at_ix.
      Qed.

      Lemma call_pull m : sbase m -> us m 0 = ULive -> let m' := settle m (CUp 0 UP) in
        sbase m' /\ view m' = view m.
      Proof using Hc14.
        intros [] Hu. rewrite ms_settle_call. fields. rewrite Hu, Hc14. cbn. repeat split; auto.
      Qed.

      Lemma call_stop m u : umsg_is_term u = true -> sbase m -> us m 0 = ULive ->
        let m' := settle m (CUp 0 u) in
        sbase m' /\ view m' = (subd m, sk m, upd (us m) 0 UStopped, err_due m, errs_in m).
      Proof using.
        intros Ht [] Hu. rewrite ms_settle_call.
        destruct u; try discriminate; fields; rewrite Hu; cbn; repeat split; auto; fields; at_ix.
      Qed.

      Lemma call_greet m s : sbase m -> sk m s = SNone -> subd m s = true ->
        let m' := settle m (CDn s DH) in
        sbase m' /\ view m' = (subd m, upd (sk m) s SLive, us m, err_due m, errs_in m).
      Proof using.
        intros [] Hk Hs. rewrite ms_settle_call. fields. rewrite Hk. cbn.
        repeat split; auto; fields; at_ix.
      Qed.

      (** one call of a fan-out: the live sink [x] is given [d] *)
      Lemma call_fan m x d l : d <> DH -> sbase m -> sk m x = SLive ->
        (if dmsg_is_term d then term_inv m d (x :: l) else forall y, err_due m y = None) ->
        let m' := settle m (CDn x d) in
        sbase m' /\ subd m' = subd m /\ us m' = us m /\
        (if dmsg_is_term d then sk m' = upd (sk m) x SFinished /\ term_inv m' d l
         else sk m' = sk m /\ err_due m' = err_due m).
      Proof using Hnonest Hc14.
        intros Hd HB Hk Hm. rewrite ms_settle_call.
        assert (HS : forall s, subd m s = false -> upd (sk m) x SFinished s = SNone).
        { intros s H. rewrite upd_other; [now apply (sb_subd HB)|].
          intros ->. apply (sb_subd HB) in H. congruence. }
        destruct HB as [Hv Hs Hu Ht].
        destruct d as [|v|e|]; [congruence|..]; cbn [dmsg_is_term] in *; fields;
          rewrite Hk, Hnonest, ?Hc14; cbn.
        - repeat split; auto.
        - pose proof Hm as (_ & _ & M3 & M4). rewrite (M4 e eq_refl).
          assert (Ex : err_due m x = None \/ err_due m x = Some e).
          { destruct (err_due m x) as [e'|] eqn:E; auto. destruct (M3 _ _ E) as [E' _].
            inversion E'. auto. }
          destruct Ex as [Ex|Ex]; rewrite Ex; cbn; rewrite ?Nat.eqb_refl;
            (split; [now constructor|]); repeat (split; [reflexivity|]);
            apply (term_next _ Hm); cbn; auto; at_ix.
        - assert (Ex : err_due m x = None).
          { destruct (err_due m x) as [e'|] eqn:E; auto.
            destruct Hm as (_ & _ & M3 & _). destruct (M3 _ _ E) as [E' _]. discriminate. }
          rewrite Ex. (split; [now constructor|]); repeat (split; [reflexivity|]).
          apply (term_next _ Hm); auto.
      Qed.

      Lemma after_ret m : sbase m -> let m' := mon_event p m ERet in sbase m' /\ view m' = view m.
      Proof using. intros []. cbn. repeat split; auto. Qed.
    End Calls.
  End Monitor.
End Fan.

Import Fan.

Section ShareInv.
  Variable p : mparams.
  Hypothesis Hresub : resub p = true.
  Hypothesis Hnonest : no_nest p = false.
  Hypothesis Hc14 : c14 p = false.
  Hypothesis Hlate : late_ok p = false.
  Let o := share_op.
  Local Notation Call := (@ACall (Fr o)).

  (** at every control point outside the fan-out of a terminal message *)
  Definition norm_inv (m : mstate) (s : sh_st) : Prop :=
    (forall x, sk m x = SLive -> In x (sh_sinks s)) /\
    (us m 0 <> USubd -> forall x, In x (sh_sinks s) -> sk m x = SLive) /\
    (sh_sinks s = [] <-> us_on (us m 0) = false) /\
    (forall x, err_due m x = None).

  Record inv_at (s : sh_st) (st : stk) (m : mstate) : Prop := {
    a_base : sbase m;
    a_stk : stk_ok st;
    a_nodup : NoDup (sh_sinks s);
    a_fan : forall x, In x (fan_rest st) -> sk m x = SLive;
    a_tb : forall x, sk m x <> SNone -> sh_tb s = true;
    a_usubd : us m 0 = USubd ->
              sh_sinks s = [sh_first s] /\ sk m (sh_first s) = SNone /\
              subd m (sh_first s) = true /\ st = [(ShDone, CSub 0)];
    a_mode : match top_term st with
             | Some (d, rest) => term_inv m d rest
             | None => norm_inv m s
             end;
  }.

  Record Inv (c : cfg o) : Prop := {
    i_dead : dead c = false;
    i_at : inv_at (cst c) (stack c) (ms c);
  }.

  Lemma inv0 : Inv (cfg0 o).
  Proof.
    split; [reflexivity|]. constructor; cbn; auto; try constructor; intros; try tauto;
      try discriminate.
    repeat split; intros; cbn in *; try discriminate; try tauto.
  Qed.

  Lemma quiet m : (forall s, err_due m s = None) -> check_quiescent p m = [].
  Proof using Hresub Hc14.
    intros H. apply quiescent_nil; auto.
    - rewrite Hresub. discriminate.
    - rewrite Hc14. discriminate.
  Qed.

  Lemma at_done m : (forall s, err_due m s = None) -> ms_settle p o m [] ARet = m.
  Proof. intros H. exact (ms_settle_quiet p o m (quiet m H)). Qed.

  Lemma h_sub_first s k aux : sh_sinks s = [] ->
    handle o (ISub k aux) s =
    ({| sh_sinks := [k]; sh_tb := sh_tb s; sh_first := k |}, [], Call (CSub 0) ShDone).
  Proof. intros E. cbn. rewrite E. reflexivity. Qed.

  Lemma h_sub_more s k aux x l : sh_sinks s = x :: l ->
    handle o (ISub k aux) s =
    ({| sh_sinks := (x :: l) ++ [k]; sh_tb := sh_tb s; sh_first := sh_first s |}, [],
     Call (CDn k DH) ShDone).
  Proof. intros E. cbn. rewrite E. cbn. rewrite app_length, Nat.add_comm. reflexivity. Qed.

  Lemma h_pull s k : sh_tb s = true -> handle o (IUp k UP) s = (s, [], Call (CUp 0 UP) ShDone).
  Proof. intros E. cbn. now rewrite E. Qed.

  Definition with_sinks (s : sh_st) (l : list nat) : sh_st :=
    {| sh_sinks := l; sh_tb := sh_tb s; sh_first := sh_first s |}.

  Lemma h_stop_last s k u : umsg_is_term u = true -> sh_tb s = true ->
    remove_first k (sh_sinks s) = [] ->
    handle o (IUp k u) s = (with_sinks s [], [], Call (CUp 0 UT) ShDone).
  Proof.
    intros Hu E1 E2. destruct u; try discriminate; cbn; rewrite E2; unfold with_sinks;
      destruct (sh_tb s); (reflexivity || discriminate).
  Qed.

  Lemma h_stop_more s k u y l : umsg_is_term u = true ->
    remove_first k (sh_sinks s) = y :: l ->
    handle o (IUp k u) s = (with_sinks s (y :: l), [], ARet).
  Proof. intros Hu E. destruct u; try discriminate; cbn; rewrite E; reflexivity. Qed.

  Lemma h_emit s d : d <> DH -> handle o (IDn 0 d) s = sh_fan d (sh_sinks s) s.
  Proof. destruct d; [congruence | reflexivity..]. Qed.

  (** ** The fan-out: the live sink [x] is called with [d], [rest] remaining, from any position *)
  Lemma fan_call s below m x d rest :
    d <> DH -> stk_ok below -> top_term below = None -> pending_delivery (map snd below) = false ->
    NoDup (x :: rest) -> NoDup (sh_sinks s) -> sbase m ->
    sk m x = SLive -> (forall y, In y rest -> sk m y = SLive) ->
    (forall y, sk m y <> SNone -> sh_tb s = true) -> us m 0 <> USubd ->
    (if dmsg_is_term d then term_inv m d (x :: rest) else norm_inv m s) ->
    inv_at s ((ShFan d rest, CDn x d) :: below) (ms_settle p o m [] (Call (CDn x d) (ShFan d rest))).
  Proof.
    intros Hd Hok Htop Hpd Hnd Hnds HB Hx Hrest Htb Hus Hmode.
    destruct (call_fan p Hnonest Hc14 o (ShFan d rest) x rest Hd HB Hx) as (B2 & S2 & U2 & Hm2).
    { destruct (dmsg_is_term d); [exact Hmode | apply Hmode]. }
    set (m2 := ms_settle p o m [] (Call (CDn x d) (ShFan d rest))) in *. clearbody m2.
    assert (Hxr : ~ In x rest) by now inversion Hnd.
    assert (K2 : forall y, y <> x -> sk m2 y = sk m y).
    { intros y Hy. destruct (dmsg_is_term d); destruct Hm2 as [-> _];
      [now rewrite upd_other | reflexivity]. }
    assert (K2x : sk m2 x <> SNone).
    { destruct (dmsg_is_term d); destruct Hm2 as [-> _]; [rewrite upd_same;
      discriminate | congruence]. }
    constructor; auto.
    - split; [|exact Hok]. split; [exact Htop|]. split; [exact Hpd|].
      destruct d; [congruence|..]; exists rest; auto.
    - cbn [fan_rest]. rewrite (stk_ok_nofan _ Hok Hpd), app_nil_r. intros y Hy.
      rewrite K2; [auto | congruence].
    - intros y Hy. destruct (Nat.eq_dec y x) as [->|Hn]; [apply (Htb x); congruence|].
      rewrite K2 in Hy by exact Hn. eauto.
    - rewrite U2. intros E. contradiction.
    - cbn [top_term]. destruct (dmsg_is_term d); [apply Hm2|].
      destruct Hm2 as (K & E). revert Hmode. unfold norm_inv. rewrite K, U2, E. auto.
  Qed.

  Lemma dmsg_eq_DH d : d = DH \/ d <> DH.
  Proof. destruct d; auto; right; discriminate. Qed.

  (** the sink being called is not among those a suspended fan-out will still call *)
  Lemma peer_notin_fan (c : cfg o) s :
    stk_ok (stack c) -> top_peer_is c (PSink s) = true -> ~ In s (fan_rest (stack c)).
  Proof.
    unfold top_peer_is. destruct (stack c) as [|[k cl] below]; cbn; [tauto|].
    intros [[Ht Hf] Hok] Hp.
    destruct cl as [i|i u|x m]; cbn in Hp; try discriminate.
    apply Nat.eqb_eq in Hp. subst x. destruct Hf as [Hpd Hf].
    rewrite (stk_ok_nofan _ Hok Hpd).
    destruct m as [|v|e|]; [now subst k|..]; destruct Hf as (rest & -> & Hnd);
      rewrite app_nil_r; now inversion Hnd.
  Qed.

  (** a live sink cannot be the one a terminal fan-out is calling *)
  Lemma up_normal (c : cfg o) s :
    inv_at (cst c) (stack c) (ms c) -> top_peer_is c (PSink s) = true -> sk (ms c) s = SLive ->
    top_term (stack c) = None.
  Proof.
    unfold top_peer_is. intros [_ Hstk _ _ _ _ Hmode] Hp Hsk.
    destruct (stack c) as [|[k cl] below]; [reflexivity|].
    cbn in *. destruct k as [|d rest]; [reflexivity|].
    destruct (dmsg_is_term d) eqn:Ed; [exfalso|reflexivity].
    destruct Hstk as [[Ht Hf] Hok].
    destruct cl as [i|i u|x m]; cbn in Hp; try discriminate.
    apply Nat.eqb_eq in Hp. subst x. destruct Hf as [Hpd Hf].
    destruct Hmode as (_ & T1 & _). apply T1 in Hsk.
    destruct m as [|v|e|]; try discriminate;
      destruct Hf as (rest' & Ek & Hnd); inversion Ek; subst; now inversion Hnd.
  Qed.

  Lemma live_us s st m x :
    inv_at s st m -> top_term st = None -> sk m x = SLive -> us m 0 = ULive /\ In x (sh_sinks s).
  Proof.
    intros [_ _ _ _ _ Hus Hmode] Ht Hsk. rewrite Ht in Hmode. destruct Hmode as (N0 & N1 & N2 & N3).
    pose proof (N0 _ Hsk) as Hin. split; [|exact Hin].
    destruct (us m 0) eqn:E; try reflexivity; exfalso.
    2: { destruct (Hus eq_refl) as (E1 & E2 & _). rewrite E1 in Hin.
         destruct Hin as [<-|[]]. congruence. }
    all: assert (H : sh_sinks s = []) by (now apply N2); rewrite H in Hin; destruct Hin.
  Qed.

  (** inside a call to the upstream (or at top level) no terminal fan-out is in progress *)
  Lemma dn_normal (c : cfg o) i :
    stk_ok (stack c) -> top_peer_is c (PUp i) = true -> top_term (stack c) = None.
  Proof.
    unfold top_peer_is. destruct (stack c) as [|[k cl] below]; cbn; [reflexivity|].
    intros [[Ht Hf] Hok] Hp.
    destruct cl as [j|j u|x m]; cbn in Hp; try discriminate; now subst k.
  Qed.

  (** a frame that only returns, on top of a stack with no terminal fan-out in progress *)
  Lemma push_done cl st :
    stk_ok st -> top_term st = None ->
    match cl with CDn _ d => d = DH /\ pending_delivery (map snd st) = false | _ => True end ->
    stk_ok ((ShDone, cl) :: st) /\ fan_rest ((ShDone, cl) :: st) = fan_rest st /\
    top_term ((ShDone, cl) :: st) = None.
  Proof.
    intros Hok Ht Hcl. repeat split; auto.
    destruct cl as [i|i u|x d]; auto. destruct Hcl as [-> Hpd]. auto.
  Qed.

  (** ** The step.  The monitor is taken through the input and then through share's answer by
      the lemmas of [Fan]; the state in between is forgotten ([clearbody]). *)

  (** a sink attaches, at top level *)
  Lemma inv_sub c s aux : reach p g_share c -> Inv c -> enabled p g_share c (MIn (ISub s aux)) = true ->
    Inv (step p c (MIn (ISub s aux))).
  Proof.
    intros Hr [Hd HA] He. pose proof HA as [HB Hstk Hnd Hfan Htb Hus Hmode].
    destruct (en_sub _ _ _ _ _ He) as (Hst & _ & Hsub).
    pose proof (en_guard _ _ _ _ He) as Hg. destruct aux; [clear Hg | discriminate].
    rewrite Hst in *. cbn [top_term] in Hmode. destruct Hmode as (N0 & N1 & N2 & N3).
    pose proof (sb_subd HB _ Hsub) as Hsk.
    assert (Hnus : us (ms c) 0 <> USubd).
    { intros E. destruct (Hus E) as (_ & _ & _ & ?). discriminate. }
    destruct (in_sub p s HB) as (B1 & V1).
    destruct (sh_sinks (cst c)) as [|x l] eqn:El.
    - destruct (en_step_in _ _ _ _ He (h_sub_first (cst c) s 0 El)) as (Ec & Es & Em & Ed).
      assert (Eus : us_on (us (ms c) 0) = false) by now apply N2.
      set (m1 := mon_input p (ms c) (ISub s 0)) in *. clearbody m1.
      destruct (view_eq V1) as (S1 & K1 & U1 & E1 & R1).
      destruct (call_sub p Hresub o ShDone B1) as (B2 & V2);
        [rewrite U1; intros E; now rewrite E in Eus..|].
      rewrite S1, K1, U1, E1, R1 in V2. rewrite <- Em in *.
      destruct (view_eq V2) as (S2 & K2 & U2 & E2 & R2).
      split; [exact Ed|]. rewrite Ec, Es, Hst.
      constructor; cbn [sh_sinks sh_tb sh_first top_term fan_rest]; rewrite ?S2, ?K2, ?U2, ?E2;
        auto.
      + repeat split.
      + repeat constructor. tauto.
      + intros _. rewrite upd_same. auto.
      + unfold norm_inv. cbn [sh_sinks]. rewrite K2, U2, E2, upd_same. repeat split;
        try discriminate; auto.
        * intros y Hy. apply N0 in Hy. destruct Hy.
        * tauto.
    - destruct (en_step_in _ _ _ _ He (h_sub_more (cst c) s 0 El)) as (Ec & Es & Em & Ed).
      assert (Eus : us (ms c) 0 = ULive).
      { destruct (us (ms c) 0) eqn:E; try congruence;
          exfalso; assert (H : x :: l = []) by (now apply N2); discriminate. }
      assert (Hnin : ~ In s (x :: l)).
      { intros H. apply N1 in H; [congruence | exact Hnus]. }
      set (m1 := mon_input p (ms c) (ISub s 0)) in *. clearbody m1.
      destruct (view_eq V1) as (S1 & K1 & U1 & E1 & R1).
      destruct (call_greet p o ShDone s B1) as (B2 & V2);
        [now rewrite K1 | now rewrite S1, upd_same |].
      rewrite S1, K1, U1, E1, R1 in V2. rewrite <- Em in *.
      destruct (view_eq V2) as (S2 & K2 & U2 & E2 & R2).
      split; [exact Ed|]. rewrite Ec, Es, Hst.
      constructor; cbn [sh_sinks sh_tb sh_first top_term fan_rest]; rewrite ?S2, ?K2, ?U2, ?E2;
        auto.
      + repeat split.
      + now apply nodup_snoc.
      + intros y [].
      + intros y _. apply (Htb x). rewrite N1; [discriminate | exact Hnus | now left].
      + congruence.
      + unfold norm_inv. cbn [sh_sinks]. rewrite K2, U2, E2, Eus. repeat split; try discriminate;
        auto.
        * intros y. unfold upd. destruct (Nat.eqb_spec y s) as [->|Hn].
          -- intros _. apply in_or_app. right. now left.
          -- intros H. apply in_or_app. left. now apply N0.
        * intros _ y Hy. unfold upd. destruct (Nat.eqb_spec y s); [reflexivity|].
          apply in_app_or in Hy. destruct Hy as [Hy|[Hy|[]]]; [|congruence].
          apply N1; auto.
  Qed.

  (** a live sink pulls or detaches; it is not the one a terminal fan-out is calling *)
  Lemma inv_up c s u : reach p g_share c -> Inv c -> enabled p g_share c (MIn (IUp s u)) = true ->
    Inv (step p c (MIn (IUp s u))).
  Proof.
    intros Hr [Hd HA] He. pose proof HA as [HB Hstk Hnd Hfan Htb Hus Hmode].
    destruct (en_up _ _ _ _ _ He) as (Htop & Hsk & _).
    pose proof (up_normal c s HA Htop Hsk) as Hnorm.
    destruct (live_us s HA Hnorm Hsk) as [Eus Hin].
    rewrite Hnorm in Hmode. destruct Hmode as (N0 & N1 & N2 & N3).
    assert (Htb' : sh_tb (cst c) = true) by (apply (Htb s); congruence).
    pose proof (peer_notin_fan c s Hstk Htop) as Hnf.
    destruct (umsg_is_term u) eqn:Hu.
    - destruct (in_stop p s u Hu HB Hsk) as (B1 & S1 & K1 & U1 & E1).
      assert (N3' : forall y, upd (err_due (ms c)) s None y = None).
      { intros y. unfold upd. destruct (Nat.eqb y s); auto. }
      assert (Hfan' : forall y, In y (fan_rest (stack c)) -> upd (sk (ms c)) s SDisposed y = SLive).
      { intros y Hy. rewrite upd_other; [auto | congruence]. }
      assert (Htb2 : forall y, upd (sk (ms c)) s SDisposed y <> SNone -> sh_tb (cst c) = true).
      { intros y _. exact Htb'. }
      destruct (remove_first s (sh_sinks (cst c))) as [|y l'] eqn:Erf.
      + (* the last sink: the upstream is stopped *)
        destruct (en_step_in _ _ _ _ He (h_stop_last (cst c) s u Hu Htb' Erf)) as (Ec & Es & Em & Ed).
        set (m1 := mon_input p (ms c) (IUp s u)) in *. clearbody m1.
        destruct (call_stop p o ShDone UT eq_refl B1) as (B2 & V2); [congruence|].
        rewrite S1, K1, U1, E1 in V2. rewrite <- Em in *.
        destruct (view_eq V2) as (S2 & K2 & U2 & E2 & _).
        destruct (push_done (CUp 0 UT) _ Hstk Hnorm I) as (Hok' & Hfr' & Htt').
        split; [exact Ed|]. rewrite Ec, Es.
        constructor; rewrite ?Hfr', ?Htt'; cbn [with_sinks sh_sinks sh_tb sh_first];
          rewrite ?S2, ?K2, ?U2, ?E2; auto.
        * constructor.
        * rewrite upd_same. discriminate.
        * unfold norm_inv. cbn [with_sinks sh_sinks]. rewrite K2, U2, E2, upd_same.
          repeat split; try tauto; try discriminate; try (intros _ x []).
          intros x. unfold upd. destruct (Nat.eqb_spec x s); [discriminate|].
          intros H. apply N0 in H.
          assert (H' : In x (remove_first s (sh_sinks (cst c)))) by (apply rf_in_neq; auto).
          now rewrite Erf in H'.
      + (* other sinks remain *)
        destruct (en_step_in _ _ _ _ He (h_stop_more (cst c) s u Hu Erf)) as (Ec & Es & Em & Ed).
        assert (Hne : remove_first s (sh_sinks (cst c)) <> []) by (rewrite Erf; discriminate).
        rewrite <- Erf in *. clear Erf.
        set (m1 := mon_input p (ms c) (IUp s u)) in *. clearbody m1.
        rewrite at_done in Em by (intros x; now rewrite E1).
        rewrite <- Em in *.
        split; [exact Ed|]. rewrite Ec, Es.
        constructor; rewrite ?Hnorm; cbn [with_sinks sh_sinks sh_tb sh_first];
          rewrite ?S1, ?K1, ?U1, ?E1; auto.
        * now apply rf_nodup.
        * congruence.
        * unfold norm_inv. cbn [with_sinks sh_sinks]. rewrite K1, U1, E1, Eus.
          repeat split; try tauto; try discriminate; auto.
          -- intros x. unfold upd. destruct (Nat.eqb_spec x s); [discriminate|].
             intros H. apply N0 in H. apply rf_in_neq; auto.
          -- intros _ x H. unfold upd. destruct (Nat.eqb_spec x s); subst.
             ++ exfalso. revert H. now apply rf_notin.
             ++ apply N1; [congruence|]. eapply rf_in; eassumption.
    - destruct u; try discriminate.
      destruct (en_step_in _ _ _ _ He (h_pull (cst c) s Htb')) as (Ec & Es & Em & Ed).
      destruct (in_pull p s HB) as (B1 & V1).
      set (m1 := mon_input p (ms c) (IUp s UP)) in *. clearbody m1.
      destruct (view_eq V1) as (S1 & K1 & U1 & E1 & R1).
      destruct (call_pull p Hc14 o ShDone B1) as (B2 & V2); [congruence|].
      rewrite V1 in V2. rewrite <- Em in *. destruct (view_eq V2) as (S2 & K2 & U2 & E2 & _).
      destruct (push_done (CUp 0 UP) _ Hstk Hnorm I) as (Hok' & Hfr' & Htt').
      split; [exact Ed|]. rewrite Ec, Es. change (Fr o) with sh_fr.
      constructor; rewrite ?Hfr', ?Htt', ?S2, ?K2, ?U2, ?E2; auto.
      + congruence.
      + unfold norm_inv. rewrite K2, U2, E2. auto.
  Qed.

  (** the upstream speaks: no terminal fan-out is in progress *)
  Lemma inv_dn c i d : reach p g_share c -> Inv c -> enabled p g_share c (MIn (IDn i d)) = true ->
    Inv (step p c (MIn (IDn i d))).
  Proof.
    intros Hr [Hd HA] He. pose proof HA as [HB Hstk Hnd Hfan Htb Hus Hmode].
    pose proof (reach_cstack Hr) as Hcs.
    assert (Hi : top_peer_is c (PUp i) = true /\ us (ms c) i <> UNone).
    { destruct (dmsg_eq_DH d) as [->|Hn];
        [destruct (en_greet _ _ _ _ He) as (? & E & _)
        |destruct (@en_dn p o g_share c i d Hn He) as (? & E & _)];
        split; auto; rewrite E; discriminate. }
    destruct Hi as [Htop Hi]. apply (known_up_0 _ HB) in Hi. subst i.
    pose proof (dn_normal c 0 Hstk Htop) as Hnorm.
    rewrite Hnorm in Hmode. destruct Hmode as (N0 & N1 & N2 & N3).
    destruct (dmsg_eq_DH d) as [->|Hn].
    - (* it greets: the sink that subscribed it is greeted *)
      destruct (en_greet _ _ _ _ He) as (_ & Eus & _).
      destruct (Hus Eus) as (El & Hf & Hsf & Est).
      destruct (en_step_in _ _ _ _ He (s' := {| sh_sinks := sh_sinks (cst c); sh_tb := true;
                                                sh_first := sh_first (cst c) |})
                  (os := []) (a := Call (CDn (sh_first (cst c)) DH) ShDone) eq_refl)
        as (Ec & Es & Em & Ed).
      destruct (in_greet p HB) as (B1 & V1).
      set (m1 := mon_input p (ms c) (IDn 0 DH)) in *. clearbody m1.
      destruct (view_eq V1) as (S1 & K1 & U1 & E1 & R1).
      destruct (call_greet p o ShDone (sh_first (cst c)) B1) as (B2 & V2); [congruence..|].
      rewrite S1, K1, U1, E1, R1 in V2. rewrite <- Em in *.
      destruct (view_eq V2) as (S2 & K2 & U2 & E2 & _).
      destruct (push_done (CDn (sh_first (cst c)) DH) _ Hstk Hnorm) as (Hok' & Hfr' & Htt').
      { split; [reflexivity|]. now rewrite Est. }
      split; [exact Ed|]. rewrite Ec, Es.
      constructor; rewrite ?Hfr', ?Htt'; cbn [sh_sinks sh_tb sh_first];
        rewrite ?S2, ?K2, ?U2, ?E2; auto.
      + rewrite Est. intros y [].
      + rewrite upd_same. discriminate.
      + unfold norm_inv. cbn [sh_sinks]. rewrite K2, U2, E2, upd_same, El.
        repeat split; try discriminate; auto.
        * intros x. unfold upd. destruct (Nat.eqb_spec x (sh_first (cst c))); [now left|].
          intros H. apply N0 in H. now rewrite El in H.
        * intros _ x [<-|[]]. now rewrite upd_same.
    - (* it emits: the first sink of the snapshot is called *)
      destruct (@en_dn p o g_share c 0 d Hn He) as (_ & Eus & _).
      pose proof (en_guard _ _ _ _ He) as Hg.
      assert (Hpd : pending_delivery (map snd (stack c)) = false).
      { rewrite <- Hcs. destruct d; [congruence|..]; now apply negb_true_iff in Hg. }
      destruct (sh_sinks (cst c)) as [|x rest] eqn:El.
      { exfalso. rewrite Eus in N2. destruct N2 as [N2 _]. specialize (N2 eq_refl). discriminate. }
      assert (Hh : handle o (IDn 0 d) (cst c) = (cst c, [], Call (CDn x d) (ShFan d rest))).
      { rewrite (h_emit _ Hn), El. reflexivity. }
      destruct (en_step_in _ _ _ _ He Hh) as (Ec & Es & Em & Ed).
      assert (Hus' : us (ms c) 0 <> USubd) by congruence.
      assert (Hlive : forall y, In y (x :: rest) -> sk (ms c) y = SLive) by (apply N1; exact Hus').
      assert (Hin : exists m1, ms (step p c (MIn (IDn 0 d))) =
                               ms_settle p o m1 [] (Call (CDn x d) (ShFan d rest)) /\
                sbase m1 /\ subd m1 = subd (ms c) /\ sk m1 = sk (ms c) /\ us m1 0 <> USubd /\
                (if dmsg_is_term d then term_inv m1 d (x :: rest) else norm_inv m1 (cst c))).
      { exists (mon_input p (ms c) (IDn 0 d)). split; [exact Em|]. destruct (dmsg_is_term d) eqn:Ht.
        - destruct (in_end p d (x :: rest) Ht HB N3 N0) as (B1 & S1 & K1 & T1).
          repeat (split; [assumption|]). split; [|exact T1]. destruct T1 as [-> _]. discriminate.
        - destruct d as [|v|e|]; try discriminate; try congruence.
          destruct (in_data p v HB) as (B1 & V1). destruct (view_eq V1) as (S1 & K1 & U1 & E1 & _).
          repeat (split; [assumption|]).
          unfold norm_inv. rewrite K1, U1, E1, El. exact (conj N0 (conj N1 (conj N2 N3))). }
      destruct Hin as (m1 & Em' & B1 & S1 & K1 & U1 & M1).
      split; [exact Ed|]. rewrite Ec, Es, Em'.
      apply fan_call; auto; rewrite ?K1; auto.
      + rewrite El. exact Hnd.
      + apply Hlive. now left.
      + intros y Hy. apply Hlive. now right.
  Qed.

  Lemma inv_ret c : reach p g_share c -> Inv c -> enabled p g_share c MRet = true ->
    Inv (step p c MRet).
  Proof.
    intros Hr [Hd HA] He. pose proof HA as [HB Hstk Hnd Hfan Htb Hus Hmode].
    destruct (en_ret _ _ _ He) as (k & cl & below & Hst & Hsc).
    assert (Hnsub : us (ms c) 0 <> USubd).
    { intros E. destruct (Hus E) as (_ & _ & _ & Est). rewrite Est in Hst.
      injection Hst as _ <- _. now apply (Hsc Hlate 0 eq_refl). }
    rewrite Hst in *. destruct Hstk as [[Htt Hf] Hok].
    destruct (after_ret p HB) as (B1 & V1).
    destruct (view_eq V1) as (S1 & K1 & U1 & E1 & R1).
    destruct k as [|d rest].
    - (* a handler that has nothing left to do *)
      destruct (en_step_ret _ _ _ He Hst (s' := cst c) (os := []) (a := ARet) eq_refl)
        as (Ec & Es & Em & Ed).
      cbn [top_term fan_rest] in Hmode, Hfan. destruct Hmode as (N0 & N1 & N2 & N3).
      set (m1 := mon_event p (ms c) ERet) in *. clearbody m1.
      rewrite at_done in Em by (intros x; now rewrite E1). rewrite <- Em in *.
      split; [exact Ed|]. rewrite Ec, Es.
      constructor; rewrite ?Htt, ?K1, ?U1; auto.
      + intros E. contradiction.
      + unfold norm_inv. rewrite K1, U1, E1. auto.
    - (* a fan-out continues or ends *)
      assert (Ecl : exists x, cl = CDn x d /\ pending_delivery (map snd below) = false /\
                              NoDup (x :: rest) /\ d <> DH).
      { destruct cl as [i|i u|x d']; try discriminate.
        destruct Hf as [Hp Hf]. exists x.
        destruct d' as [|v|e|]; try discriminate;
          destruct Hf as (rest' & Ek & Hnd'); inversion Ek; subst;
          repeat split; auto; discriminate. }
      destruct Ecl as (x & -> & Hpd & Hndr & HnDH). clear Hf.
      cbn [fan_rest] in Hfan. rewrite (stk_ok_nofan _ Hok Hpd), app_nil_r in Hfan.
      cbn [top_term] in Hmode.
      destruct rest as [|b rest'].
      + (* every sink of the snapshot has been served *)
        destruct (en_step_ret _ _ _ He Hst
                    (s' := if dmsg_is_term d then with_sinks (cst c) [] else cst c)
                    (os := []) (a := ARet)) as (Ec & Es & Em & Ed).
        { cbn. destruct (dmsg_is_term d); reflexivity. }
        set (m1 := mon_event p (ms c) ERet) in *. clearbody m1.
        rewrite at_done in Em.
        2: { intros y. rewrite E1. destruct (dmsg_is_term d); [|apply Hmode].
             destruct Hmode as (_ & _ & T3 & _).
             destruct (err_due (ms c) y) as [e0|] eqn:E;
               [destruct (T3 _ _ E) as [_ []] | reflexivity]. }
        rewrite <- Em in *. split; [exact Ed|]. rewrite Ec, Es.
        destruct (dmsg_is_term d).
        * destruct Hmode as (T1 & T2 & T3 & T4).
          constructor; rewrite ?Htt, ?K1, ?U1; cbn [with_sinks sh_sinks sh_tb sh_first]; auto.
          -- constructor.
          -- rewrite (stk_ok_nofan _ Hok Hpd). intros y [].
          -- congruence.
          -- unfold norm_inv. cbn [with_sinks sh_sinks]. rewrite K1, U1, E1, T1.
             repeat split; auto; try tauto.
             intros y. destruct (err_due (ms c) y) as [e0|] eqn:E;
               [destruct (T3 _ _ E) as [_ []] | reflexivity].
        * constructor; rewrite ?Htt, ?K1, ?U1; auto.
          -- rewrite (stk_ok_nofan _ Hok Hpd). intros y [].
          -- intros E. contradiction.
          -- revert Hmode. unfold norm_inv. rewrite K1, U1, E1. auto.
      + (* the next sink of the snapshot is called *)
        destruct (en_step_ret _ _ _ He Hst (s' := cst c) (os := [])
                    (a := Call (CDn b d) (ShFan d rest')) eq_refl) as (Ec & Es & Em & Ed).
        set (m1 := mon_event p (ms c) ERet) in *. clearbody m1.
        split; [exact Ed|]. rewrite Ec, Es, Em.
        apply fan_call; auto; rewrite ?K1, ?U1; auto.
        * now inversion Hndr.
        * apply Hfan. now left.
        * intros y Hy. apply Hfan. now right.
        * destruct (dmsg_is_term d); [|revert Hmode; unfold norm_inv; rewrite K1, U1, E1; auto].
          revert Hmode. unfold term_inv. rewrite K1, U1, E1, R1. auto.
  Qed.

  Lemma inv_step c mv : reach p g_share c -> Inv c -> enabled p g_share c mv = true ->
    Inv (step p c mv).
  Proof.
    destruct mv as [[s aux|s u|i d|s]|];
      [apply inv_sub | apply inv_up | apply inv_dn | | apply inv_ret].
    intros _ [_ [HB _ _ _ _ _ _]] He. destruct (en_tick _ _ _ _ He) as [_ Ht].
    now rewrite (sb_task HB) in Ht.
  Qed.

  Theorem inv_reach c : reach p g_share c -> Inv c.
  Proof. revert c. apply reach_invariant; [exact inv0 | exact inv_step]. Qed.
  (** C12, state form: outside the fan-out of a terminal message the upstream
      subscription is on exactly while the list of sinks is non-empty; during
      such a fan-out the upstream has ended (and the list is cleared when the
      fan-out completes) *)
  Theorem one_upstream (c : cfg o) :
    reach p g_share c ->
    match top_term (stack c) with
    | None => (us (ms c) 0 = ULive \/ us (ms c) 0 = USubd) <-> sh_sinks (cst c) <> []
    | Some _ => us (ms c) 0 = UEnded
    end.
  Proof.
    intros Hr. destruct (inv_reach Hr) as [_ [_ _ _ _ _ _ Hmode]].
    destruct (top_term (stack c)) as [[d rest]|].
    - now destruct Hmode.
    - destruct Hmode as (_ & _ & N2 & _).
      destruct (us (ms c) 0); cbn in N2; split; intros H.
      all: try (destruct H; discriminate).
      all: try (exfalso; apply H; now apply N2).
      all: try (intros E; apply N2 in E; discriminate).
      all: auto.
  Qed.

  (** C12: at a quiescent configuration the upstream is alive exactly while
      some sink is attached *)
  Theorem refcount (c : cfg o) :
    reach p g_share c -> stack c = [] ->
    (exists s, sk (ms c) s = SLive) <-> us (ms c) 0 = ULive.
  Proof.
    intros Hr Hst. pose proof (i_at (inv_reach Hr)) as HA.
    assert (Hn : top_term (stack c) = None) by now rewrite Hst.
    split.
    - intros [s Hs]. now destruct (live_us s HA Hn Hs).
    - intros Eus. pose proof (a_mode HA) as Hmode. rewrite Hn in Hmode.
      destruct Hmode as (_ & N1 & N2 & _).
      destruct (sh_sinks (cst c)) as [|x l] eqn:El.
      + exfalso. rewrite Eus in N2. cbn in N2. destruct N2 as [N2 _].
        specialize (N2 eq_refl). discriminate.
      + exists x. apply N1; [congruence | now left].
  Qed.

  (** C12, event form: share subscribes to its upstream only inside the
      subscription of a sink that finds no sink attached (and the upstream
      subscription off) *)
  Lemma handle_sub inp s s' os i k :
    sh_handle inp s = (s', os, ACall (CSub i) k) ->
    i = 0 /\ sh_sinks s = [] /\ exists x aux, inp = ISub x aux.
  Proof.
    destruct inp as [x aux|x [|e|]|[|j] [|v|e|]|x]; cbn.
    - destruct (sh_sinks s) as [|y l]; cbn.
      + intros H. inversion H. repeat split; eauto.
      + rewrite app_length, Nat.add_comm. cbn. intros H. inversion H.
    - destruct (sh_tb s); intros H; inversion H.
    - destruct (remove_first x (sh_sinks s)); [destruct (sh_tb s)|]; intros H; inversion H.
    - destruct (remove_first x (sh_sinks s)); [destruct (sh_tb s)|]; intros H; inversion H.
    - intros H; inversion H.
    - destruct (sh_sinks s); intros H; inversion H.
    - destruct (sh_sinks s); intros H; inversion H.
    - destruct (sh_sinks s); intros H; inversion H.
    - intros H; inversion H.
    - intros H; inversion H.
    - intros H; inversion H.
    - intros H; inversion H.
    - intros H; inversion H.
  Qed.

  Lemma resume_sub fr s s' os i k : sh_resume fr s = (s', os, ACall (CSub i) k) -> False.
  Proof.
    destruct fr as [|m rest]; cbn; [intros H; inversion H|].
    destruct rest; cbn; [destruct (dmsg_is_term m)|]; intros H; inversion H.
  Qed.

  Theorem sub_only_first (c : cfg o) m :
    reach p g_share c -> enabled p g_share c m = true ->
    forall i tr, rtrace (step p c m) = ECall (CSub i) :: tr ->
    i = 0 /\ (exists s, m = MIn (ISub s 0)) /\ stack c = [] /\
    sh_sinks (cst c) = [] /\ (forall s, sk (ms c) s <> SLive) /\
    us (ms c) 0 <> ULive /\ us (ms c) 0 <> USubd.
  Proof.
    intros Hr He i tr Htr. pose proof (a_mode (i_at (inv_reach Hr))) as Hmode.
    pose proof (enabled_live _ _ _ _ He) as Hlive.
    destruct m as [inp|].
    - pose proof (enabled_deliverable _ _ _ _ He) as Hdel.
      destruct (handle o inp (cst c)) as [[s' os] a] eqn:Hh.
      rewrite (step_in_rtrace p c inp Hlive Hdel Hh) in Htr.
      destruct a as [| |cl k]; cbn in Htr; try discriminate.
      inversion Htr; subst cl. clear Htr.
      destruct (handle_sub _ _ Hh) as (-> & El & x & aux & ->).
      destruct (en_sub _ _ _ _ _ He) as (Est & _).
      pose proof (en_guard _ _ _ _ He) as Hg. destruct aux; [|discriminate].
      rewrite Est in Hmode. destruct Hmode as (N0 & N1 & N2 & N3).
      assert (Eus : us_on (us (ms c) 0) = false) by now apply N2.
      repeat split; eauto.
      + intros s Hs. apply N0 in Hs. now rewrite El in Hs.
      + intros E. now rewrite E in Eus.
      + intros E. now rewrite E in Eus.
    - destruct (enabled_ret_stack _ _ _ He) as (k & cl & rest & Hst).
      destruct (resume o k (cst c)) as [[s' os] a] eqn:Hres.
      rewrite (step_ret_rtrace p c Hlive Hst Hres) in Htr.
      destruct a as [| |cl' k']; cbn in Htr; try discriminate.
      inversion Htr; subst cl'. exfalso. eapply resume_sub. exact Hres.
  Qed.
End ShareInv.

(** The regime of share: the upstream may be
    subscribed again after it is over ([resub]), the C14/C15 checks are off,
    upstreams greet inside the subscribing call; [nsinks p] is arbitrary. *)

(** C01-C05, C17: no protocol violation and no panic in any reachable configuration *)
Theorem share_safe p :
  resub p = true -> no_nest p = false -> c14 p = false -> late_ok p = false ->
  forall c : cfg share_op, reach p g_share c -> viols (ms c) = [] /\ dead c = false.
Proof.
  intros H1 H2 H3 H4 c Hr. destruct (inv_reach H1 H2 H3 H4 Hr) as [Hd [[Hv _ _ _] _ _ _ _ _ _]].
  split; assumption.
Qed.
Print Assumptions share_safe.

(** the innermost activation is the fan-out of a Terminate/Error *)
Definition in_term_fanout (c : cfg share_op) : bool :=
  match stack c with
  | (ShFan m _, _) :: _ => dmsg_is_term m
  | _ => false
  end.

(** C12: one upstream subscription, on exactly while sinks are attached.
    State form, at every control point: outside the fan-out of a terminal
    message the upstream is subscribed/alive iff the list of sinks is not
    empty (inside one the upstream has just ended and the list, not yet
    cleared, is cleared when the fan-out completes).  Event form: a step
    calls [CSub i] only if it is the subscription of a sink, at top level, that
    finds no sink attached and no upstream subscription on; [i = 0]. *)
Theorem share_one_upstream p :
  resub p = true -> no_nest p = false -> c14 p = false -> late_ok p = false ->
  forall c : cfg share_op, reach p g_share c ->
  (if in_term_fanout c then us (ms c) 0 = UEnded
   else (us (ms c) 0 = ULive \/ us (ms c) 0 = USubd) <-> sh_sinks (cst c) <> []) /\
  (forall m, enabled p g_share c m = true ->
   forall i tr, rtrace (step p c m) = ECall (CSub i) :: tr ->
   i = 0 /\ (exists s, m = MIn (ISub s 0)) /\ stack c = [] /\
   sh_sinks (cst c) = [] /\ (forall s, sk (ms c) s <> SLive) /\
   us (ms c) 0 <> ULive /\ us (ms c) 0 <> USubd).
Proof.
  intros H1 H2 H3 H4 c Hr. split.
  - pose proof (one_upstream H1 H2 H3 H4 Hr) as H.
    unfold in_term_fanout. unfold top_term in H.
    destruct (stack c) as [|[[|m rest] cl] st]; try exact H.
    destruct (dmsg_is_term m); exact H.
  - intros m He i tr Htr. eapply sub_only_first; eauto.
Qed.
Print Assumptions share_one_upstream.

(** C12: at a quiescent configuration the upstream is alive exactly while
    some sink is attached (disposed when the last sink detaches, subscribed
    again when a sink attaches afterwards) *)
Theorem share_refcount p :
  resub p = true -> no_nest p = false -> c14 p = false -> late_ok p = false ->
  forall c : cfg share_op, reach p g_share c -> stack c = [] ->
  ((exists s, sk (ms c) s = SLive) <-> us (ms c) 0 = ULive).
Proof. intros H1 H2 H3 H4 c Hr Hst. now apply (refcount H1 H2 H3 H4 Hr). Qed.
Print Assumptions share_refcount.

(** ** Non-vacuity: scripts of the conformant environment (five sinks): a sink pulling inside
    its greeting, a middle sink detaching inside its own data handler during
    a fan-out, the last sink detaching inside a fan-out (upstream disposed),
    re-attachment afterwards (upstream subscribed again), and an upstream
    Error fanned out to two sinks. *)
Definition p_demo : mparams :=
  {| nsinks := 5; late_ok := false; pullable := false; one_pull := false;
     resub := true; no_nest := false; c14 := false |}.

Definition demo_script : list move :=
  [ MIn (ISub 0 0); MIn (IDn 0 DH); MIn (IUp 0 UP); MRet; MRet; MRet;
    MIn (ISub 1 0); MRet; MIn (ISub 2 0); MRet;
    MIn (IDn 0 (DD (VN 7))); MRet; MIn (IUp 1 UT); MRet; MRet;
    MIn (IDn 0 (DD (VN 8))); MIn (IUp 0 UT); MRet; MIn (IUp 2 UT); MRet; MRet;
    MIn (ISub 3 0); MIn (IDn 0 DH); MRet; MRet; MIn (ISub 4 0); MRet;
    MIn (IDn 0 (DE 100)); MRet; MRet ].

Example demo_reachable : reach p_demo g_share (run p_demo share_op demo_script).
Proof. apply reach_run. vm_compute. reflexivity. Qed.

Example demo_end :
  let c := run p_demo share_op demo_script in
  stack c = [] /\ sh_sinks (cst c) = [] /\ us (ms c) 0 = UEnded /\
  map (sk (ms c)) [0; 1; 2; 3; 4] = [SDisposed; SDisposed; SDisposed; SFinished; SFinished] /\
  ports (ms c) = [0; 0] /\ viols (ms c) = [].
Proof. vm_compute. repeat split. Qed.
