(** * FlowLists: list lemmas for the liveness theorem.
    Pure list reasoning: the prefix order, monotonicity of the stage list functions [usem1]/[usem]
    for it, and two facts about a finite iterator [fun k => nth_error xs k]. *)

From Coq Require Import List Arith Lia.
From CB Require Import Base Spec Programs Flow.
Import ListNotations.

Set Implicit Arguments.

Definition prefix (A : Type) (l m : list A) : Prop := exists r, m = l ++ r.
Arguments prefix {A} l m.

Section Prefix.
  Variable A : Type.
  Implicit Types l m k : list A.

  Lemma prefix_refl l : prefix l l.
  Proof. exists []. now rewrite app_nil_r. Qed.

  Lemma prefix_trans l m k : prefix l m -> prefix m k -> prefix l k.
  Proof. intros [r1 ->] [r2 ->]. exists (r1 ++ r2). now rewrite app_assoc. Qed.

  Lemma prefix_length l m : prefix l m -> length l <= length m.
  Proof. intros [r ->]. rewrite app_length. lia. Qed.

  Lemma prefix_app_r l r : prefix l (l ++ r).
  Proof. now exists r. Qed.

  Lemma prefix_firstn n l : prefix (firstn n l) l.
  Proof. exists (skipn n l). now rewrite firstn_skipn. Qed.

  Lemma prefix_filter (c : A -> bool) l m : prefix l m -> prefix (filter c l) (filter c m).
  Proof. intros [r ->]. exists (filter c r). apply filter_app. Qed.

  Lemma prefix_firstn_mono n l m : prefix l m -> prefix (firstn n l) (firstn n m).
  Proof.
    intros [r ->]. rewrite firstn_app. apply prefix_app_r.
  Qed.

  Lemma prefix_skipn n l m : prefix l m -> prefix (skipn n l) (skipn n m).
  Proof.
    intros [r ->]. rewrite skipn_app. apply prefix_app_r.
  Qed.

  Lemma firstn_full_prefix n l m :
    prefix l m -> length (firstn n l) = n -> firstn n l = firstn n m.
  Proof.
    intros [r ->] Hlen. rewrite firstn_app.
    rewrite firstn_length in Hlen.
    replace (n - length l) with 0 by lia.
    cbn. now rewrite app_nil_r.
  Qed.
End Prefix.

Lemma prefix_map (A B : Type) (f : A -> B) (l m : list A) :
  prefix l m -> prefix (map f l) (map f m).
Proof. intros [r ->]. exists (map f r). apply map_app. Qed.

Lemma prefix_scan_list r a (l m : list val) :
  prefix l m -> prefix (scan_list r a l) (scan_list r a m).
Proof. intros [t ->]. rewrite scan_list_app. apply prefix_app_r. Qed.

Lemma usem1_prefix s (l m : list val) : prefix l m -> prefix (usem1 s l) (usem1 s m).
Proof.
  intros H. destruct s as [f|c|r seed|n|n]; cbn.
  - now apply prefix_map.
  - now apply prefix_filter.
  - now apply prefix_scan_list.
  - now apply prefix_firstn_mono.
  - now apply prefix_skipn.
Qed.

Lemma usem_prefix st (l m : list val) : prefix l m -> prefix (usem st l) (usem st m).
Proof.
  revert l m. induction st as [|s st IH]; intros l m H.
  - exact H.
  - cbn. apply IH. now apply usem1_prefix.
Qed.

Lemma scan_list_length r a (l : list val) : length (scan_list r a l) = length l.
Proof. revert a. induction l as [|x l IH]; intros a; cbn; [reflexivity|]. now rewrite IH. Qed.

Lemma usem1_length s (l : list val) : length (usem1 s l) <= length l.
Proof.
  destruct s as [f|c|r seed|n|n]; cbn.
  - rewrite map_length. lia.
  - exact (cnt_le_length c l).
  - rewrite scan_list_length. lia.
  - rewrite firstn_length. lia.
  - rewrite skipn_length. lia.
Qed.

Lemma usem_length st (l : list val) : length (usem st l) <= length l.
Proof.
  revert l. induction st as [|s st IH]; intros l.
  - cbn. lia.
  - cbn. etransitivity; [apply IH|apply usem1_length].
Qed.

Print Assumptions usem_prefix.
Print Assumptions usem_length.
Print Assumptions firstn_full_prefix.

(** ** A finite iterator [fun k => nth_error xs k] *)

Definition is_some_r (A : Type) (r : option A) : bool :=
  match r with Some _ => true | None => false end.

Lemma finite_it_shape (A : Type) (xs : list A) pos :
  map (fun k => nth_error xs k) (seq 0 pos)
  = map Some (firstn pos xs) ++ repeat None (pos - length xs).
Proof.
  revert pos. induction xs as [|x xs IH]; intros pos.
  - rewrite firstn_nil. cbn [map app length]. rewrite Nat.sub_0_r.
    generalize 0 as a. induction pos as [|pos IHp]; intros a; cbn; [reflexivity|].
    rewrite IHp. now destruct a.
  - destruct pos as [|pos]; [reflexivity|].
    cbn [seq map firstn length nth_error app Nat.sub].
    rewrite <- seq_shift, map_map. cbn [nth_error].
    now rewrite IH.
Qed.

Lemma filter_some_shape (A : Type) (a : list A) k :
  filter (@is_some_r A) (map Some a ++ repeat None k) = map Some a.
Proof.
  induction a as [|y a IH]; cbn; [|now rewrite IH].
  induction k as [|k IHk]; [reflexivity | exact IHk].
Qed.

Lemma map_Some_inj (A : Type) (a b : list A) : map Some a = map Some b -> a = b.
Proof.
  revert b. induction a as [|x a IH]; intros [|y b] H; cbn in H; try discriminate; [reflexivity|].
  injection H as -> H. f_equal. now apply IH.
Qed.

Lemma some_none_split (A : Type) (a l : list A) k :
  map Some a ++ repeat None k = map Some l ++ [None] -> a = l /\ k = 1.
Proof.
  revert l. induction a as [|x a IH]; intros [|y l] H; cbn in H.
  - destruct k as [|[|k]]; cbn in H; try discriminate. now split.
  - destruct k; cbn in H; discriminate.
  - injection H as H. destruct a; discriminate.
  - injection H as -> H. destruct (IH l H) as [-> ->]. now split.
Qed.

Theorem finite_it_prefix : forall (xs l : list val) pos,
    map Some l = filter (@is_some_r val) (map (fun k => nth_error xs k) (seq 0 pos)) ->
    prefix l xs.
Proof.
  intros xs l pos H.
  rewrite finite_it_shape, filter_some_shape in H.
  apply map_Some_inj in H. subst l. apply prefix_firstn.
Qed.
Print Assumptions finite_it_prefix.

Theorem finite_it_all : forall (xs l : list val) pos,
    map (fun k => nth_error xs k) (seq 0 pos) = map Some l ++ [None] -> l = xs.
Proof.
  intros xs l pos H.
  rewrite finite_it_shape in H.
  apply some_none_split in H. destruct H as [Hl Hk].
  subst l. apply firstn_all2. lia.
Qed.
Print Assumptions finite_it_all.
