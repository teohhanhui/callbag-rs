(** Property C14 - demand conservation
    The statements are those of the files where they are proved (Inv_*_pull.v, Flow_*.v,
    PullPrograms.v, PullReturns.v, ClosedDemand.v); [C14_program_monitor] combines two of them.
    See DESIGN.md section 5 for how each renders the property. *)
From CB Require Import ProofLib Spec MonitorSound Results.
From CB Require Import Inv_relay Inv_take_pull Inv_from_iter_pull Inv_concat_pull Inv_flatten_pull.
From CB Require Import Flow Flow_relay Flow_take Flow_ends.
From CB Require Import Chain Programs LivenessG ClosedDemand PullPrograms PullReturns.

(** pull regime: the monitor's VOverPull / VOverData / VUnanswered checks never fire *)
Theorem C14_map_safe_pull (f : val -> val) p :
  nsinks p = 1 -> resub p = false -> no_nest p = false ->
  c14 p = true -> pullable p = true -> one_pull p = true ->
  forall c : cfg (map_op f), reach p g_std c -> viols (ms c) = [] /\ dead c = false.
Proof. exact (@map_safe_pull f p). Qed.
Print Assumptions C14_map_safe_pull.

Theorem C14_filter_safe_pull (cond : val -> bool) p :
  nsinks p = 1 -> resub p = false -> no_nest p = false ->
  c14 p = true -> pullable p = true -> one_pull p = true ->
  forall c : cfg (filter_op cond), reach p g_std c -> viols (ms c) = [] /\ dead c = false.
Proof. exact (@filter_safe_pull cond p). Qed.
Print Assumptions C14_filter_safe_pull.

Theorem C14_scan_safe_pull (reducer : val -> val -> val) (seed : val) p :
  nsinks p = 1 -> resub p = false -> no_nest p = false ->
  c14 p = true -> pullable p = true -> one_pull p = true ->
  forall c : cfg (scan_op reducer seed), reach p g_std c -> viols (ms c) = [] /\ dead c = false.
Proof. exact (@scan_safe_pull reducer seed p). Qed.
Print Assumptions C14_scan_safe_pull.

Theorem C14_skip_safe_pull (max : nat) p :
  nsinks p = 1 -> resub p = false -> no_nest p = false ->
  c14 p = true -> pullable p = true -> one_pull p = true ->
  forall c : cfg (skip_op max), reach p g_std c -> viols (ms c) = [] /\ dead c = false.
Proof. exact (@skip_safe_pull max p). Qed.
Print Assumptions C14_skip_safe_pull.

Theorem C14_take_safe_pull p :
  nsinks p = 1 -> resub p = false -> no_nest p = false ->
  c14 p = true -> pullable p = true -> one_pull p = true ->
  forall max, 1 <= max ->
  forall c : cfg (take_op max), reach p g_std c -> viols (ms c) = [] /\ dead c = false.
Proof. exact (@take_safe_pull p). Qed.
Print Assumptions C14_take_safe_pull.

Theorem C14_take_counts_pull p :
  nsinks p = 1 -> resub p = false -> no_nest p = false ->
  c14 p = true -> pullable p = true -> one_pull p = true ->
  forall max, 1 <= max ->
  forall c : cfg (take_op max), reach p g_std c ->
  sk (ms c) 0 = SLive -> us (ms c) 0 = ULive -> ndata (ms c) 0 < max ->
  owed (ms c) 0 + ndata (ms c) 0 = npull (ms c) 0 /\ credit (ms c) 0 + owed (ms c) 0 = 1.
Proof. exact (@take_counts_pull p). Qed.
Print Assumptions C14_take_counts_pull.

Theorem C14_from_iter_safe_pull (it : nat -> option val) p :
  nsinks p = 1 -> resub p = false -> no_nest p = false ->
  c14 p = true -> pullable p = true -> one_pull p = true ->
  forall c : cfg (from_iter_op it), reach p g_std c -> viols (ms c) = [] /\ dead c = false.
Proof. exact (@from_iter_safe_pull it p). Qed.
Print Assumptions C14_from_iter_safe_pull.

Theorem C14_from_iter_counts_pull (it : nat -> option val) p :
  nsinks p = 1 -> resub p = false ->
  c14 p = true -> pullable p = true -> one_pull p = true ->
  forall c : cfg (from_iter_op it), reach p g_std c -> sk (ms c) 0 = SLive ->
    ndata (ms c) 0 + (if fi_got_pull (cst c) then 1 else 0) = npull (ms c) 0 /\
    credit (ms c) 0 + (if fi_got_pull (cst c) then 1 else 0) = 1 /\
    (stack c = [] -> fi_got_pull (cst c) = false /\ npull (ms c) 0 = ndata (ms c) 0).
Proof. exact (@from_iter_counts_pull it p). Qed.
Print Assumptions C14_from_iter_counts_pull.

Theorem C14_from_iter_no_coalescing (it : nat -> option val) p :
  nsinks p = 1 -> resub p = false ->
  c14 p = true -> pullable p = true -> one_pull p = true ->
  forall c : cfg (from_iter_op it), reach p g_std c ->
    fi_got_pull (cst c) = true -> enabled p g_std c (MIn (IUp 0 UP)) = false.
Proof. exact (@from_iter_no_coalescing it p). Qed.
Print Assumptions C14_from_iter_no_coalescing.

Theorem C14_concat_safe_pull n p :
  nsinks p = 1 -> resub p = false -> no_nest p = false ->
  c14 p = true -> pullable p = true -> one_pull p = true -> late_ok p = false ->
  forall c : cfg (concat_op n), reach p g_std c -> viols (ms c) = [] /\ dead c = false.
Proof. exact (@concat_safe_pull n p). Qed.
Print Assumptions C14_concat_safe_pull.

Theorem C14_concat_pull_counts n p :
  nsinks p = 1 -> resub p = false -> no_nest p = false ->
  c14 p = true -> pullable p = true -> one_pull p = true -> late_ok p = false ->
  forall c : cfg (concat_op n), reach p g_std c ->
    (forall j, us (ms c) j = ULive ->
       j = cc_i (cst c) /\ sk (ms c) 0 = SLive /\
       owed (ms c) j + ndata (ms c) 0 = npull (ms c) 0 /\
       credit (ms c) 0 + owed (ms c) j = 1 /\ In j (ports (ms c))) /\
    (forall j, us (ms c) j = USubd ->
       j = cc_i (cst c) /\ credit (ms c) 0 = 0 /\ owed (ms c) j = 0 /\
       npull (ms c) 0 = match j with 0 => 0 | S _ => 1 end + ndata (ms c) 0) /\
    (forall j, cc_i (cst c) < j -> owed (ms c) j = 0).
Proof. exact (@concat_pull_counts n p). Qed.
Print Assumptions C14_concat_pull_counts.

(** ** flatten (guard [g_flatten]: every emitted inner is a fresh source): exactly one token of demand,
    with the sink, on the outer, or on the stored inner *)

Theorem C14_flatten_safe_pull p :
  nsinks p = 1 -> resub p = false -> no_nest p = false ->
  c14 p = true -> pullable p = true -> one_pull p = true -> late_ok p = false ->
  forall c : cfg flatten_op, reach p g_flatten c -> viols (ms c) = [] /\ dead c = false.
Proof. exact (@flatten_safe_pull p). Qed.
Print Assumptions C14_flatten_safe_pull.

Theorem C14_flatten_pull_counts p :
  nsinks p = 1 -> resub p = false -> no_nest p = false ->
  c14 p = true -> pullable p = true -> one_pull p = true -> late_ok p = false ->
  forall c : cfg flatten_op, reach p g_flatten c ->
    sk (ms c) 0 = SLive -> us (ms c) 0 = ULive ->
    credit (ms c) 0 + npull (ms c) 0 = S (ndata (ms c) 0) /\
    In 0 (ports (ms c)) /\
    ((fl_inner (cst c) = None /\
      (forall i, us (ms c) (S i) <> ULive /\ us (ms c) (S i) <> USubd) /\
      credit (ms c) 0 + owed (ms c) 0 = 1 /\ (forall i, owed (ms c) (S i) = 0))
     \/
     (exists k, fl_inner (cst c) = Some (S k) /\ us (ms c) (S k) = ULive /\
                (forall i, i <> k -> us (ms c) (S i) <> ULive /\ us (ms c) (S i) <> USubd) /\
                In (S k) (ports (ms c)) /\ owed (ms c) 0 = 0 /\
                credit (ms c) 0 + owed (ms c) (S k) = 1 /\
                (forall i, i <> k -> owed (ms c) (S i) = 0))
     \/
     (exists k rest, stack c = (FlDone, CSub (S k)) :: rest /\ us (ms c) (S k) = USubd /\
                     (forall i, us (ms c) (S i) <> ULive) /\
                     (forall i, i <> k -> us (ms c) (S i) <> USubd) /\
                     In (S k) (ports (ms c)) /\ credit (ms c) 0 = 0 /\
                     (forall i, owed (ms c) i = 0))).
Proof. exact (@flatten_pull_counts p). Qed.
Print Assumptions C14_flatten_pull_counts.

Theorem C14_flatten_pull_token p :
  nsinks p = 1 -> resub p = false -> no_nest p = false ->
  c14 p = true -> pullable p = true -> one_pull p = true -> late_ok p = false ->
  forall c : cfg flatten_op, reach p g_flatten c ->
    sk (ms c) 0 = SLive -> us (ms c) 0 = ULive ->
    credit (ms c) 0 <= 1 /\
    (forall i, owed (ms c) i <= 1) /\
    (forall i j, 0 < owed (ms c) i -> 0 < owed (ms c) j -> i = j) /\
    (forall i, 0 < owed (ms c) i ->
       us (ms c) i = ULive /\ In i (ports (ms c)) /\ credit (ms c) 0 = 0 /\
       npull (ms c) 0 = S (ndata (ms c) 0)) /\
    (0 < credit (ms c) 0 -> npull (ms c) 0 = ndata (ms c) 0 /\ forall i, owed (ms c) i = 0).
Proof. exact (@flatten_pull_token p). Qed.
Print Assumptions C14_flatten_pull_token.

Theorem C14_flatten_pull_quiescent p :
  nsinks p = 1 -> resub p = false -> no_nest p = false ->
  c14 p = true -> pullable p = true -> one_pull p = true -> late_ok p = false ->
  forall c : cfg flatten_op, reach p g_flatten c -> stack c = [] -> sk (ms c) 0 = SLive ->
    us (ms c) 0 = ULive /\
    ((credit (ms c) 0 = 1 /\ npull (ms c) 0 = ndata (ms c) 0 /\ forall i, owed (ms c) i = 0) \/
     (credit (ms c) 0 = 0 /\ npull (ms c) 0 = S (ndata (ms c) 0) /\
      exists i, In i (ports (ms c)) /\ us (ms c) i = ULive /\ owed (ms c) i = 1 /\
                forall j, j <> i -> owed (ms c) j = 0)).
Proof. exact (@flatten_pull_quiescent p). Qed.
Print Assumptions C14_flatten_pull_quiescent.


(** ** demand conservation without the pull regime (Flow_*.v): in EVERY conformant environment - upstreams
    that also emit unasked, sinks that pull as they like - the trace counts of a stage satisfy
    Pulls sent up + data delivered = Pulls received + data received  (take: <=, and = at rest while live),
    the sink is greeted only after the upstream greeted, and at rest a live sink means a live upstream
    (record [stage_flow] of Flow.v) *)
Theorem C14_map_flow (f : val -> val) p :
  nsinks p = 1 -> resub p = false -> no_nest p = false -> c14 p = false -> stage_flow (map_op f) p None.
Proof. exact (@map_stage_flow f p). Qed.
Print Assumptions C14_map_flow.

Theorem C14_scan_flow (r : val -> val -> val) (seed : val) p :
  nsinks p = 1 -> resub p = false -> no_nest p = false -> c14 p = false -> stage_flow (scan_op r seed) p None.
Proof. exact (@scan_stage_flow r seed p). Qed.
Print Assumptions C14_scan_flow.

Theorem C14_filter_flow (cond : val -> bool) p :
  nsinks p = 1 -> resub p = false -> no_nest p = false -> c14 p = false -> stage_flow (filter_op cond) p None.
Proof. exact (@filter_stage_flow cond p). Qed.
Print Assumptions C14_filter_flow.

Theorem C14_skip_flow (n : nat) p :
  nsinks p = 1 -> resub p = false -> no_nest p = false -> c14 p = false -> stage_flow (skip_op n) p None.
Proof. exact (@skip_stage_flow n p). Qed.
Print Assumptions C14_skip_flow.

Theorem C14_take_flow (n : nat) p :
  nsinks p = 1 -> resub p = false -> no_nest p = false -> c14 p = false -> 1 <= n ->
  stage_flow (take_op n) p (Some n).
Proof. exact (@take_stage_flow n p). Qed.
Print Assumptions C14_take_flow.

(** for_each sends exactly one Pull per greeting or datum received *)
Theorem C14_for_each_flow p :
  nsinks p = 1 -> resub p = false -> no_nest p = false -> c14 p = false -> sink_flow for_each_op p.
Proof. exact (@for_each_sink_flow p). Qed.
Print Assumptions C14_for_each_flow.

(** from_iter, when its sink sends at most one Pull per message received: at rest with the sink live,
    Pulls received = data delivered (nothing about [pullable] or the C14 monitor checks is assumed) *)
Theorem C14_from_iter_flow (it : nat -> option val) p :
  nsinks p = 1 -> resub p = false -> no_nest p = true -> c14 p = false -> one_pull p = true ->
  source_flow (from_iter_op it) p.
Proof. exact (@from_iter_source_flow it p). Qed.
Print Assumptions C14_from_iter_flow.

(** ** C14 for PROGRAMS (PullPrograms.v): every linear pipeline from_iter -> map/filter/scan/take/skip stages
    (any length, any closures, take counts >= 1, ANY iterator), under an external sink that sends at most
    one Pull per message it received ([disciplined]), with every pull schedule - top-level or from inside
    the sink's own handlers - and however the internal transfers nest ([preach]) *)

(** the sink of the program never receives more Data than it sent Pulls *)
Theorem C14_program_no_overdata (it : nat -> option val) (stages : list ustage) :
  Forall ustage_ok stages ->
  forall N, preach it stages N ->
  forall n, nth_error (nodes N) (top stages) = Some n -> dout (ntrace n) <= pin (ntrace n).
Proof. exact (@program_no_overdata it stages). Qed.
Print Assumptions C14_program_no_overdata.

(** at rest, towards a live sink, every Pull has been answered by a datum, without further prompting *)
Theorem C14_program_answers (it : nat -> option val) (stages : list ustage) :
  Forall ustage_ok stages ->
  forall N, preach it stages N -> pend N = PIdle -> gst N = [] ->
  forall n, nth_error (nodes N) (top stages) = Some n -> sk (nms n) 0 = SLive ->
    pin (ntrace n) = dout (ntrace n).
Proof. exact (@program_answers it stages). Qed.
Print Assumptions C14_program_answers.

(** the same in the monitor's own counters (the ones OverData / Unanswered read on crate traces) *)
Theorem C14_program_monitor (it : nat -> option val) (stages : list ustage) :
  Forall ustage_ok stages ->
  forall N, preach it stages N ->
  forall n, nth_error (nodes N) (top stages) = Some n ->
    ndata (nms n) 0 <= npull (nms n) 0 /\
    (pend N = PIdle -> gst N = [] -> sk (nms n) 0 = SLive -> npull (nms n) 0 = ndata (nms n) 0).
Proof.
  exact (fun Hok N Hp n Hn =>
    conj (@program_no_overdata_mon it stages Hok N Hp n Hn)
         (fun Hpd Hg Hl => @program_answers_mon it stages Hok N Hp Hpd Hg n Hn Hl)).
Qed.
Print Assumptions C14_program_monitor.

(** the premises are satisfiable: a run with a Pull sent from inside a data delivery stays inside [preach] *)
Theorem C14_program_example :
  preach PullProgramsSanity.pp_it PullProgramsSanity.pp_stages PullProgramsSanity.pp_N /\
  pend PullProgramsSanity.pp_N = PIdle /\ gst PullProgramsSanity.pp_N = [] /\
  PullProgramsSanity.top_view PullProgramsSanity.pp_N = Some (SLive, 2, 2, 2, 2, [VN 3; VN 5]).
Proof.
  exact (conj PullProgramsSanity.pp_preach
          (conj (proj1 PullProgramsSanity.pp_at_rest)
            (conj (proj1 (proj2 PullProgramsSanity.pp_at_rest))
                  (proj1 (proj2 (proj2 PullProgramsSanity.pp_at_rest)))))).
Qed.
Print Assumptions C14_program_example.

(** inside every pipeline under for_each (ClosedDemand.v): at every link, in every state of the run, the
    sink side has never received more Data than it sent Pulls, and it keeps the one-Pull discipline *)
Theorem C14_closed_no_overdata (it : nat -> option val) (stages : list ustage) :
  Forall ustage_ok stages ->
  forall N, crun it stages N ->
  forall i n, i <= length stages -> nth_error (nodes N) i = Some n -> dout (ntrace n) <= pin (ntrace n).
Proof. exact (@closed_no_overdata it stages). Qed.
Print Assumptions C14_closed_no_overdata.

Theorem C14_closed_disciplined (it : nat -> option val) (stages : list ustage) :
  Forall ustage_ok stages ->
  forall N, crun it stages N ->
  forall i n, nth_error (nodes N) i = Some n ->
    nreach1 n /\ credit (nms n) 0 + pin (ntrace n) = hout (ntrace n) + dout (ntrace n).
Proof. exact (@closed_disciplined it stages). Qed.
Print Assumptions C14_closed_disciplined.

(** "... every Pull is answered by a Data or the end WITHOUT FURTHER PROMPTING" (PullReturns.v): over a finite
    input, from every state of a disciplined run the pending internal transfers finish after at most
    [returns_max] steps and the sink has the turn again - however many moves the sink has made before *)
Theorem C14_program_returns (xs : list val) (stages : list ustage) :
  Forall ustage_ok stages ->
  forall N, preach (fun k => nth_error xs k) stages N ->
  exists m, m <= returns_max xs stages /\ pend (taus m N) = PIdle /\
            preach (fun k => nth_error xs k) stages (taus m N).
Proof. exact (@program_returns_list xs stages). Qed.
Print Assumptions C14_program_returns.

(** every node of such a run makes at most [2 |xs| + 5] calls, whatever the sink does *)
Theorem C14_program_calls_bounded (xs : list val) (it : nat -> option val) :
  (forall k, it k = nth_error xs k) -> forall stages, Forall ustage_ok stages ->
  forall N, preach it stages N ->
  forall i n, nth_error (nodes N) i = Some n -> n_call (ntrace n) <= calls_max xs.
Proof. exact (@program_calls_bounded xs it). Qed.
Print Assumptions C14_program_calls_bounded.
