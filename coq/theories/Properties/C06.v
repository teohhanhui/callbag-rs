(** Property C06 - pull pipelines compute the corresponding list function.

    What is proved: (1) [sem] - the list function of a pipeline - is left-to-right application of
    the stages' list functions, as pipe! is; (2) the lazy pull interpreter [run_pipe] (Pipe.v),
    which answers one demand at a time exactly the way a puller drives a chain of pull-driven
    stages, delivers [sem p xs] in order, reaches the end, and advances the input iterator at
    most [length xs + 1] times (explicit demand and fuel bounds); (3) for an unbounded input cut
    by a take, the iterator is advanced at most n times.  What ties this to the crate: the
    correspondence run of every check (real pipelines, for_each and a completion probe, against
    [run_pipe]: arguments of f in order, Iterator::next calls, completion).
    (4) For the callbag models of Ops.v themselves, wired into a net (Chain.v): the safety half for
    pipelines and trees (what has been delivered at rest is the list function of what was consumed),
    and - LivenessG.v - the liveness half for linear pipelines of map/filter/scan/take/skip over a
    finite input: applying for_each makes the net run by itself to rest in a bounded number of
    steps, for_each has then seen the end, and f was called on the list function of the WHOLE input
    ([C06_pipeline_completes]); over any input, unbounded too, the same for a take that follows only
    stages which pass every datum on ([C06_take_stops]).  NOT proved: the liveness half for
    pipelines with concat! or flatten stages, and for unbounded inputs cut by a take that follows a
    filter, skip or take (validated by the correspondence run only) - hence "partial" in the
    manifest. *)
From CB Require Import Pipe PipeCorrect.
From CB Require Import ProofLib Spec.
From CB Require Import Chain Programs Tree TreePrograms TreeFunctional Order_nary Inv_for_each.
From CB Require Import Flow Wire2 LivenessG PipeNetG LivenessNexts.
From CB Require Inv_from_iter.
From Coq Require Import List Arith.
Import ListNotations.

Theorem C06_pipe_is_left_to_right p s l : sem (p ++ [s]) l = sem1 s (sem p l).
Proof. exact (eq_ind_r (fun x => x = sem1 s (sem p l)) eq_refl (fold_left_app (fun acc s => sem1 s acc) p [s] l)). Qed.
Print Assumptions C06_pipe_is_left_to_right.

Theorem C06_run_pipe_correct : forall p xs demands fuel,
  S (length (sem p xs)) <= demands -> fuel_bound p xs <= fuel ->
  exists pos, run_pipe p xs None demands fuel = (sem p xs, pos, true) /\ pos <= S (length xs).
Proof. exact run_pipe_correct_explicit. Qed.
Print Assumptions C06_run_pipe_correct.

Theorem C06_take_stops_unbounded_input : forall p1 n p2 xs base k demands fuel,
  forallb PipeCorrect.oneshot p1 = true -> n <= length xs + k ->
  let p := p1 ++ StTake n :: p2 in
  let xs' := xs ++ seq base k in
  S (length (sem p xs')) <= demands -> fuel_bound p xs' <= fuel ->
  exists pos, run_pipe p xs (Some base) demands fuel = (sem p xs', pos, true) /\ pos <= n.
Proof. exact run_pipe_take_unbounded. Qed.
Print Assumptions C06_take_stops_unbounded_input.

(** ** the composed callbag models (Chain.v, Programs.v): for every pipeline of map/filter/scan/take/skip
    stages of any length over any iterator, wired component to component, in every reachable state in
    which the environment has the turn *)

(** stage k has delivered the list function of the first k stages applied to what from_iter delivered *)
Theorem C06_pipeline_functional it stages b N :
  Forall ustage_ok stages -> net_reach (pipe_net it stages b) N -> pend N = PIdle ->
  forall k nk n0, k <= length stages ->
    nth_error (nodes N) k = Some nk -> nth_error (nodes N) 0 = Some n0 ->
    data_out 0 (ntrace nk) = usem (firstn k stages) (data_out 0 (ntrace n0)).
Proof. exact (@pipeline_functional it stages b N). Qed.
Print Assumptions C06_pipeline_functional.

(** with for_each at the end: f has been called on exactly the list function of what from_iter has
    delivered, in order, and that is the defined prefix of the iterator pulled so far *)
Theorem C06_pipeline_for_each it stages N :
  Forall ustage_ok stages -> net_reach (pipe_net it stages true) N -> pend N = PIdle ->
  forall nf n0,
    nth_error (nodes N) (S (length stages)) = Some nf -> nth_error (nodes N) 0 = Some n0 ->
    user_calls (ntrace nf) = usem stages (data_out 0 (ntrace n0)) /\
    exists pos, map Some (data_out 0 (ntrace n0)) =
                filter (fun r => match r with Some _ => true | None => false end)
                       (map it (seq 0 pos)).
Proof. exact (@pipeline_for_each it stages N). Qed.
Print Assumptions C06_pipeline_for_each.

(** the premises are satisfiable: a five-item pipeline runs by itself to completion *)
Theorem C06_pipeline_example :
  net_all_enabled (pipe_net ex_it ex_stages true) ex_moves_exact = true /\
  pend (net_run (pipe_net ex_it ex_stages true) ex_moves_exact) = PIdle.
Proof. exact ex_pipeline_enabled. Qed.
Print Assumptions C06_pipeline_example.

(** ** programs with concat! stages and trees (TreeFunctional.v): at every idle point of a reachable program net *)

(** a map/filter/scan/take/skip node has delivered its list function of what its child delivered *)
Theorem C06_prog_stage (ts : list tnode) (es : list edge) (N : tnet)
  (Hok : Forall tnode_ok ts) (Hes : edges_okb es (length ts) = true)
  (Hsink : forall e, In e es -> nth_error ts (e_child e) <> Some TSink)
  (Hr : tnet_reach (wiring_of es) (prog_net ts) N) (Hidle : tpend N = PIdle)
  i n s c U :
    nth_error (tnodes N) i = Some n -> nth_error ts i = Some (TStage s) ->
    In (c, i, 0) es -> nth_error (tnodes N) c = Some U ->
    data_out 0 (ntrace n) = usem1 s (data_out 0 (ntrace U)).
Proof. exact (@prog_stage ts es N Hok Hes Hsink Hr Hidle i n s c U). Qed.
Print Assumptions C06_prog_stage.

(** a concat! node has delivered its members' outputs one after the other, in member order (append) *)
Theorem C06_prog_concat (ts : list tnode) (es : list edge) (N : tnet)
  (Hok : Forall tnode_ok ts) (Hes : edges_okb es (length ts) = true)
  (Hsink : forall e, In e es -> nth_error ts (e_child e) <> Some TSink)
  (Hr : tnet_reach (wiring_of es) (prog_net ts) N) (Hidle : tpend N = PIdle)
  i n k (kids : list nat) (Us : list node) :
    nth_error (tnodes N) i = Some n -> nth_error ts i = Some (TConcat k) ->
    length kids = k -> length Us = k ->
    (forall j c U, nth_error kids j = Some c -> nth_error Us j = Some U ->
       In (c, i, j) es /\ nth_error (tnodes N) c = Some U) ->
    data_out 0 (ntrace n) = flat_map (fun U => data_out 0 (ntrace U)) Us.
Proof. exact (@prog_concat ts es N Hok Hes Hsink Hr Hidle i n k kids Us). Qed.
Print Assumptions C06_prog_concat.

(** for_each has called its closure on exactly what its child delivered *)
Theorem C06_prog_sink (ts : list tnode) (es : list edge) (N : tnet)
  (Hok : Forall tnode_ok ts) (Hes : edges_okb es (length ts) = true)
  (Hsink : forall e, In e es -> nth_error ts (e_child e) <> Some TSink)
  (Hr : tnet_reach (wiring_of es) (prog_net ts) N) (Hidle : tpend N = PIdle)
  i n c U :
    nth_error (tnodes N) i = Some n -> nth_error ts i = Some TSink ->
    In (c, i, 0) es -> nth_error (tnodes N) c = Some U ->
    user_calls (ntrace n) = data_out 0 (ntrace U).
Proof. exact (@prog_sink ts es N Hok Hes Hsink Hr Hidle i n c U). Qed.
Print Assumptions C06_prog_sink.

(** from_iter has delivered the defined prefix of its iterator *)
Theorem C06_prog_src (ts : list tnode) (es : list edge) (N : tnet)
  (Hok : Forall tnode_ok ts) (Hes : edges_okb es (length ts) = true)
  (Hsink : forall e, In e es -> nth_error ts (e_child e) <> Some TSink)
  (Hr : tnet_reach (wiring_of es) (prog_net ts) N) (Hidle : tpend N = PIdle)
  i n it :
    nth_error (tnodes N) i = Some n -> nth_error ts i = Some (TSrc it) ->
    exists pos, map Some (data_out 0 (ntrace n)) =
                filter (fun r => match r with Some _ => true | None => false end) (map it (seq 0 pos)).
Proof. exact (@prog_src ts es N Hok Hes Hsink Hr i n it). Qed.
Print Assumptions C06_prog_src.


(** ** "... and then completes without stalling" (LivenessG.v): linear pipelines of map/filter/scan/take/skip
    (take counts >= 1) over any finite input, as nets of the component models *)

(** every message crosses a link exactly once, in order, in both directions (at most one in flight) *)
Theorem C06_wire_faithful (sigs : list (op * mparams * (mstate -> input -> bool)))
  (Hsafe : forall s, In s sigs -> safe_sig s) (Hreg : forall i s, nth_error sigs i = Some s -> regime_ok i s)
  ns N :
    map nsig ns = sigs -> (forall n, In n ns -> ninit n) ->
    net_reach (net0 ns) N -> wire2_ok (nodes N) (pend N).
Proof. exact (@chain_wire2 sigs Hsafe Hreg ns N). Qed.
Print Assumptions C06_wire_faithful.

(** once for_each is applied the net comes to rest by itself, after at most [steps_max stages B] transfers,
    given a bound B on what from_iter delivers; [crun] = the states after that one environment move and
    internal transfers only *)
Theorem C06_pipeline_terminates (it : nat -> option val) (stages : list ustage) :
  Forall ustage_ok stages ->
  forall B, (forall N, crun it stages N -> forall n0, nth_error (nodes N) 0 = Some n0 -> dout (ntrace n0) <= B) ->
  exists m, m <= steps_max stages B /\ crun it stages (taus m (net_step (NP it stages) (kick stages))) /\
            pend (taus m (net_step (NP it stages) (kick stages))) = PIdle.
Proof. exact (@terminates it stages). Qed.
Print Assumptions C06_pipeline_terminates.

(** the pipeline keeps the discipline "one Pull per message received" towards every one of its nodes:
    each node of such a run is reachable in the environment whose sink pulls only when it has credit *)
Theorem C06_all_one_pull (it : nat -> option val) (stages : list ustage) :
  Forall ustage_ok stages ->
  forall N, crun it stages N -> forall i n, nth_error (nodes N) i = Some n -> nreach1 n.
Proof. exact (@all_one_pull it stages). Qed.
Print Assumptions C06_all_one_pull.

(** whenever such a run is at rest - whatever the iterator - for_each has received the end of
    the stream and f has been called on the list function of what from_iter delivered *)
Theorem C06_rest_means_done (it : nat -> option val) (stages : list ustage) :
  Forall ustage_ok stages ->
  forall N, crun it stages N -> pend N = PIdle ->
  forall nf n0, nth_error (nodes N) (LivenessG.last stages) = Some nf -> nth_error (nodes N) 0 = Some n0 ->
    us (nms nf) 0 = UEnded /\ user_calls (ntrace nf) = usem stages (data_out 0 (ntrace n0)).
Proof. exact (@rest_value it stages). Qed.
Print Assumptions C06_rest_means_done.

(** the whole of C06 for these pipelines over a finite input: the run is finite, ends with for_each
    having seen the end, and f has been called on exactly the list function of the whole input, in order *)
Theorem C06_pipeline_completes (it : nat -> option val) (stages : list ustage) :
  Forall ustage_ok stages ->
  forall xs, (forall k, it k = nth_error xs k) ->
  exists m N, m <= steps_max stages (length xs) /\ N = taus m (net_step (NP it stages) (kick stages)) /\
    net_reach (NP it stages) N /\ pend N = PIdle /\ gst N = [] /\
    exists nf, nth_error (nodes N) (LivenessG.last stages) = Some nf /\
      us (nms nf) 0 = UEnded /\ user_calls (ntrace nf) = usem stages xs.
Proof. exact (@pipeline_completes it stages). Qed.
Print Assumptions C06_pipeline_completes.

(** "... so take over an unbounded iterator stops": ANY iterator, a take after stages that pass every
    datum on (map, scan): the run is finite with a bound that depends on the take's count only, next()
    is called at most n times, for_each has seen the end, f was called on the list function of what
    was consumed *)
Theorem C06_take_stops (it : nat -> option val) (stages : list ustage) :
  Forall ustage_ok stages ->
  forall pre post n, stages = pre ++ UTake n :: post -> Forall LivenessG.oneshot pre ->
  exists m N, m <= steps_max stages n /\ N = taus m (net_step (NP it stages) (kick stages)) /\
    net_reach (NP it stages) N /\ pend N = PIdle /\
    exists nf n0, nth_error (nodes N) (LivenessG.last stages) = Some nf /\ nth_error (nodes N) 0 = Some n0 /\
      us (nms nf) 0 = UEnded /\
      user_calls (ntrace nf) = usem stages (data_out 0 (ntrace n0)) /\
      length (Inv_from_iter.nexts (ntrace n0)) <= n.
Proof. exact (@take_stops it stages). Qed.
Print Assumptions C06_take_stops.

(** the same for the first-order stage descriptions the harness builds on the real crate: the
    extracted runner the correspondence check executes returns the list function, completion, rest *)
Theorem C06_net_pipe_run_correct p xs us :
  ustages_of p = Some us ->
  Forall (fun s => match s with StTake n => 1 <= n | _ => True end) p ->
  exists nx, net_pipe_run p xs None (length xs) = Some (sem p xs, nx, true, true).
Proof. exact (@net_pipe_run_correct p xs us). Qed.
Print Assumptions C06_net_pipe_run_correct.

Theorem C06_net_pipe_run_take_stops p1 n p2 xs inf us :
  ustages_of (p1 ++ StTake n :: p2) = Some us ->
  Forall (fun s => match s with StTake k => 1 <= k | _ => True end) (p1 ++ StTake n :: p2) ->
  Forall (fun s => match s with StMap _ _ | StScan _ _ => True | _ => False end) p1 ->
  exists calls nx, net_pipe_run (p1 ++ StTake n :: p2) xs inf n = Some (calls, nx, true, true) /\ nx <= n.
Proof. exact (@net_pipe_run_take_stops p1 n p2 xs inf us). Qed.
Print Assumptions C06_net_pipe_run_take_stops.

Theorem C06_net_pipe_run_example :
  net_pipe_run [StMap 1 1; StFilter 2 0; StTake 2] [1; 2; 3; 4; 5] None 5 = Some ([2; 4], 3, true, true) /\
  net_pipe_run [StMap 2 1; StTake 3] [] (Some 0) 3 = Some ([1; 3; 5], 3, true, true).
Proof. exact (conj net_pipe_run_example net_pipe_run_unbounded_example). Qed.
Print Assumptions C06_net_pipe_run_example.

(** "The iterator is advanced only on demand (once per element delivered plus once to discover
    exhaustion)": in every reachable state of every pipeline, with or without for_each, over any iterator,
    the results of next() so far are exactly the items from_iter delivered, followed by None iff
    from_iter told its sink the end, and there are never more of them than Pulls from_iter received *)
Theorem C06_pipeline_nexts it stages b N :
  Forall ustage_ok stages -> net_reach (pipe_net it stages b) N ->
  forall n0, nth_error (nodes N) 0 = Some n0 ->
    Inv_from_iter.nexts (ntrace n0) =
      map Some (data_out 0 (ntrace n0)) ++
      match sk (nms n0) 0 with SFinished => [None] | _ => [] end /\
    length (Inv_from_iter.nexts (ntrace n0)) <= pin (ntrace n0).
Proof. exact (@pipeline_nexts it stages b N). Qed.
Print Assumptions C06_pipeline_nexts.

Theorem C06_pipeline_nexts_bound (xs : list val) stages b N :
  Forall ustage_ok stages -> net_reach (pipe_net (fun k => nth_error xs k) stages b) N ->
  forall n0, nth_error (nodes N) 0 = Some n0 ->
    length (Inv_from_iter.nexts (ntrace n0)) <= S (length xs).
Proof. exact (@pipeline_nexts_bound xs stages b N). Qed.
Print Assumptions C06_pipeline_nexts_bound.
