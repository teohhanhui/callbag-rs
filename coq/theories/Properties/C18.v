(** Property C18 - fan-in is exactly-once under every thread interleaving.
    Theorems only.  Model: the interleaving semantics of Threads.v (one scheduling point per
    instrumented access and per sink delivery, sequential consistency); [cb_reach]/[mg_reach] close the
    initial state under a step of EVERY thread, i.e. under every schedule, for any queues and endings.
    Tie to the code: real OS threads through the cfg(callbag_verif) hooks under the token-passing
    scheduler, compared event by event with this model on every run.
    combine and merge: proved over all schedules (Inv_threads_combine.v, Inv_threads_merge.v).
    [at_most_one_err n fins] is the property's own quantifier ("at most one member failing"). *)
From CB Require Import Threads ThreadSpec ThreadsFine Inv_threads_combine Inv_threads_merge Inv_threads_fine
  Inv_threads_combine_fine Inv_threads_total Inv_threads_always.

Theorem C18_combine_no_panic (n : nat) (qs : nat -> list val) (fins : nat -> final) :
  1 <= n -> forall s, cb_reach n qs fins s ->
  cbs_panicked s = false /\ existsb is_panic (cbs_tr s) = false
  /\ (forall t, ~ In (t, TPanic) (cbs_tr s)).
Proof. exact (@combine_threads_no_panic n qs fins). Qed.
Print Assumptions C18_combine_no_panic.

Theorem C18_combine_greeted_once (n : nat) (qs : nat -> list val) (fins : nat -> final) :
  1 <= n -> forall s, cb_reach n qs fins s ->
  count is_begin_greet (cbs_tr s) <= 1 /\ before_greet_ok (rev (cbs_tr s)) = true.
Proof. exact (@combine_threads_greet_once n qs fins). Qed.
Print Assumptions C18_combine_greeted_once.

(** only complete tuples made of values actually sent *)
Theorem C18_combine_tuples (n : nat) (qs : nat -> list val) (fins : nat -> final) :
  1 <= n -> forall s, cb_reach n qs fins s ->
  forall t x, In (t, TBegin (DD x)) (cbs_tr s) ->
  exists l, x = VT l /\ length l = n /\ tuple_ok qs 0 l = true.
Proof. exact (@combine_threads_tuples n qs fins). Qed.
Print Assumptions C18_combine_tuples.

(** completion at most once, and it begins when no data delivery is in progress *)
Theorem C18_combine_one_terminal (n : nat) (qs : nat -> list val) (fins : nat -> final) :
  1 <= n -> forall s, cb_reach n qs fins s ->
  count is_begin_term (cbs_tr s) <= 1 /\
  (cbs_nend s = 0 ->
   forall t, t < n -> cb_pcv (cbs_th s t) = CbInTerm \/ cb_pcv (cbs_th s t) = CbFinished) /\
  scan_term (fun _ => false) false (rev (cbs_tr s)) = [] /\
  ~ In TvTermDuringData (scan_term (fun _ => false) false (rev (cbs_tr s))) /\
  ~ In TvAfterTerminal (scan_term (fun _ => false) false (rev (cbs_tr s))).
Proof. exact (@combine_threads_one_terminal n qs fins). Qed.
Print Assumptions C18_combine_one_terminal.

(** once every member thread has finished the whole C18 check accepts the trace *)
Theorem C18_combine_final (n : nat) (qs : nat -> list val) (fins : nat -> final) :
  1 <= n -> forall s, cb_reach n qs fins s ->
  (forall t, t < n -> cb_finished s t = true) -> combine_check n qs fins (rev (cbs_tr s)) = [].
Proof. exact (@combine_threads_final n qs fins). Qed.
Print Assumptions C18_combine_final.

Theorem C18_combine_driver_run n qs fins nth sch fuel :
  1 <= n ->
  let s := run_full (cb_step true n) cb_finished nth sch fuel (cb_init n qs fins) in
  cbs_panicked s = false /\
  ((forall t, t < n -> cb_finished s t = true) -> combine_check n qs fins (rev (cbs_tr s)) = []).
Proof. exact (@combine_threads_run_full_check n qs fins nth sch fuel). Qed.
Print Assumptions C18_combine_driver_run.

(** the code of the pinned tree (count before store) panics under a schedule *)
Theorem C18_combine_unfixed_refuted :
  cbs_panicked refute_final = true /\
  In (1, TPanic) (cbs_tr refute_final) /\
  In TvPanic (combine_check 2 refute_qs refute_fins (rev (cbs_tr refute_final))).
Proof. exact combine_threads_unfixed_refuted. Qed.
Print Assumptions C18_combine_unfixed_refuted.

(** ** merge! *)

Theorem C18_merge_greeted_once (n : nat) (qs : nat -> list val) (fins : nat -> final) :
  1 <= n -> at_most_one_err n fins -> forall s, mg_reach n qs fins s ->
  count is_begin_greet (mgs_tr s) <= 1 /\ before_greet_ok (rev (mgs_tr s)) = true.
Proof. exact (@merge_threads_greet_once n qs fins). Qed.
Print Assumptions C18_merge_greeted_once.

(** every datum exactly once, each member's own order: what a member has delivered followed by what
    is still in its queue is its original queue *)
Theorem C18_merge_exactly_once (n : nat) (qs : nat -> list val) (fins : nat -> final) :
  1 <= n -> at_most_one_err n fins -> forall s t, mg_reach n qs fins s ->
  delivered_by t (rev (mgs_tr s)) ++ mg_q (mgs_th s t) = qs t.
Proof. exact (@merge_threads_delivered n qs fins). Qed.
Print Assumptions C18_merge_exactly_once.

Theorem C18_merge_one_terminal (n : nat) (qs : nat -> list val) (fins : nat -> final) :
  1 <= n -> at_most_one_err n fins -> forall s, mg_reach n qs fins s ->
  count is_begin_term (mgs_tr s) <= 1.
Proof. exact (@merge_threads_one_terminal n qs fins). Qed.
Print Assumptions C18_merge_one_terminal.

(** completion after every data delivery has returned; no data after a terminal message *)
Theorem C18_merge_completion_after_data (n : nat) (qs : nat -> list val) (fins : nat -> final) :
  1 <= n -> at_most_one_err n fins -> forall s, mg_reach n qs fins s ->
  scan_term (fun _ => false) false (rev (mgs_tr s)) = [] /\
  (mgs_endc s = n -> forall t, t < n ->
     mg_pcv (mgs_th s t) = MgInTerm \/ mg_pcv (mgs_th s t) = MgFinished) /\
  (forall t, scan_open (fun _ => false) (rev (mgs_tr s)) t = true <-> mg_pcv (mgs_th s t) = MgInData).
Proof. exact (@merge_threads_completion_after_data n qs fins). Qed.
Print Assumptions C18_merge_completion_after_data.

Theorem C18_merge_no_panic (n : nat) (qs : nat -> list val) (fins : nat -> final) :
  1 <= n -> at_most_one_err n fins -> forall s, mg_reach n qs fins s ->
  existsb is_panic (mgs_tr s) = false.
Proof. exact (@merge_threads_no_panic n qs fins). Qed.
Print Assumptions C18_merge_no_panic.

(** once every member thread has finished the whole C18 check accepts the trace *)
Theorem C18_merge_final (n : nat) (qs : nat -> list val) (fins : nat -> final) :
  1 <= n -> at_most_one_err n fins -> forall s, mg_reach n qs fins s ->
  (forall t, t < n -> mg_finished s t = true) -> merge_check n qs fins (rev (mgs_tr s)) = [].
Proof. exact (@merge_threads_final_n n qs fins). Qed.
Print Assumptions C18_merge_final.

Theorem C18_merge_driver_run n qs fins nth sch fuel :
  1 <= n -> at_most_one_err n fins ->
  let s := run_full (mg_step n) mg_finished nth sch fuel (mg_init n qs fins) in
  (forall t, t < n -> mg_finished s t = true) -> merge_check n qs fins (rev (mgs_tr s)) = [].
Proof. exact (@merge_driver_final n qs fins nth sch fuel). Qed.
Print Assumptions C18_merge_driver_run.

(** ** merge! at the granularity of EVERY shared-state access, the talkback cells included
    (ThreadsFine.v: the model the free-schedule runs of the crate are compared with).  [mf_reach]
    closes the initial state under [mf_step true n s t] for every thread: every schedule. *)

Theorem C18_merge_fine_greeted_once (n : nat) (qs : nat -> list val) (fins : nat -> final) :
  1 <= n -> at_most_one_err n fins -> forall s, mf_reach n qs fins s ->
  count is_begin_greet (mfs_tr s) <= 1 /\ before_greet_ok (rev (mfs_tr s)) = true.
Proof. exact (@fine_greet_once n qs fins). Qed.
Print Assumptions C18_merge_fine_greeted_once.

Theorem C18_merge_fine_exactly_once (n : nat) (qs : nat -> list val) (fins : nat -> final) :
  1 <= n -> at_most_one_err n fins -> forall s, mf_reach n qs fins s ->
  forall t, delivered_by t (rev (mfs_tr s)) ++ mf_q (mfs_th s t) = qs t.
Proof. exact (@fine_delivered n qs fins). Qed.
Print Assumptions C18_merge_fine_exactly_once.

Theorem C18_merge_fine_one_terminal (n : nat) (qs : nat -> list val) (fins : nat -> final) :
  1 <= n -> at_most_one_err n fins -> forall s, mf_reach n qs fins s ->
  count is_begin_term (mfs_tr s) <= 1.
Proof. exact (@fine_one_terminal n qs fins). Qed.
Print Assumptions C18_merge_fine_one_terminal.

(** no completion while a data delivery is in progress and no delivery begins after a terminal message
    began: what the race repaired by 13d4e7e (H10) broke *)
Theorem C18_merge_fine_no_data_after_end (n : nat) (qs : nat -> list val) (fins : nat -> final) :
  1 <= n -> at_most_one_err n fins -> forall s, mf_reach n qs fins s ->
  scan_term (fun _ => false) false (rev (mfs_tr s)) = [].
Proof. exact (@fine_no_data_after_end n qs fins). Qed.
Print Assumptions C18_merge_fine_no_data_after_end.

Theorem C18_merge_fine_no_panic (n : nat) (qs : nat -> list val) (fins : nat -> final) :
  1 <= n -> at_most_one_err n fins -> forall s, mf_reach n qs fins s ->
  existsb is_panic (mfs_tr s) = false.
Proof. exact (@fine_no_panic n qs fins). Qed.
Print Assumptions C18_merge_fine_no_panic.

(** every member's talkback is told to stop at most once, whoever does it (the failing sibling's
    sweep or the member itself when it finds [ended] set after publishing its talkback) *)
Theorem C18_merge_fine_disposed_at_most_once (n : nat) (qs : nat -> list val) (fins : nat -> final) :
  1 <= n -> at_most_one_err n fins -> forall s, mf_reach n qs fins s ->
  forall j, count (is_up_term_of j) (mfs_tr s) <= 1.
Proof. exact (@fine_disposed_at_most_once n qs fins). Qed.
Print Assumptions C18_merge_fine_disposed_at_most_once.

(** once the output has ended and everything is quiet, every other member has been told to stop
    exactly once, or had completed by itself *)
Theorem C18_merge_fine_disposed_exactly_once (n : nat) (qs : nat -> list val) (fins : nat -> final) :
  1 <= n -> at_most_one_err n fins -> forall s, mf_reach n qs fins s ->
  (forall t, t < n -> mf_finished s t = true) -> mfs_ended s = true ->
  forall j, j < n -> (forall e, fins j <> FinErr e) ->
    count (is_up_term_of j) (mfs_tr s) = 1
    \/ (mf_q (mfs_th s j) = [] /\ fins j = FinTerm /\ mfs_stopped s j = false).
Proof. exact (@fine_disposed_exactly_once n qs fins). Qed.
Print Assumptions C18_merge_fine_disposed_exactly_once.

Theorem C18_merge_fine_final (n : nat) (qs : nat -> list val) (fins : nat -> final) :
  1 <= n -> at_most_one_err n fins -> forall s, mf_reach n qs fins s ->
  (forall t, t < n -> mf_finished s t = true) -> merge_check_fine n qs fins (rev (mfs_tr s)) = [].
Proof. exact (@fine_final n qs fins). Qed.
Print Assumptions C18_merge_fine_final.

(** what the driver runs for a script with free=1 *)
Theorem C18_merge_fine_driver_run n qs fins nth sch fuel :
  1 <= n -> at_most_one_err n fins ->
  let s := run_full (mf_step true n) mf_finished nth sch fuel (mf_init true n qs fins) in
  (forall t, t < n -> mf_finished s t = true) -> merge_check_fine n qs fins (rev (mfs_tr s)) = [].
Proof. exact (@fine_driver_final n qs fins nth sch fuel). Qed.
Print Assumptions C18_merge_fine_driver_run.

(** the code before 13d4e7e (the member looks at [ended] first and publishes its talkback afterwards):
    on the witness schedule a datum reaches the sink after the Error *)
Theorem C18_merge_fine_unfixed_refuted :
  let s := run_full (mf_step false 2) mf_finished 2 h10_sched 400 (mf_init false 2 h10_qs h10_fins) in
  (forall t, t < 2 -> mf_finished s t = true) /\
  In TvAfterTerminal (merge_check_fine 2 h10_qs h10_fins (rev (mfs_tr s))).
Proof. exact fine_unfixed_refuted. Qed.
Print Assumptions C18_merge_fine_unfixed_refuted.

(** ** combine! at the granularity of every shared-state access: the member's cell store before
    [n_start.fetch_sub] is one more step that nothing else can see (the stuttering extension of
    ThreadsFine.v, what the driver runs for a combine script with free=1).  Whatever holds of every state
    reachable in the model of Threads.v holds of every state reachable at the finer granularity. *)

Theorem C18_combine_fine_transfer n qs fins (P : cb_state -> Prop) :
  (forall s, cb_reach n qs fins s -> P s) -> forall s, cbf_reach n qs fins s -> P (st_base s).
Proof. exact (@combine_fine_transfer n qs fins P). Qed.
Print Assumptions C18_combine_fine_transfer.

Theorem C18_combine_fine_tuples n qs fins : 1 <= n -> forall s, cbf_reach n qs fins s ->
  forall t x, In (t, TBegin (DD x)) (cbs_tr (st_base s)) ->
  exists l, x = VT l /\ length l = n /\ tuple_ok qs 0 l = true.
Proof. exact (@combine_fine_tuples n qs fins). Qed.
Print Assumptions C18_combine_fine_tuples.

Theorem C18_combine_fine_driver_run n qs fins nth sch fuel : 1 <= n ->
  let s := run_full (stut_step (cb_step true n)) (stut_finished cb_finished) nth sch fuel
             (stut_init (cb_init n qs fins)) in
  cbs_panicked (st_base s) = false /\
  ((forall t, t < n -> stut_finished cb_finished s t = true) ->
   combine_check n qs fins (rev (cbs_tr (st_base s))) = []).
Proof. exact (@combine_fine_driver_run n qs fins nth sch fuel). Qed.
Print Assumptions C18_combine_fine_driver_run.

(** ** "... and completion is delivered": no deadlock, no livelock.  Every run of the driver - ANY schedule
    prefix, then the remaining threads one at a time - finishes every thread within an explicit number of
    steps (combine's [rcu] loop retries only when another thread changed [vals] in between).  Together with
    the [_driver_run] theorems above: the check of the finished trace is empty (for merge: with at most one failing member). *)

Theorem C18_merge_run_total n qs fins nth sch fuel : fuel >= merge_fuel n qs nth ->
  let s := run_full (mg_step n) mg_finished nth sch fuel (mg_init n qs fins) in
  forall t, t < nth -> mg_finished s t = true.
Proof. exact (@merge_run_full_total n qs fins nth sch fuel). Qed.
Print Assumptions C18_merge_run_total.

Theorem C18_merge_fine_run_total n qs fins nth sch fuel : fuel >= merge_fine_fuel n qs nth ->
  let s := run_full (mf_step true n) mf_finished nth sch fuel (mf_init true n qs fins) in
  forall t, t < nth -> mf_finished s t = true.
Proof. exact (@merge_fine_run_full_total n qs fins nth sch fuel). Qed.
Print Assumptions C18_merge_fine_run_total.

Theorem C18_combine_run_total n qs fins nth sch fuel : fuel >= combine_fuel n qs nth ->
  let s := run_full (cb_step true n) cb_finished nth sch fuel (cb_init n qs fins) in
  forall t, t < nth -> cb_finished s t = true.
Proof. exact (@combine_run_full_total n qs fins nth sch fuel). Qed.
Print Assumptions C18_combine_run_total.

Theorem C18_combine_fine_run_total n qs fins nth sch fuel : fuel >= combine_fine_fuel n qs nth ->
  let s := run_full (stut_step (cb_step true n)) (stut_finished cb_finished) nth sch fuel
             (stut_init (cb_init n qs fins)) in
  forall t, t < nth -> stut_finished cb_finished s t = true.
Proof. exact (@combine_fine_run_full_total n qs fins nth sch fuel). Qed.
Print Assumptions C18_combine_fine_run_total.

(** the two halves together, for merge!: whatever the schedule, with enough fuel the run ends and passes the
    whole check (n member threads, at most one failing) *)
Theorem C18_merge_always_passes n qs fins sch fuel :
  1 <= n -> at_most_one_err n fins -> fuel >= merge_fuel n qs n ->
  merge_check n qs fins (rev (mgs_tr (run_full (mg_step n) mg_finished n sch fuel (mg_init n qs fins)))) = [].
Proof. exact (@merge_always_passes n qs fins sch fuel). Qed.
Print Assumptions C18_merge_always_passes.

(** ... and for combine!, any endings *)
Theorem C18_combine_always_passes n qs fins sch fuel :
  1 <= n -> fuel >= combine_fuel n qs n ->
  combine_check n qs fins (rev (cbs_tr (run_full (cb_step true n) cb_finished n sch fuel (cb_init n qs fins)))) = [].
Proof. exact (@combine_always_passes n qs fins sch fuel). Qed.
Print Assumptions C18_combine_always_passes.

(** ... and at the granularity of every access *)
Theorem C18_merge_fine_always_passes n qs fins sch fuel :
  1 <= n -> at_most_one_err n fins -> fuel >= merge_fine_fuel n qs n ->
  merge_check_fine n qs fins
    (rev (mfs_tr (run_full (mf_step true n) mf_finished n sch fuel (mf_init true n qs fins)))) = [].
Proof. exact (@merge_fine_always_passes n qs fins sch fuel). Qed.
Print Assumptions C18_merge_fine_always_passes.
