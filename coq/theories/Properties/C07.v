(** Property C07 - unary operators are incremental list functions
    Theorems only: statement, [exact], [Print Assumptions] (statements restated verbatim from the
    Inv_*.v files where they are proved).  See DESIGN.md section 5 for how each renders the property. *)
From CB Require Import ProofLib Spec MonitorSound Results.
From CB Require Import Inv_relay Inv_take Inv_take_end.

(** at every control point: delivered = map f received *)
Theorem C07_map_functional (f : val -> val) p :
  nsinks p = 1 -> resub p = false -> no_nest p = false -> c14 p = false ->
  forall c : cfg (map_op f), reach p g_std c ->
    data_out 0 (trace c) = map f (data_in 0 (trace c)).
Proof. exact (fun _ _ _ _ c Hr => map_functional Hr). Qed.
Print Assumptions C07_map_functional.

Theorem C07_filter_functional (cond : val -> bool) p :
  nsinks p = 1 -> resub p = false -> no_nest p = false -> c14 p = false ->
  forall c : cfg (filter_op cond),
    reach p g_std c -> data_out 0 (trace c) = filter cond (data_in 0 (trace c)).
Proof. exact (fun _ _ _ _ c Hr => filter_functional Hr). Qed.
Print Assumptions C07_filter_functional.

Theorem C07_scan_functional (reducer : val -> val -> val) (seed : val) p :
  nsinks p = 1 -> resub p = false -> no_nest p = false -> c14 p = false ->
  forall c : cfg (scan_op reducer seed),
    reach p g_std c -> data_out 0 (trace c) = scan_list reducer seed (data_in 0 (trace c)).
Proof. exact (@scan_functional reducer seed p). Qed.
Print Assumptions C07_scan_functional.

Theorem C07_skip_functional (max : nat) p :
  nsinks p = 1 -> resub p = false -> no_nest p = false -> c14 p = false ->
  forall c : cfg (skip_op max),
    reach p g_std c -> data_out 0 (trace c) = skipn max (data_in 0 (trace c)).
Proof. exact (@skip_functional max p). Qed.
Print Assumptions C07_skip_functional.

Theorem C07_take_functional p :
  nsinks p = 1 -> resub p = false -> no_nest p = false -> c14 p = false ->
  forall max, 1 <= max ->
  forall c : cfg (take_op max), reach p g_std c ->
  data_out 0 (trace c) = firstn max (data_in 0 (trace c)).
Proof. exact (@take_functional p). Qed.
Print Assumptions C07_take_functional.

(** take completes the sink and stops upstream right after the nth item *)
Theorem C07_take_complete p :
  nsinks p = 1 -> resub p = false -> no_nest p = false -> c14 p = false ->
  forall max, 1 <= max ->
  forall c : cfg (take_op max), reach p g_std c ->
  ndata (ms c) 0 <= max /\
  (stack c = [] -> max <= ndata (ms c) 0 -> sk (ms c) 0 <> SLive /\ us (ms c) 0 <> ULive).
Proof. exact (@take_complete p). Qed.
Print Assumptions C07_take_complete.

(** sink and upstream end together (paired: SFinished <-> UEnded, SDisposed <-> UStopped) *)
Theorem C07_filter_paired (cond : val -> bool) p :
  nsinks p = 1 -> resub p = false -> no_nest p = false -> c14 p = false ->
  forall c : cfg (filter_op cond), reach p g_std c -> paired (sk (ms c) 0) (us (ms c) 0).
Proof. exact (@filter_paired cond p). Qed.
Print Assumptions C07_filter_paired.

Theorem C07_scan_paired (reducer : val -> val -> val) (seed : val) p :
  nsinks p = 1 -> resub p = false -> no_nest p = false -> c14 p = false ->
  forall c : cfg (scan_op reducer seed), reach p g_std c -> paired (sk (ms c) 0) (us (ms c) 0).
Proof. exact (@scan_paired reducer seed p). Qed.
Print Assumptions C07_scan_paired.

Theorem C07_skip_paired (max : nat) p :
  nsinks p = 1 -> resub p = false -> no_nest p = false -> c14 p = false ->
  forall c : cfg (skip_op max), reach p g_std c -> paired (sk (ms c) 0) (us (ms c) 0).
Proof. exact (@skip_paired max p). Qed.
Print Assumptions C07_skip_paired.

(** take claims its end with [end.swap(true)] on every path (fix 7f77d2f): in the conformant sequential
    environment the flag is unset whenever the source can end, so the end of the source always reaches
    the sink ([paired]); the guard only matters under threads (C19) *)
Theorem C07_take_end_unset_when_source_ends p :
  nsinks p = 1 -> resub p = false -> no_nest p = false -> c14 p = false ->
  forall max, 1 <= max ->
  forall (c : cfg (take_op max)) (m : dmsg),
  reach p g_std c -> (m = DT \/ exists e, m = DE e) ->
  enabled p g_std c (MIn (IDn 0 m)) = true -> tk_end (cst c) = false.
Proof. exact (@take_end_unset_when_source_ends p). Qed.
Print Assumptions C07_take_end_unset_when_source_ends.
