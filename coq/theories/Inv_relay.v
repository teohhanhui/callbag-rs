(** * Inv_relay: map, filter, scan and skip are relays (Unary.v); their protocol safety in
      every regime, and what each computes (C07). *)
From CB Require Export Unary.

Set Implicit Arguments.

Lemma map_relay f : relay (map_op f) (fun _ => True).
Proof.
  constructor.
  - intros s. now exists s, FDone.
  - intros s. now exists s, FDone.
  - intros s v _. exists s, FDone. split; [exact I|]. left. now exists (f v).
  - intros s [|v|e|] Hd; try discriminate; now exists s, FDone.
  - intros s u _. exists s, FDone. now destruct u.
  - intros k s. now exists s.
Qed.

Lemma filter_relay cond : relay (filter_op cond) (fun tb => tb = true).
Proof.
  constructor.
  - intros s. now exists false, FDone.
  - intros s. now exists true, FDone.
  - intros s v ->. exists true, FDone. split; [reflexivity|]. cbn.
    destruct (cond v); [left; now exists v | now right].
  - intros s [|v|e|] Hd; try discriminate; now exists s, FDone.
  - intros s u ->. now exists true, FDone.
  - intros k s. now exists s.
Qed.

Lemma scan_relay r seed : relay (scan_op r seed) (fun _ => True).
Proof.
  constructor.
  - intros s. now exists seed, FDone.
  - intros s. now exists s, FDone.
  - intros s v _. exists (r s v), FDone. split; [exact I|]. left. now exists (r s v).
  - intros s [|v|e|] Hd; try discriminate; now exists s, FDone.
  - intros s u _. exists s, FDone. now destruct u.
  - intros k s. now exists s.
Qed.

Lemma skip_relay max : relay (skip_op max) (fun s => sk_tb s = true).
Proof.
  constructor.
  - intros s. now eexists _, FDone.
  - intros s. now eexists _, FDone.
  - intros s v Hs. cbn -[Nat.ltb]. rewrite Hs. destruct (sk_skipped s <? max).
    + eexists _, FDone. split; [|now right]. reflexivity.
    + exists s, FDone. split; [exact Hs|]. left. now exists v.
  - intros s [|v|e|] Hd; try discriminate; now exists s, FDone.
  - intros s u Hs. exists s, FDone. cbn. now rewrite Hs.
  - intros k s. now exists s.
Qed.

Section Safe.
  Variable p : mparams.
  Variable o : op.
  Variable ready : St o -> Prop.
  Hypothesis R : relay o ready.

  Lemma relay_std : nsinks p = 1 -> resub p = false -> no_nest p = false -> c14 p = false ->
    forall c : cfg o, reach p g_std c -> rinv p ready c.
  Proof. intros H1 _ H3 H4. apply relay_reach; [exact H1 | exact H3 | now apply no_c14 | exact R]. Qed.

  Lemma relay_pull : nsinks p = 1 -> resub p = false -> no_nest p = false ->
    c14 p = true -> pullable p = true -> one_pull p = true ->
    forall c : cfg o, reach p g_std c -> rinv p ready c.
  Proof. intros H1 _ H3 _ H5 H6. apply relay_reach; [exact H1 | exact H3 | auto | exact R]. Qed.

  Lemma rinv_safe c : rinv p ready c -> viols (ms c) = [] /\ dead c = false.
  Proof. intros I. split; [apply (pb_viols (r_base I)) | apply (r_dead I)]. Qed.
End Safe.

Theorem map_safe (f : val -> val) p :
  nsinks p = 1 -> resub p = false -> no_nest p = false -> c14 p = false ->
  forall c : cfg (map_op f), reach p g_std c -> viols (ms c) = [] /\ dead c = false.
Proof. intros H1 H2 H3 H4 c Hr. exact (rinv_safe (relay_std (map_relay f) H1 H2 H3 H4 Hr)). Qed.

(** C14 for map: no over-pull, no unrequested data, no unanswered pull (and
    none of the C01-C05, C17 violations either) in the pull regime *)
Theorem map_safe_pull (f : val -> val) p :
  nsinks p = 1 -> resub p = false -> no_nest p = false ->
  c14 p = true -> pullable p = true -> one_pull p = true ->
  forall c : cfg (map_op f), reach p g_std c -> viols (ms c) = [] /\ dead c = false.
Proof. intros H1 H2 H3 H4 H5 H6 c Hr. exact (rinv_safe (relay_pull (map_relay f) H1 H2 H3 H4 H5 H6 Hr)). Qed.
Print Assumptions map_safe_pull.

(** C07 for map: at every control point the data delivered so far is the
    image under [f] of the data received so far *)
Theorem map_functional (f : val -> val) p (c : cfg (map_op f)) :
  reach p g_std c -> data_out 0 (trace c) = map f (data_in 0 (trace c)).
Proof.
  induction 1 as [|c m Hr IH He]; [reflexivity|].
  rewrite (en_trace _ _ _ _ He), data_out_app, data_in_app, map_app, IH. f_equal.
  destruct m as [[[|s] aux|[|s] u|[|i] [|v|e|]|s]|]; try reflexivity.
  cbn. now destruct (stack c) as [|[k cl] r].
Qed.

Theorem filter_safe (cond : val -> bool) p :
  nsinks p = 1 -> resub p = false -> no_nest p = false -> c14 p = false ->
  forall c : cfg (filter_op cond), reach p g_std c -> viols (ms c) = [] /\ dead c = false.
Proof. intros H1 H2 H3 H4 c Hr. exact (rinv_safe (relay_std (filter_relay cond) H1 H2 H3 H4 Hr)). Qed.
Print Assumptions filter_safe.

Theorem filter_paired (cond : val -> bool) p :
  nsinks p = 1 -> resub p = false -> no_nest p = false -> c14 p = false ->
  forall c : cfg (filter_op cond), reach p g_std c -> paired (sk (ms c) 0) (us (ms c) 0).
Proof. intros H1 H2 H3 H4 c Hr. exact (r_pair (relay_std (filter_relay cond) H1 H2 H3 H4 Hr)). Qed.
Print Assumptions filter_paired.

Theorem filter_safe_pull (cond : val -> bool) p :
  nsinks p = 1 -> resub p = false -> no_nest p = false ->
  c14 p = true -> pullable p = true -> one_pull p = true ->
  forall c : cfg (filter_op cond), reach p g_std c -> viols (ms c) = [] /\ dead c = false.
Proof.
  intros H1 H2 H3 H4 H5 H6 c Hr.
  exact (rinv_safe (relay_pull (filter_relay cond) H1 H2 H3 H4 H5 H6 Hr)).
Qed.
Print Assumptions filter_safe_pull.

(** C07 for filter: at every control point the data delivered so far is the
    sublist satisfying [cond] of the data received so far.  (Holds of the
    model step by step, no invariant needed.) *)
Theorem filter_functional (cond : val -> bool) p (c : cfg (filter_op cond)) :
  reach p g_std c -> data_out 0 (trace c) = filter cond (data_in 0 (trace c)).
Proof.
  induction 1 as [|c m Hr IH He]; [reflexivity|].
  rewrite (en_trace _ _ _ _ He), data_out_app, data_in_app, filter_app, IH. f_equal.
  destruct m as [[[|s] aux|[|s] u|[|i] [|v|e|]|s]|]; cbn;
    try destruct (cond v) eqn:Ecv; try destruct (cst c); cbn; rewrite ?Ecv; try reflexivity.
  all: now destruct (stack c) as [|[k cl] r].
Qed.
Print Assumptions filter_functional.

Theorem scan_safe (reducer : val -> val -> val) (seed : val) p :
  nsinks p = 1 -> resub p = false -> no_nest p = false -> c14 p = false ->
  forall c : cfg (scan_op reducer seed), reach p g_std c -> viols (ms c) = [] /\ dead c = false.
Proof.
  intros H1 H2 H3 H4 c Hr. exact (rinv_safe (relay_std (scan_relay reducer seed) H1 H2 H3 H4 Hr)).
Qed.
Print Assumptions scan_safe.

Theorem scan_paired (reducer : val -> val -> val) (seed : val) p :
  nsinks p = 1 -> resub p = false -> no_nest p = false -> c14 p = false ->
  forall c : cfg (scan_op reducer seed), reach p g_std c -> paired (sk (ms c) 0) (us (ms c) 0).
Proof.
  intros H1 H2 H3 H4 c Hr. exact (r_pair (relay_std (scan_relay reducer seed) H1 H2 H3 H4 Hr)).
Qed.
Print Assumptions scan_paired.

Theorem scan_safe_pull (reducer : val -> val -> val) (seed : val) p :
  nsinks p = 1 -> resub p = false -> no_nest p = false ->
  c14 p = true -> pullable p = true -> one_pull p = true ->
  forall c : cfg (scan_op reducer seed), reach p g_std c -> viols (ms c) = [] /\ dead c = false.
Proof.
  intros H1 H2 H3 H4 H5 H6 c Hr.
  exact (rinv_safe (relay_pull (scan_relay reducer seed) H1 H2 H3 H4 H5 H6 Hr)).
Qed.
Print Assumptions scan_safe_pull.

(** what a relay's state can depend on: no datum arrives before the (only) subscription *)
Lemma sub_no_data p o ready (c : cfg o) s aux :
  nsinks p = 1 -> rinv p ready c -> enabled p g_std c (MIn (ISub s aux)) = true ->
  data_in 0 (trace c) = [].
Proof.
  intros Hns I He. destruct (en_sub_std Hns He) as (-> & _ & _ & Hsub).
  apply (r_nodata I), (pb_subd (r_base I)), Hsub.
Qed.

Section Scan.
  Variable reducer : val -> val -> val.
  Variable seed : val.
  Variable p : mparams.
  Hypothesis Hns : nsinks p = 1.
  Hypothesis Hnonest : no_nest p = false.
  Hypothesis Hreg : c14 p = true -> pullable p = true /\ one_pull p = true.
  Notation o := (scan_op reducer seed).

  (** the accumulator cell is the fold of the data received so far (the cell is updated
      before the new value is sent), and what was sent are the intermediate folds *)
  Lemma scan_fold (c : cfg o) :
    reach p g_std c ->
    cst c = fold_left reducer (data_in 0 (trace c)) seed /\
    data_out 0 (trace c) = scan_list reducer seed (data_in 0 (trace c)).
  Proof.
    induction 1 as [|c m Hr [Ha IH] He]; [now split|].
    pose proof (relay_reach Hns Hnonest Hreg (scan_relay reducer seed) Hr) as I.
    pose proof (en_step He) as S.
    rewrite (st_cst S), (stepped_trace S), data_out_app, data_in_app, scan_list_app, fold_left_app,
      IH, <- Ha.
    destruct m as [[[|s] aux|[|s] u|[|i] [|v|e|]|s]|]; cbn; rewrite ?app_nil_r; auto.
    - now rewrite Ha, (sub_no_data _ _ Hns I He).
    - destruct (stack c) as [|[k cl] r]; cbn; now rewrite ?app_nil_r.
  Qed.
End Scan.

(** C07 for scan: at every control point the data delivered so far is the
    running fold of the data received so far *)
Theorem scan_functional (reducer : val -> val -> val) (seed : val) p :
  nsinks p = 1 -> resub p = false -> no_nest p = false -> c14 p = false ->
  forall c : cfg (scan_op reducer seed),
    reach p g_std c -> data_out 0 (trace c) = scan_list reducer seed (data_in 0 (trace c)).
Proof.
  intros H1 _ H3 H4 c Hr.
  exact (proj2 (scan_fold H1 H3 (no_c14 H4) Hr)).
Qed.
Print Assumptions scan_functional.

Theorem skip_safe (max : nat) p :
  nsinks p = 1 -> resub p = false -> no_nest p = false -> c14 p = false ->
  forall c : cfg (skip_op max), reach p g_std c -> viols (ms c) = [] /\ dead c = false.
Proof. intros H1 H2 H3 H4 c Hr. exact (rinv_safe (relay_std (skip_relay max) H1 H2 H3 H4 Hr)). Qed.
Print Assumptions skip_safe.

Theorem skip_paired (max : nat) p :
  nsinks p = 1 -> resub p = false -> no_nest p = false -> c14 p = false ->
  forall c : cfg (skip_op max), reach p g_std c -> paired (sk (ms c) 0) (us (ms c) 0).
Proof. intros H1 H2 H3 H4 c Hr. exact (r_pair (relay_std (skip_relay max) H1 H2 H3 H4 Hr)). Qed.
Print Assumptions skip_paired.

Theorem skip_safe_pull (max : nat) p :
  nsinks p = 1 -> resub p = false -> no_nest p = false ->
  c14 p = true -> pullable p = true -> one_pull p = true ->
  forall c : cfg (skip_op max), reach p g_std c -> viols (ms c) = [] /\ dead c = false.
Proof.
  intros H1 H2 H3 H4 H5 H6 c Hr.
  exact (rinv_safe (relay_pull (skip_relay max) H1 H2 H3 H4 H5 H6 Hr)).
Qed.
Print Assumptions skip_safe_pull.

Section Skip.
  Variable max : nat.
  Variable p : mparams.
  Hypothesis Hns : nsinks p = 1.
  Hypothesis Hnonest : no_nest p = false.
  Hypothesis Hreg : c14 p = true -> pullable p = true /\ one_pull p = true.
  Notation o := (skip_op max).

  (** the counter cell counts the data received so far, up to [max]; what was sent is the rest *)
  Lemma skip_count (c : cfg o) :
    reach p g_std c ->
    sk_skipped (cst c) = Nat.min max (length (data_in 0 (trace c))) /\
    data_out 0 (trace c) = skipn max (data_in 0 (trace c)).
  Proof.
    induction 1 as [|c m Hr [Ha IH] He]; [split; [now rewrite Nat.min_0_r | now rewrite skipn_nil]|].
    pose proof (relay_reach Hns Hnonest Hreg (skip_relay max) Hr) as I.
    pose proof (en_step He) as S.
    rewrite (st_cst S), (stepped_trace S), data_out_app, data_in_app, IH.
    assert (Hlt : (sk_skipped (cst c) <? max) = (length (data_in 0 (trace c)) <? max)).
    { rewrite Ha. destruct (Nat.ltb_spec (length (data_in 0 (trace c))) max) as [L|L];
        [apply Nat.ltb_lt | apply Nat.ltb_ge]; lia. }
    destruct m as [[[|s] aux|[|s] u|[|i] [|v|e|]|s]|]; cbn -[Nat.ltb];
      try destruct (sk_skipped (cst c) <? max) eqn:Elt; try destruct (sk_tb (cst c));
      cbn -[Nat.ltb]; rewrite ?app_nil_r; auto.
    all: try (rewrite (sub_no_data _ _ Hns I He); now rewrite Nat.min_0_r).
    all: try (destruct (stack c) as [|[k cl] r]; cbn; now rewrite ?app_nil_r).
    all: rewrite skipn_snoc, <- Hlt, app_length; cbn; rewrite ?app_nil_r; split; auto.
    all: (apply Nat.ltb_lt in Elt || apply Nat.ltb_ge in Elt); lia.
  Qed.
End Skip.

(** C07 for skip: at every control point the data delivered so far is the
    data received so far without its first [max] items *)
Theorem skip_functional (max : nat) p :
  nsinks p = 1 -> resub p = false -> no_nest p = false -> c14 p = false ->
  forall c : cfg (skip_op max),
    reach p g_std c -> data_out 0 (trace c) = skipn max (data_in 0 (trace c)).
Proof.
  intros H1 _ H3 H4 c Hr.
  exact (proj2 (skip_count H1 H3 (no_c14 H4) Hr)).
Qed.
Print Assumptions skip_functional.
