(** * Flow_take: the flow facts (Flow.v, record [stage_flow]) of take(n).

    What is special about take: a Pull that arrives once [tk_taken = n] is swallowed and a datum
    that arrives then is dropped, so demand is only conserved while [tk_taken < n]; and take ends
    the stream by itself after the n-th datum.  The protocol part (which phases (sk, us) there
    are, what the stack looks like in each) is [Inv_take.take_reach]; this file adds the counts. *)

From CB Require Import Unary Flow FlowGeneric Inv_take.
From CB Require Import MonitorFacts.

Set Implicit Arguments.

Section TakeFlow.
  Variable max : nat.
  Hypothesis Hmax : 1 <= max.
  Variable p : mparams.
  Hypothesis Hns : nsinks p = 1.
  Hypothesis Hresub : resub p = false.
  Hypothesis Hnonest : no_nest p = false.
  Hypothesis Hreg : c14 p = true -> pullable p = true /\ one_pull p = true.
  Notation o := (take_op max).

  Lemma dout_taken (c : cfg o) : reach p g_std c -> dout (trace c) = tk_taken (cst c).
  Proof.
    intros Hr. destruct (take_count Hmax Hns Hnonest Hreg Hr) as [Hlen Hout].
    now rewrite dout_data_out, Hout, firstn_length, Hlen.
  Qed.

  (** under [one_pull] the monitor's credit is exactly greetings + data - Pulls received
      ([credit_exact]), so the Pulls received are bounded by the messages delivered to the sink *)
  Lemma pin_le_taken (c : cfg o) :
    one_pull p = true -> reach p g_std c -> pin (trace c) <= 1 + tk_taken (cst c).
  Proof.
    intros Hone Hr. pose proof (credit_exact Hone Hr) as Hcr.
    assert (Hg : hout (trace c) <= 1).
    { apply (@greet_once p o g_std c); auto.
      intros c' Hr'. exact (inv_safe (take_reach Hmax Hns Hnonest Hreg Hr')). }
    rewrite (dout_taken Hr) in Hcr. lia.
  Qed.

  (** What each activation adds to the counts: demand is never invented and, while the quota is
      not full, never swallowed or dropped; the sink is greeted after the upstream greeted; a
      Pull sent up is a Pull received, and it is only sent while [tk_taken < max], when under
      [one_pull] at most [tk_taken] Pulls had been received before it. *)
  Lemma take_counts (c : cfg o) :
    reach p g_std c ->
    (one_pull p = true -> pout (trace c) <= max) /\
    pout (trace c) + dout (trace c) <= pin (trace c) + din (trace c) /\
    (tk_taken (cst c) < max ->
     pout (trace c) + dout (trace c) = pin (trace c) + din (trace c)) /\
    hout (trace c) <= hin (trace c) /\
    pout (trace c) <= pin (trace c).
  Proof.
    induction 1 as [|c m Hr (Imax & Ile & Ieq & Igr & Ipp) He]; [cbn; lia|].
    pose proof (fun H => pin_le_taken H (reachS m Hr He)) as Hpin.
    pose proof (take_reach Hmax Hns Hnonest Hreg Hr) as HI.
    pose proof (i_dead (take_reach Hmax Hns Hnonest Hreg (reachS m Hr He))) as Hd'.
    pose proof (enabled_live _ _ _ _ He) as Hlive.
    destruct m as [inp|].
    - pose proof (enabled_deliverable _ _ _ _ He) as Hdel.
      destruct (handle o inp (cst c)) as [[s' os] a] eqn:Hh.
      destruct (en_step_in _ _ _ _ He Hh) as (Ec & _ & _ & Ed). rewrite Hd' in Ed.
      rewrite Ec, (step_in_trace p c inp Hlive Hdel Hh), ?pin_step, ?pout_step, ?din_step,
        ?dout_step, ?hin_step, ?hout_step in *. clear Ec.
      assert (Ht0 : forall s aux, inp = ISub s aux -> tk_taken (cst c) = 0).
      { intros s aux ->. apply (en_sub_take Hns HI He). }
      destruct inp as [[|s] aux|[|s] [|e|]|[|i] [|v|e|]|s]; cbn -[Nat.ltb] in Hh; split_ifs Hh;
        ltb_props; injection Hh as ? ? ?; subst s' os a; try discriminate Ed;
        try specialize (Ht0 _ _ eq_refl); cbn in Hpin |- *;
        (split; [intros Ho; specialize (Hpin Ho); specialize (Imax Ho)|]; lia).
    - destruct (enabled_ret_stack _ _ _ He) as (k & cl & rest & Hst).
      destruct (resume o k (cst c)) as [[s' os] a] eqn:Hres.
      destruct (en_step_ret _ _ _ He Hst Hres) as (Ec & _ & _ & Ed). rewrite Hd' in Ed.
      rewrite Ec, (step_ret_trace p c Hlive Hst Hres), ?pin_step, ?pout_step, ?din_step,
        ?dout_step, ?hin_step, ?hout_step in *. clear Ec.
      destruct k as [|t|]; cbn in Hres; split_ifs Hres; injection Hres as ? ? ?; subst s' os a;
        try discriminate Ed; cbn in Hpin |- *;
        (split; [intros Ho; specialize (Hpin Ho); specialize (Imax Ho)|]; lia).
  Qed.

  Lemma take_calls : calls_sat port0 o.
  Proof.
    split.
    - intros i s s' os cl k Hh.
      destruct i as [[|j] aux|[|j] [|e|]|[|j] [|v|e|]|j]; cbn -[Nat.ltb] in Hh;
        split_ifs Hh; inversion Hh; subst; unfold port0; eauto.
    - intros fr s s' os cl k Hh.
      destruct fr as [|t|]; cbn in Hh; split_ifs Hh; inversion Hh; subst; unfold port0; eauto.
  Qed.

  Lemma take_subs_up : subs_up o.
  Proof. intros aux s. now eexists _, [], TkDone. Qed.

  Theorem take_stage_flow_all : stage_flow o p (Some max).
  Proof.
    constructor.
    - intros c Hr. apply (take_counts Hr).
    - intros c Hr Hst Hsk. apply (take_counts Hr).
      pose proof (i_phase (take_reach Hmax Hns Hnonest Hreg Hr)) as HP. rewrite Hst, Hsk in HP.
      apply (phase_rest_live max _ _ HP).
    - intros c Hr. apply (take_counts Hr).
    - intros c Hr _ Hsb Hsk.
      pose proof (i_phase (take_reach Hmax Hns Hnonest Hreg Hr)) as HP. rewrite Hsk in HP.
      destruct (phase_none max _ _ _ HP) as [E|E]; [|exact E].
      destruct (subd_us take_subs_up Hr Hsb E).
    - intros c Hr Hst Hsk.
      pose proof (i_phase (take_reach Hmax Hns Hnonest Hreg Hr)) as HP. rewrite Hst, Hsk in HP.
      apply (phase_rest_live max _ _ HP).
    - intros c Hr _ Hsk.
      pose proof (i_phase (take_reach Hmax Hns Hnonest Hreg Hr)) as HP. rewrite Hsk in HP.
      destruct (us (ms c) 0); cbn in HP; try tauto.
      right. exists max. split; [reflexivity|]. rewrite (dout_taken Hr). apply HP.
    - exact take_calls.
  Qed.
End TakeFlow.

Theorem take_stage_flow (n : nat) p :
  nsinks p = 1 -> resub p = false -> no_nest p = false -> c14 p = false -> 1 <= n ->
  stage_flow (take_op n) p (Some n).
Proof.
  intros H1 H2 H3 H4 Hn. exact (take_stage_flow_all Hn p H1 H2 H3 (no_c14 H4)).
Qed.
Print Assumptions take_stage_flow.
