(** * Bcast_merge_combine: what one sink activation of merge! / combine! DOES (C08, C10).

    The invariant theorems (Inv_merge.v, Inv_combine.v) bound what can never happen.  The
    clauses proved here are the "completeness" halves of C08 and C10:

    - merge: a sink Pull (Terminate, Error) is forwarded to exactly the members that have
      greeted and not ended, once each, in index order;
    - combine: a sink Pull (Terminate, Error) is forwarded to EVERY member 0..n-1, once each, in
      index order (also to members that have ended: known finding KF2);
    - combine: a member datum produces exactly one tuple if every other member already has a
      value, and nothing otherwise.

    The broadcast theorems are stated for the passive continuation of Passive.v: after the
    input, every pending call of the component is answered by a plain return ([drain]). *)
From CB Require Import ProofLib Spec CountFacts Passive.
From CB Require Inv_merge Inv_combine MonitorSound.

Set Implicit Arguments.

Lemma forallb_false_ex A (f : A -> bool) l :
  forallb f l = false -> exists x, In x l /\ f x = false.
Proof.
  induction l as [|x l IH]; cbn; [discriminate|]. destruct (f x) eqn:E; cbn.
  - intros H. destruct (IH H) as (y & Hy & Hf). exists y. split; [now right|exact Hf].
  - intros _. exists x. split; [now left|exact E].
Qed.

(** a sink message at top level of a live sink: enabled unless it is a Pull that the
    [one_pull] discipline forbids *)
Lemma enabled_up_top p o (c : cfg o) u :
  dead c = false -> stack c = [] -> sk (ms c) 0 = SLive ->
  (u = UP -> one_pull p = false \/ 0 < credit (ms c) 0) ->
  enabled p g_std c (MIn (IUp 0 u)) = true.
Proof.
  intros Hd Hs Hsk Hu. unfold enabled, top_peer_is. rewrite Hd, Hs, Hsk.
  change (g_std (ms c) (IUp 0 u)) with true. cbn [negb andb].
  destruct u as [|e|]; try reflexivity.
  destruct (Hu eq_refl) as [H|H]; [now rewrite H|].
  apply Nat.ltb_lt in H. rewrite H. apply orb_true_r.
Qed.

(** what the broadcast theorems conclude: the passive continuation of the sink message [u]
    is back at top level after exactly the calls [CUp j u] for [j] in [l]; [R] says when it
    lies within the conformant environment *)
Definition broadcast p o (c : cfg o) (u : umsg) (l : list nat) (R : cfg o -> Prop) : Prop :=
  exists fuel,
    let c' := drain p fuel (step p c (MIn (IUp 0 u))) in
    stack c' = [] /\
    exists evs, trace c' = trace c ++ evs /\
      calls_of evs = map (fun j => CUp j u) l /\ R c'.

(** the handler's part: the activation of [IUp 0 u] runs through the members [l] *)
Lemma up_broadcast p o (c : cfg o) u l s' :
  dead c = false -> stack c = [] -> sk (ms c) 0 = SLive -> reach p g_std c ->
  runs o (handle o (IUp 0 u) (cst c)) (map (fun j => CUp j u) l) s' ->
  broadcast p c u l (fun c' => enabled p g_std c (MIn (IUp 0 u)) = true -> reach p g_std c').
Proof.
  intros Hd Hst Hsk Hre Hr.
  assert (Hdel : deliverable (ms c) (IUp 0 u) = true) by (cbn; now rewrite Hsk).
  destruct (@drain_input p o g_std c (IUp 0 u) _ _ Hd Hdel Hst Hr) as (H1 & _ & _ & (evs & H2 & H3) & H4).
  eexists. cbv zeta. split; [exact H1|]. exists (EIn (IUp 0 u) :: evs).
  split; [exact H2|]. split; [exact H3|now apply H4].
Qed.

(** a message other than a Pull is always one the sink may send; so is a Pull unless the
    sink is held to one Pull per message *)
Lemma broadcast_reach p o (c : cfg o) u l :
  dead c = false -> stack c = [] -> sk (ms c) 0 = SLive -> (u = UP -> one_pull p = false) ->
  broadcast p c u l (fun c' => enabled p g_std c (MIn (IUp 0 u)) = true -> reach p g_std c') ->
  broadcast p c u l (reach p g_std).
Proof.
  intros Hd Hst Hsk Hu (fuel & H1 & evs & H2 & H3 & H4).
  exists fuel. cbv zeta. split; [exact H1|]. exists evs. split; [exact H2|]. split; [exact H3|].
  apply H4, enabled_up_top; auto.
Qed.

Section MergeBcast.
  Variable n : nat.
  Hypothesis Hn : 1 <= n.
  Variable p : mparams.
  Hypothesis Hns : nsinks p = 1.
  Hypothesis Hresub : resub p = false.
  Hypothesis Hnonest : no_nest p = false.
  Hypothesis Hc14 : c14 p = false.
  Notation o := (merge_op n).

  (** the broadcast loop (src/merge.rs:121) from slot [j].  Taking the talkback of member
      [j'] out of its cell does not change which of the later members the loop will reach:
      they are those whose slot was set when the broadcast started. *)
  Lemma mg_bcast_runs u : forall d j s,
    n - j <= d -> negb (umsg_is_term u) && mg_ended s = false ->
    exists s', runs o (mg_bcast n u j s)
                 (map (fun k => CUp k u) (filter (mg_tbs s) (seq j (n - j)))) s'.
  Proof.
    induction d as [|d IH]; intros j s Hd Hg; unfold mg_bcast; rewrite Hg;
      (destruct (find_from (mg_tbs s) j (n - j)) as [j'|] eqn:Ef;
       [destruct (find_from_some _ _ _ Ef) as (Hj1 & Hj2 & _ & _)
       |rewrite (filter_find_none _ _ _ Ef); exists s; reflexivity]); [lia|].
    rewrite (filter_find_some _ _ _ Ef).
    set (s1 := Inv_merge.clrif u s j').
    destruct (IH (S j') s1) as [s' Hr]; [lia|unfold s1, Inv_merge.clrif; now destruct (umsg_is_term u)|].
    exists s'. split; [exact I|]. exists (MgBcast u (S j')), s1. split; [reflexivity|].
    replace (j + (n - j) - S j') with (n - S j') by lia.
    erewrite filter_ext_in; [exact Hr|]. intros a Ha. apply in_seq in Ha.
    unfold s1, Inv_merge.clrif. destruct (umsg_is_term u); [|reflexivity].
    symmetry. apply upd_other. lia.
  Qed.

  Definition livef (c : cfg o) (j : nat) : bool :=
    match us (ms c) j with ULive => true | _ => false end.

  (** any sink message [u] at top level, sink live *)
  Lemma mg_up_broadcast u (c : cfg o) :
    reach p g_std c -> stack c = [] -> sk (ms c) 0 = SLive ->
    broadcast p c u (filter (livef c) (seq 0 n))
              (fun c' => enabled p g_std c (MIn (IUp 0 u)) = true -> reach p g_std c').
  Proof.
    intros Hre Hst Hsk.
    pose proof (Inv_merge.inv_reach Hn Hns Hresub Hnonest Hc14 Hre) as HI.
    pose proof (Inv_merge.i_core HI) as HC.
    destruct (Inv_merge.shape_sink (Inv_merge.i_shape HI)) as [_ Hq];
      [rewrite Hst; reflexivity|exact Hsk|].
    pose proof (Inv_merge.sink_live_facts HC Hq Hsk) as Hend.
    destruct (@mg_bcast_runs u n 0 (Inv_merge.endif u (cst c))) as [s' Hr];
      [lia|unfold Inv_merge.endif; destruct (umsg_is_term u); [reflexivity|exact Hend]|].
    apply (@up_broadcast p o c u _ s' (Inv_merge.i_dead HI) Hst Hsk Hre).
    replace (filter (livef c) (seq 0 n))
      with (filter (mg_tbs (Inv_merge.endif u (cst c))) (seq 0 (n - 0))); [exact Hr|].
    rewrite Nat.sub_0_r. apply filter_ext_in. intros a Ha. apply in_seq in Ha. unfold livef.
    replace (mg_tbs (Inv_merge.endif u (cst c)) a) with (mg_tbs (cst c) a)
      by (unfold Inv_merge.endif; now destruct (umsg_is_term u)).
    destruct (mg_tbs (cst c) a) eqn:Et.
    - rewrite (Inv_merge.c_tb_live HC Hend); [reflexivity|lia|exact Et].
    - destruct (us (ms c) a) eqn:Eu; try reflexivity.
      rewrite (Inv_merge.c_live_tb HC _ Eu) in Et. discriminate.
  Qed.

  Lemma mg_up_broadcast_reach u (c : cfg o) :
    (u = UP -> one_pull p = false) ->
    reach p g_std c -> stack c = [] -> sk (ms c) 0 = SLive ->
    broadcast p c u (filter (livef c) (seq 0 n)) (reach p g_std).
  Proof.
    intros Hu Hre Hst Hsk. apply broadcast_reach; auto; [|now apply mg_up_broadcast].
    exact (Inv_merge.i_dead (Inv_merge.inv_reach Hn Hns Hresub Hnonest Hc14 Hre)).
  Qed.
End MergeBcast.

(** regime of [merge_safe] *)

(** C08 for a Pull: exactly the members that have greeted and not ended get the Pull, once
    each, in index order, and control is back at top level.  The final conjunct
    [reach p g_std c'] is guarded by the Pull being a move of the conformant environment: in
    the regime of [merge_safe] the field [one_pull p] is unconstrained; with
    [one_pull p = true] a sink that has no credit left may not pull
    ([pull_not_enabled_example] below), and the unguarded conjunct is false
    ([merge_pull_broadcast_unguarded_false] below).  [merge_pull_broadcast] is the unguarded
    statement under the extra hypothesis [one_pull p = false]. *)
Theorem merge_pull_broadcast_partial p n :
  nsinks p = 1 -> resub p = false -> no_nest p = false -> c14 p = false -> late_ok p = true ->
  1 <= n ->
  forall c : cfg (merge_op n), reach p g_std c -> stack c = [] -> sk (ms c) 0 = SLive ->
  exists fuel,
    let c' := drain p fuel (step p c (MIn (IUp 0 UP))) in
    stack c' = [] /\
    exists evs, trace c' = trace c ++ evs /\
      calls_of evs = map (fun j => CUp j UP)
                         (filter (fun j => match us (ms c) j with ULive => true | _ => false end)
                                 (seq 0 n)) /\
      (enabled p g_std c (MIn (IUp 0 UP)) = true -> reach p g_std c').
Proof.
  intros H1 H2 H3 H4 _ Hn c Hre Hst Hsk.
  exact (@mg_up_broadcast n Hn p H1 H2 H3 H4 UP c Hre Hst Hsk).
Qed.
Print Assumptions merge_pull_broadcast_partial.

Theorem merge_pull_broadcast p n :
  nsinks p = 1 -> resub p = false -> no_nest p = false -> c14 p = false -> late_ok p = true ->
  one_pull p = false ->
  1 <= n ->
  forall c : cfg (merge_op n), reach p g_std c -> stack c = [] -> sk (ms c) 0 = SLive ->
  exists fuel,
    let c' := drain p fuel (step p c (MIn (IUp 0 UP))) in
    stack c' = [] /\
    exists evs, trace c' = trace c ++ evs /\
      calls_of evs = map (fun j => CUp j UP)
                         (filter (fun j => match us (ms c) j with ULive => true | _ => false end)
                                 (seq 0 n)) /\
      reach p g_std c'.
Proof.
  intros H1 H2 H3 H4 _ H6 Hn c Hre Hst Hsk.
  exact (@mg_up_broadcast_reach n Hn p H1 H2 H3 H4 UP c (fun _ => H6) Hre Hst Hsk).
Qed.
Print Assumptions merge_pull_broadcast.

(** C08: a sink Terminate or Error (the crate treats them alike) tells every live member to
    stop, exactly once each, in index order *)
Theorem merge_stop_broadcast p n u :
  umsg_is_term u = true ->
  nsinks p = 1 -> resub p = false -> no_nest p = false -> c14 p = false -> late_ok p = true ->
  1 <= n ->
  forall c : cfg (merge_op n), reach p g_std c -> stack c = [] -> sk (ms c) 0 = SLive ->
  broadcast p c u (filter (fun j => match us (ms c) j with ULive => true | _ => false end)
                          (seq 0 n)) (reach p g_std).
Proof.
  intros Hu H1 H2 H3 H4 _ Hn c. apply (@mg_up_broadcast_reach n Hn p H1 H2 H3 H4 u c).
  intros ->. discriminate Hu.
Qed.

Theorem merge_term_broadcast p n :
  nsinks p = 1 -> resub p = false -> no_nest p = false -> c14 p = false -> late_ok p = true ->
  1 <= n ->
  forall c : cfg (merge_op n), reach p g_std c -> stack c = [] -> sk (ms c) 0 = SLive ->
  exists fuel,
    let c' := drain p fuel (step p c (MIn (IUp 0 UT))) in
    stack c' = [] /\
    exists evs, trace c' = trace c ++ evs /\
      calls_of evs = map (fun j => CUp j UT)
                         (filter (fun j => match us (ms c) j with ULive => true | _ => false end)
                                 (seq 0 n)) /\
      reach p g_std c'.
Proof. exact (@merge_stop_broadcast p n UT eq_refl). Qed.
Print Assumptions merge_term_broadcast.

Theorem merge_error_broadcast p n e :
  nsinks p = 1 -> resub p = false -> no_nest p = false -> c14 p = false -> late_ok p = true ->
  1 <= n ->
  forall c : cfg (merge_op n), reach p g_std c -> stack c = [] -> sk (ms c) 0 = SLive ->
  exists fuel,
    let c' := drain p fuel (step p c (MIn (IUp 0 (UE e)))) in
    stack c' = [] /\
    exists evs, trace c' = trace c ++ evs /\
      calls_of evs = map (fun j => CUp j (UE e))
                         (filter (fun j => match us (ms c) j with ULive => true | _ => false end)
                                 (seq 0 n)) /\
      reach p g_std c'.
Proof. exact (@merge_stop_broadcast p n (UE e) eq_refl). Qed.
Print Assumptions merge_error_broadcast.


(** *** Why the Pull theorem carries a guard: with [one_pull p = true] (which the regime of
    [merge_safe] allows) a sink that has used up its credit may not pull.  The script below is
    enabled move by move, ends at top level with a live sink, and the Pull is not enabled
    there; since the trace records every move, no other script leads to the configuration the
    Pull produces, so the unguarded conjunct [reach p g_std c'] fails for it. *)
Definition p_merge_onepull : mparams :=
  {| nsinks := 1; late_ok := true; pullable := false; one_pull := true;
     resub := false; no_nest := false; c14 := false |}.

Definition script_nocredit : list move :=
  [MIn (ISub 0 0); MIn (IDn 0 DH); MRet; MRet; MIn (IUp 0 UP); MRet].

Example pull_not_enabled_example :
  let c := run p_merge_onepull (merge_op 1) script_nocredit in
  all_enabled p_merge_onepull g_std (cfg0 (merge_op 1)) script_nocredit = true /\
  stack c = [] /\ sk (ms c) 0 = SLive /\ credit (ms c) 0 = 0 /\
  enabled p_merge_onepull g_std c (MIn (IUp 0 UP)) = false.
Proof. vm_compute. repeat split; reflexivity. Qed.

(** the same, machine-checked: under [one_pull p = true] every Pull in the trace of a reachable
    configuration was sent with credit left, hence the configuration the passive continuation
    of that Pull ends in is NOT reachable - the statement of [merge_pull_broadcast] without
    the hypothesis [one_pull p = false] is false of the model *)
Section PullCredit.
  Variable p : mparams.
  Variable o : op.
  Variable g : mstate -> input -> bool.
  Hypothesis Hone : one_pull p = true.

  Lemma reach_pull_credit (c : cfg o) :
    reach p g c ->
    forall pre s post, trace c = pre ++ EIn (IUp s UP) :: post ->
                       0 < credit (mon_trace p pre) s.
  Proof.
    induction 1 as [|c m Hc IH He]; intros pre s post E.
    - destruct pre; discriminate E.
    - destruct (@MonitorSound.enabled_step_trace p o g c m He) as [h [rest [Et [Hrest Hh]]]].
      rewrite Et in E. apply MonitorSound.split_app in E.
      destruct E as [[post' [E _]]|[pre' [-> E]]].
      + exact (IH _ _ _ E).
      + apply (MonitorSound.input_in_suffix _ _ _ Hrest) in E. destruct E as [-> [E _]].
        apply Hh in E. subst m. rewrite app_nil_r.
        rewrite <- (@MonitorSound.reach_ms_trace p o g c Hc).
        destruct (en_up _ _ _ _ _ He) as (_ & _ & H). now apply H.
  Qed.
End PullCredit.

Definition c_nocredit : cfg (merge_op 1) := run p_merge_onepull (merge_op 1) script_nocredit.

Theorem merge_pull_broadcast_unguarded_false :
  reach p_merge_onepull g_std c_nocredit /\
  stack c_nocredit = [] /\
  sk (ms c_nocredit) 0 = SLive /\
  forall fuel,
    ~ reach p_merge_onepull g_std
        (drain p_merge_onepull fuel (step p_merge_onepull c_nocredit (MIn (IUp 0 UP)))).
Proof.
  split; [unfold c_nocredit; apply reach_run; vm_compute; reflexivity|].
  split; [vm_compute; reflexivity|]. split; [vm_compute; reflexivity|].
  intros fuel Hre.
  destruct (drain_trace_prefix p_merge_onepull fuel
              (step p_merge_onepull c_nocredit (MIn (IUp 0 UP)))) as [evs E].
  assert (E1 : trace (step p_merge_onepull c_nocredit (MIn (IUp 0 UP))) =
               trace c_nocredit ++ [EIn (IUp 0 UP); ECall (CUp 0 UP)])
    by (vm_compute; reflexivity).
  rewrite E1, <- app_assoc in E. cbn [app] in E.
  pose proof (@reach_pull_credit p_merge_onepull (merge_op 1) g_std eq_refl _ Hre _ _ _ E) as Hcr.
  vm_compute in Hcr. lia.
Qed.
Print Assumptions merge_pull_broadcast_unguarded_false.

Lemma seq_head j m : 0 < m -> seq j m = j :: seq (S j) (m - 1).
Proof. destruct m; [lia|]. intros _. cbn. now rewrite Nat.sub_0_r. Qed.

Definition others_have_value (n : nat) (vals : nat -> option val) (j : nat) : bool :=
  forallb (fun k => Nat.eqb k j || match vals k with Some _ => true | None => false end)
          (seq 0 n).

Section CombineBcast.
  Variable n : nat.
  Hypothesis Hn : 1 <= n.
  Variable p : mparams.
  Hypothesis Hns : nsinks p = 1.
  Hypothesis Hresub : resub p = false.
  Hypothesis Hnonest : no_nest p = false.
  Hypothesis Hc14 : c14 p = false.
  Notation o := (combine_op n).

  Lemma cb_inv (c : cfg o) : reach p g_std c -> Inv_combine.Inv c.
  Proof. intros Hre. exact (@Inv_combine.inv_reach n Hn p Hns Hresub Hnonest Hc14 c Hre). Qed.

  (** the unrolled broadcast sequence (src/combine.rs:160-204) from member [j], every
      talkback being in its cell *)
  Lemma cb_bcast_runs u s :
    (forall k, k < n -> cb_tbs s k = true) -> forall d j, n - j <= d ->
    runs o (cb_bcast n u j s) (map (fun k => CUp k u) (seq j (n - j))) s.
  Proof.
    intros Htb. induction d as [|d IH]; intros j Hd; unfold cb_bcast;
      (destruct (Nat.ltb_spec j n) as [Hlt|Hge]; [|replace (n - j) with 0 by lia; reflexivity]);
      [lia|].
    rewrite (Htb j Hlt), (@seq_head j (n - j)) by lia. split; [exact I|].
    exists (CbBcast u (S j)), s. split; [reflexivity|].
    replace (n - j - 1) with (n - S j) by lia. apply IH. lia.
  Qed.

  Lemma cb_up_broadcast u (c : cfg o) :
    reach p g_std c -> stack c = [] -> sk (ms c) 0 = SLive ->
    broadcast p c u (seq 0 n)
              (fun c' => enabled p g_std c (MIn (IUp 0 u)) = true -> reach p g_std c').
  Proof.
    intros Hre Hst Hsk. pose proof (cb_inv Hre) as HI.
    destruct (@Inv_combine.memb_greeted n Hn p Hns _ _ (Inv_combine.i_memb HI)) as [_ Htb];
      [congruence|].
    apply (@up_broadcast p o c u _ (cst c) (Inv_combine.i_dead HI) Hst Hsk Hre).
    replace (seq 0 n) with (seq 0 (n - 0)) by (now rewrite Nat.sub_0_r).
    exact (cb_bcast_runs u _ Htb _ (le_n _)).
  Qed.

  Lemma cb_up_broadcast_reach u (c : cfg o) :
    (u = UP -> one_pull p = false) ->
    reach p g_std c -> stack c = [] -> sk (ms c) 0 = SLive ->
    broadcast p c u (seq 0 n) (reach p g_std).
  Proof.
    intros Hu Hre Hst Hsk. apply broadcast_reach; auto; [|now apply cb_up_broadcast].
    exact (Inv_combine.i_dead (cb_inv Hre)).
  Qed.

  Lemma cb_running_lt (c : cfg o) j : reach p g_std c -> us (ms c) j = ULive -> j < n.
  Proof.
    intros Hre Hj. apply (@Inv_combine.memb_lt n Hn p Hns _ _ j (Inv_combine.i_memb (cb_inv Hre))). congruence.
  Qed.

  (** one member datum: one tuple if every other member has a value, nothing otherwise *)
  Lemma cb_one_tuple (c : cfg o) j v :
    reach p g_std c -> enabled p g_std c (MIn (IDn j (DD v))) = true -> j < n ->
    exists evs, trace (step p c (MIn (IDn j (DD v)))) = trace c ++ evs /\
      ((forall k, k < n -> k <> j -> cb_vals (cst c) k <> None) ->
         exists l, calls_of evs = [CDn 0 (DD (VT l))] /\ length l = n /\
                   nth_error l j = Some v /\
                   forall k, k < n -> k <> j -> nth_error l k = cb_vals (cst c) k) /\
      ((exists k, k < n /\ k <> j /\ cb_vals (cst c) k = None) -> calls_of evs = []).
  Proof.
    intros Hre He Hj. pose proof (cb_inv Hre) as HI.
    pose proof (@Inv_combine.store_count n Hn p Hns _ _ _ j v (Inv_combine.i_data HI) Hj) as Hcnt.
    pose proof (stepped_in He (Inv_combine.h_data (cst c) v Hj)) as Hst.
    pose proof (stepped_trace Hst) as Htr.
    pose proof (Inv_combine.i_dead (cb_inv (reachS _ Hre He))) as Hdd. rewrite (st_dead Hst) in Hdd.
    set (s' := Inv_combine.store (cst c) j v) in *.
    assert (Hother : forall k, k <> j -> cb_vals s' k = cb_vals (cst c) k)
      by (intros k Hk; now apply upd_other).
    destruct (Nat.eqb_spec (cb_ndata s') 0) as [End|End];
      [destruct (cb_tuple (cb_vals s') n) as [l|] eqn:Et; [|discriminate Hdd]|];
      eexists; (split; [exact Htr|]); cbn; (split; [|try reflexivity]).
    - (* the tuple *)
      intros _. destruct (Inv_combine.cb_tuple_spec _ _ Et) as [Hlen Hnth].
      exists l. repeat split; auto.
      + rewrite (Hnth j Hj). apply upd_same.
      + intros k Hk Hne. rewrite (Hnth k Hk). now apply Hother.
    - intros (k & Hk & Hne & Hnone). exfalso.
      apply (Inv_combine.vals_full Hcnt End Hk). now rewrite Hother.
    - (* some member has no value yet *)
      intros Hall. exfalso. apply End. rewrite count_all in Hcnt; [lia|].
      intros k Hk. unfold Inv_combine.hasval. destruct (Nat.eq_dec k j) as [->|Hne].
      + cbn. now rewrite upd_same.
      + rewrite Hother by exact Hne. specialize (Hall k Hk Hne).
        destruct (cb_vals (cst c) k); [reflexivity|congruence].
  Qed.
End CombineBcast.

(** regime of [combine_safe] *)

(** C10 / KF2, strongest form for a Pull: EVERY member 0..n-1 gets the Pull (also members that
    have ended), once each, in index order.  As for merge, [reach p g_std c'] is guarded by the
    Pull being a move of the conformant environment ([one_pull p] is unconstrained in the
    regime of [combine_safe]); [combine_pull_broadcast] is the unguarded statement under
    [one_pull p = false]. *)
Theorem combine_pull_broadcast_partial p n :
  nsinks p = 1 -> resub p = false -> no_nest p = false -> c14 p = false -> late_ok p = false ->
  1 <= n ->
  forall c : cfg (combine_op n), reach p g_std c -> stack c = [] -> sk (ms c) 0 = SLive ->
  exists fuel,
    let c' := drain p fuel (step p c (MIn (IUp 0 UP))) in
    stack c' = [] /\
    exists evs, trace c' = trace c ++ evs /\
      calls_of evs = map (fun j => CUp j UP) (seq 0 n) /\
      (enabled p g_std c (MIn (IUp 0 UP)) = true -> reach p g_std c').
Proof.
  intros H1 H2 H3 H4 _ Hn c Hre Hst Hsk.
  exact (@cb_up_broadcast n Hn p H1 H2 H3 H4 UP c Hre Hst Hsk).
Qed.
Print Assumptions combine_pull_broadcast_partial.

Theorem combine_pull_broadcast p n :
  nsinks p = 1 -> resub p = false -> no_nest p = false -> c14 p = false -> late_ok p = false ->
  one_pull p = false ->
  1 <= n ->
  forall c : cfg (combine_op n), reach p g_std c -> stack c = [] -> sk (ms c) 0 = SLive ->
  exists fuel,
    let c' := drain p fuel (step p c (MIn (IUp 0 UP))) in
    stack c' = [] /\
    exists evs, trace c' = trace c ++ evs /\
      calls_of evs = map (fun j => CUp j UP) (seq 0 n) /\
      reach p g_std c'.
Proof.
  intros H1 H2 H3 H4 _ H6 Hn c Hre Hst Hsk.
  exact (@cb_up_broadcast_reach n Hn p H1 H2 H3 H4 UP c (fun _ => H6) Hre Hst Hsk).
Qed.
Print Assumptions combine_pull_broadcast.

(** corollary (C10 "every sink Pull reaches every member that is still running") *)
Theorem combine_pull_reaches_running p n :
  nsinks p = 1 -> resub p = false -> no_nest p = false -> c14 p = false -> late_ok p = false ->
  1 <= n ->
  forall c : cfg (combine_op n), reach p g_std c ->
  forall j, us (ms c) j = ULive -> In (CUp j UP) (map (fun j => CUp j UP) (seq 0 n)).
Proof.
  intros H1 H2 H3 H4 _ Hn c Hre j Hj.
  apply in_map_iff. exists j. split; [reflexivity|]. apply in_seq.
  pose proof (@cb_running_lt n Hn p H1 H2 H3 H4 c j Hre Hj). lia.
Qed.
Print Assumptions combine_pull_reaches_running.

(** a sink Terminate is likewise forwarded to every member *)
Theorem combine_term_broadcast p n :
  nsinks p = 1 -> resub p = false -> no_nest p = false -> c14 p = false -> late_ok p = false ->
  1 <= n ->
  forall c : cfg (combine_op n), reach p g_std c -> stack c = [] -> sk (ms c) 0 = SLive ->
  exists fuel,
    let c' := drain p fuel (step p c (MIn (IUp 0 UT))) in
    stack c' = [] /\
    exists evs, trace c' = trace c ++ evs /\
      calls_of evs = map (fun j => CUp j UT) (seq 0 n) /\
      reach p g_std c'.
Proof.
  intros H1 H2 H3 H4 _ Hn c. apply (@cb_up_broadcast_reach n Hn p H1 H2 H3 H4 UT c). discriminate.
Qed.
Print Assumptions combine_term_broadcast.

(** C10 "emits exactly one tuple per member datum" as a local step theorem.  No hypothesis on
    the sink is needed: the model's data arm (src/combine.rs:247-275) does not look at the
    sink, and a member can only send while it is live. *)
Theorem combine_one_tuple_per_datum p n :
  nsinks p = 1 -> resub p = false -> no_nest p = false -> c14 p = false -> late_ok p = false ->
  1 <= n ->
  forall (c : cfg (combine_op n)) j v, reach p g_std c ->
    enabled p g_std c (MIn (IDn j (DD v))) = true -> j < n ->
    let c' := step p c (MIn (IDn j (DD v))) in
    exists evs, trace c' = trace c ++ evs /\
      if others_have_value n (cb_vals (cst c)) j
      then exists l, calls_of evs = [CDn 0 (DD (VT l))] /\ length l = n /\
                     nth_error l j = Some v /\
                     forall k, k < n -> k <> j -> nth_error l k = cb_vals (cst c) k
      else calls_of evs = [].
Proof.
  intros H1 H2 H3 H4 _ Hn c j v Hre He Hj. cbv zeta.
  destruct (@cb_one_tuple n Hn p H1 H2 H3 H4 c j v Hre He Hj) as (evs & Htr & HA & HB).
  exists evs. split; [exact Htr|].
  destruct (others_have_value n (cb_vals (cst c)) j) eqn:E.
  - apply HA. intros k Hk Hne. unfold others_have_value in E. rewrite forallb_forall in E.
    assert (Hin : In k (seq 0 n)) by (apply in_seq; lia).
    apply E in Hin. apply orb_prop in Hin. destruct Hin as [H|H].
    + apply Nat.eqb_eq in H. contradiction.
    + destruct (cb_vals (cst c) k); [discriminate|discriminate H].
  - apply HB. destruct (forallb_false_ex _ _ E) as (k & Hin & Hf).
    apply in_seq in Hin. apply orb_false_iff in Hf. destruct Hf as [Hf1 Hf2].
    apply Nat.eqb_neq in Hf1. exists k. split; [lia|]. split; [exact Hf1|].
    destruct (cb_vals (cst c) k); [discriminate|reflexivity].
Qed.
Print Assumptions combine_one_tuple_per_datum.

(** the same with the case distinction as two implications *)
Theorem combine_one_tuple_per_datum_prop p n :
  nsinks p = 1 -> resub p = false -> no_nest p = false -> c14 p = false -> late_ok p = false ->
  1 <= n ->
  forall (c : cfg (combine_op n)) j v, reach p g_std c ->
    enabled p g_std c (MIn (IDn j (DD v))) = true -> j < n ->
    exists evs, trace (step p c (MIn (IDn j (DD v)))) = trace c ++ evs /\
      ((forall k, k < n -> k <> j -> cb_vals (cst c) k <> None) ->
         exists l, calls_of evs = [CDn 0 (DD (VT l))] /\ length l = n /\
                   nth_error l j = Some v /\
                   forall k, k < n -> k <> j -> nth_error l k = cb_vals (cst c) k) /\
      ((exists k, k < n /\ k <> j /\ cb_vals (cst c) k = None) -> calls_of evs = []).
Proof.
  intros H1 H2 H3 H4 _ Hn c j v Hre He Hj.
  exact (@cb_one_tuple n Hn p H1 H2 H3 H4 c j v Hre He Hj).
Qed.
Print Assumptions combine_one_tuple_per_datum_prop.
