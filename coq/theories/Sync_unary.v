(** * Sync_unary: the unary operators and the sources greet synchronously.

    [greets_sync_sig] of Tree.v: in every reachable configuration, a component that has been
    subscribed and has not greeted its sink yet is still inside an activation (its stack of pending
    calls is not empty).  This is what a parent with [late_ok = false] (concat!, combine!) needs of
    its children.

    Two generic arguments (MonitorFacts.v), each by induction over [reach]:

    - a *source* (from_iter, interval) answers [ISub 0 _] with a call [CDn 0 d], [d] not Data, in the
      very activation that handles the subscription; so [subd 0 = true] implies [sk 0 <> SNone] and
      the premise of the statement is never met ([subd_sk]);
    - a *pass-through operator* (map, filter, scan, skip, take) answers [ISub 0 _] with [CSub 0];
      so [subd 0 = true] implies [us 0 <> UNone] ([subd_us]).  Its invariant says that an ungreeted
      sink goes with an upstream that is [UNone] or [USubd]; hence [us 0 = USubd], and with
      [late_ok p = false] the call [CSub 0] is on the stack of pending calls ([subd_pending]). *)
From CB Require Import ProofLib Spec MonitorFacts Tree.
From CB Require Inv_relay Inv_take Inv_from_iter Inv_interval.

Set Implicit Arguments.

Lemma input_sub_subd p m s aux : subd (mon_input p m (ISub s aux)) s = true.
Proof. destruct aux; cbn; apply upd_same. Qed.

Lemma callupd_sub_us m i : us (mon_call_upd m (CSub i)) i = USubd.
Proof. cbn. apply upd_same. Qed.

(** an awaited upstream 0 keeps the component inside its subscribing call *)
Lemma awaited_sync p o g (c : cfg o) :
  late_ok p = false -> reach p g c -> us (ms c) 0 = USubd -> stack c <> [].
Proof. intros Hl Hr E Hst. pose proof (subd_pending Hl Hr 0 E) as Hin. now rewrite Hst in Hin. Qed.

(** The pass-through operators, generically: "an ungreeted sink goes with an upstream that is
       [UNone] or [USubd]" + the subscription is forwarded at once *)
Lemma pass_through_sync p o g (c : cfg o) :
  late_ok p = false -> subs_up o ->
  (sk (ms c) 0 = SNone -> us (ms c) 0 = UNone \/ us (ms c) 0 = USubd) ->
  reach p g c -> subd (ms c) 0 = true -> sk (ms c) 0 = SNone -> stack c <> [].
Proof.
  intros Hl Hsub Hpair Hr Hsd Hsk. destruct (Hpair Hsk) as [E|E].
  - destruct (subd_us Hsub Hr Hsd E).
  - exact (awaited_sync Hl Hr E).
Qed.

Lemma paired_none k u : paired k u -> k = SNone -> u = UNone \/ u = USubd.
Proof. intros H E. destruct H; try discriminate; auto. Qed.

Lemma relay_greets_sync p o ready :
  Unary.relay o ready ->
  nsinks p = 1 -> resub p = false -> no_nest p = false -> c14 p = false -> late_ok p = false ->
  greets_sync_sig (o, p, g_std).
Proof.
  intros R H1 H2 H3 H4 Hl c Hr Hsd Hsk.
  pose proof (Inv_relay.relay_std R H1 H2 H3 H4 Hr) as I.
  destruct (paired_none (Unary.r_pair I) Hsk) as [E|E]; [destruct (Unary.r_subd I Hsd E)|].
  exact (awaited_sync Hl Hr E).
Qed.

Corollary map_greets_sync_sig (f : val -> val) p :
  nsinks p = 1 -> resub p = false -> no_nest p = false -> c14 p = false -> late_ok p = false ->
  greets_sync_sig (map_op f, p, g_std).
Proof. exact (relay_greets_sync (Inv_relay.map_relay f)). Qed.
Print Assumptions map_greets_sync_sig.

Corollary filter_greets_sync_sig (cond : val -> bool) p :
  nsinks p = 1 -> resub p = false -> no_nest p = false -> c14 p = false -> late_ok p = false ->
  greets_sync_sig (filter_op cond, p, g_std).
Proof. exact (relay_greets_sync (Inv_relay.filter_relay cond)). Qed.
Print Assumptions filter_greets_sync_sig.

Corollary scan_greets_sync_sig (reducer : val -> val -> val) (seed : val) p :
  nsinks p = 1 -> resub p = false -> no_nest p = false -> c14 p = false -> late_ok p = false ->
  greets_sync_sig (scan_op reducer seed, p, g_std).
Proof. exact (relay_greets_sync (Inv_relay.scan_relay reducer seed)). Qed.
Print Assumptions scan_greets_sync_sig.

Corollary skip_greets_sync_sig (max : nat) p :
  nsinks p = 1 -> resub p = false -> no_nest p = false -> c14 p = false -> late_ok p = false ->
  greets_sync_sig (skip_op max, p, g_std).
Proof. exact (relay_greets_sync (Inv_relay.skip_relay max)). Qed.
Print Assumptions skip_greets_sync_sig.

Theorem take_greets_sync p :
  nsinks p = 1 -> resub p = false -> no_nest p = false -> c14 p = false -> late_ok p = false ->
  forall max, 1 <= max ->
  forall c : cfg (take_op max), reach p g_std c ->
    subd (ms c) 0 = true -> sk (ms c) 0 = SNone -> stack c <> [].
Proof.
  intros H1 H2 H3 H4 Hl max Hmax c Hr. apply (pass_through_sync Hl (g := g_std)); [ | | exact Hr].
  - intros aux s. now exists {| tk_taken := 0; tk_tb := false; tk_end := false |}, [], TkDone.
  - intros Hsk. pose proof (Inv_take.i_phase (Inv_take.inv_reach Hmax H1 H2 H3 H4 Hr)) as Hph.
    rewrite Hsk in Hph. exact (Inv_take.phase_none _ _ _ _ Hph).
Qed.
Print Assumptions take_greets_sync.

Corollary take_greets_sync_sig p :
  nsinks p = 1 -> resub p = false -> no_nest p = false -> c14 p = false -> late_ok p = false ->
  forall max, 1 <= max -> greets_sync_sig (take_op max, p, g_std).
Proof. intros H1 H2 H3 H4 Hl max Hmax c. now apply take_greets_sync. Qed.
Print Assumptions take_greets_sync_sig.

(** from_iter: the greeting is sent by the activation that handles the subscription, so a
       subscribed from_iter has always greeted (the conclusion holds vacuously) *)
Lemma from_iter_subd_greeted (it : nat -> option val) p :
  nsinks p = 1 ->
  forall c : cfg (from_iter_op it), reach p g_std c -> subd (ms c) 0 = true -> sk (ms c) 0 <> SNone.
Proof.
  intros _. apply subd_sk.
  intros aux s. eexists _, [], FiDone, DH. split; [reflexivity|discriminate].
Qed.

Theorem from_iter_greets_sync (it : nat -> option val) p :
  nsinks p = 1 -> resub p = false -> no_nest p = true -> c14 p = false -> late_ok p = false ->
  forall c : cfg (from_iter_op it), reach p g_std c ->
    subd (ms c) 0 = true -> sk (ms c) 0 = SNone -> stack c <> [].
Proof.
  intros H1 _ _ _ _ c Hr Hsd Hsk. exfalso.
  exact (from_iter_subd_greeted H1 Hr Hsd Hsk).
Qed.
Print Assumptions from_iter_greets_sync.

Corollary from_iter_greets_sync_sig (it : nat -> option val) p :
  nsinks p = 1 -> resub p = false -> no_nest p = true -> c14 p = false -> late_ok p = false ->
  greets_sync_sig (from_iter_op it, p, g_std).
Proof. intros H1 H2 H3 H4 Hl c. now apply from_iter_greets_sync. Qed.
Print Assumptions from_iter_greets_sync_sig.

(** interval: greeted, or refused with an Error (then [sk 0 = SFinished]), in the activation that
       handles the subscription *)
Lemma interval_subd_greeted p :
  nsinks p = 1 ->
  forall c : cfg interval_op, reach p (fun _ _ => true) c ->
    subd (ms c) 0 = true -> sk (ms c) 0 <> SNone.
Proof.
  intros _. apply subd_sk.
  intros [|aux] s.
  - eexists _, _, FDone, DH. split; [reflexivity|discriminate].
  - eexists _, _, FDone, (DE _). split; [reflexivity|discriminate].
Qed.

Theorem interval_greets_sync p :
  nsinks p = 1 -> resub p = false -> no_nest p = false -> c14 p = false -> late_ok p = false ->
  forall c : cfg interval_op, reach p (fun _ _ => true) c ->
    subd (ms c) 0 = true -> sk (ms c) 0 = SNone -> stack c <> [].
Proof.
  intros H1 _ _ _ _ c Hr Hsd Hsk. exfalso.
  exact (interval_subd_greeted H1 Hr Hsd Hsk).
Qed.
Print Assumptions interval_greets_sync.

Corollary interval_greets_sync_sig p :
  nsinks p = 1 -> resub p = false -> no_nest p = false -> c14 p = false -> late_ok p = false ->
  greets_sync_sig (interval_op, p, fun _ _ => true).
Proof. intros H1 H2 H3 H4 Hl c. now apply interval_greets_sync. Qed.
Print Assumptions interval_greets_sync_sig.

(** Sanity: the statement is not vacuous for the pass-through operators, and [late_ok p = false]
       is needed.  After the subscription alone, map is subscribed, has not greeted and waits inside
       its call [CSub 0].  In the regime of merge ([late_ok = true]) that call may return before the
       upstream has greeted: then map is subscribed, has not greeted and its stack is empty. *)
Module SyncSanity.
  Definition p0 : mparams :=
    {| nsinks := 1; late_ok := false; pullable := false; one_pull := false;
       resub := false; no_nest := false; c14 := false |}.
  Definition p_late : mparams :=
    {| nsinks := 1; late_ok := true; pullable := false; one_pull := false;
       resub := false; no_nest := false; c14 := false |}.
  Definition idf (v : val) : val := v.

  Example waiting :
    all_enabled p0 g_std (cfg0 (map_op idf)) [MIn (ISub 0 0)] = true /\
    let c := run p0 (map_op idf) [MIn (ISub 0 0)] in
    subd (ms c) 0 = true /\ sk (ms c) 0 = SNone /\ map snd (stack c) = [CSub 0].
  Proof. vm_compute. repeat split; reflexivity. Qed.

  (** with [late_ok p = false] the pending [CSub 0] cannot return before the greeting *)
  Example no_early_return :
    all_enabled p0 g_std (cfg0 (map_op idf)) [MIn (ISub 0 0); MRet] = false.
  Proof. vm_compute. reflexivity. Qed.

  Example late_counterexample :
    all_enabled p_late g_std (cfg0 (map_op idf)) [MIn (ISub 0 0); MRet] = true /\
    let c := run p_late (map_op idf) [MIn (ISub 0 0); MRet] in
    subd (ms c) 0 = true /\ sk (ms c) 0 = SNone /\ stack c = [].
  Proof. vm_compute. repeat split; reflexivity. Qed.

  (** interval refused by the nursery: subscribed, never greeted, but [sk 0 = SFinished] *)
  Example interval_refused :
    all_enabled p0 (fun _ _ => true) (cfg0 interval_op) [MIn (ISub 0 1); MRet] = true /\
    let c := run p0 interval_op [MIn (ISub 0 1); MRet] in
    subd (ms c) 0 = true /\ sk (ms c) 0 = SFinished /\ stack c = [] /\ viols (ms c) = [].
  Proof. vm_compute. repeat split; reflexivity. Qed.
End SyncSanity.
