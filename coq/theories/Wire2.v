(** * Wire2: every message crosses a link exactly once, in order, in both directions.

    [Chain.chain_wire] says that the DATA a node receives on port 0 are the data its upstream
    neighbour sent to its sink.  Here the same is proved of the full message sequences of Flow.v:
    greetings, data and terminations downward ([dn_out] of the upstream node against [dn_in] of the
    downstream node), subscriptions and talkback calls upward ([up_out] of the downstream node
    against [up_in] of the upstream node).  At most one message is in flight (the pending internal
    transfer [PTo]). *)

From CB Require Import ProofLib Spec Chain Flow.

Set Implicit Arguments.

(** ** Messages in flight on the link into node [t] *)

Definition infl_dn (pd : pending) (t : nat) : list dmsg :=
  match pd with PTo k (IDn 0 d) => if k =? t then [d] else [] | _ => [] end.

Definition infl_up (pd : pending) (t : nat) : list (option umsg) :=
  match pd with
  | PTo k (ISub 0 _) => if k =? t then [None] else []
  | PTo k (IUp 0 u) => if k =? t then [Some u] else []
  | _ => []
  end.

Definition wire2_ok (ns : list node) (pd : pending) : Prop :=
  forall i U D, nth_error ns i = Some U -> nth_error ns (S i) = Some D ->
    dn_out (ntrace U) = dn_in (ntrace D) ++ infl_dn pd (S i) /\
    up_out (ntrace D) = up_in (ntrace U) ++ infl_up pd i.

(** ** One step of node [x] preserves the wires: both directions are wires of Chain.v, downward
       from node [i] to node [S i], upward from node [S i] to node [i] *)

Lemma dn_out_move m : dn_out [move_event m] = [].
Proof. destruct m as [[]|]; reflexivity. Qed.
Lemma up_out_move m : up_out [move_event m] = [].
Proof. destruct m as [[]|]; reflexivity. Qed.
Lemma dn_in_fin fin : (forall i, fin <> EIn i) -> dn_in [fin] = [].
Proof. intros H. destruct fin as [j| | | | |]; try reflexivity. now destruct (H j). Qed.
Lemma up_in_fin fin : (forall i, fin <> EIn i) -> up_in [fin] = [].
Proof. intros H. destruct fin as [j| | | | |]; try reflexivity. now destruct (H j). Qed.

Definition wire_dn (ns : list node) : pending -> Prop :=
  gwire dn_out (fun _ => dn_in) (cedge (length ns)) (fun pd _ r _ => infl_dn pd r) ns.
Definition wire_up (ns : list node) : pending -> Prop :=
  gwire up_out (fun _ => up_in) (fun s r k => cedge (length ns) r s k)
        (fun pd _ r _ => infl_up pd r) ns.

Lemma wire2_gwire ns pd : wire2_ok ns pd <-> wire_dn ns pd /\ wire_up ns pd.
Proof.
  unfold wire2_ok. rewrite (cedge_forall ns (fun c P k U D => _ = _ ++ infl_dn pd P /\ _)).
  split.
  - intros H. split; intros s r k U D HR HU HD; [apply (H s r k U D HR HU HD)|].
    apply (H r s k D U HR HD HU).
  - intros [Hd Hu] c P k U D HR HU HD. split; [exact (Hd c P k U D HR HU HD)|].
    exact (Hu P c k D U HR HD HU).
Qed.

Lemma infl_dn_to len pd s r k :
  cedge len s r k ->
  infl_dn pd r = match pd with PTo t inp => if r =? t then dn_in [EIn inp] else [] | _ => [] end.
Proof.
  intros _. destruct pd as [|t [| |[|i] d|]|]; cbn; try reflexivity; try (now destruct (r =? t)).
  now rewrite Nat.eqb_sym.
Qed.

Lemma infl_up_to len pd s r k :
  cedge len r s k ->
  infl_up pd r = match pd with PTo t inp => if r =? t then up_in [EIn inp] else [] | _ => [] end.
Proof.
  intros _. destruct pd as [|t [[|i] a|[|i] u| |]|]; cbn; try reflexivity;
    try (now destruct (r =? t)); now rewrite Nat.eqb_sym.
Qed.

Lemma after_step_wire2 (ns : list node) G1 pd pd0 x n m :
  nth_error ns x = Some n ->
  nenabled n m = true ->
  wire2_ok ns pd ->
  step_from (ext_input_ok (length ns) x) pd x m ->
  let N' := after_step (mk_net ns G1 pd0) x (nstep n m) in
  wire2_ok (nodes N') (pend N').
Proof.
  intros Hn He Hw Hfrom N'. unfold N'. rewrite after_step_nodes. cbn [nodes].
  apply wire2_gwire in Hw. destruct Hw as [Hwd Hwu]. apply wire2_gwire.
  unfold wire_dn, wire_up. rewrite set_nth_length. split.
  - apply (gwire_step dn_out_app (fun _ => dn_in_app) dn_out_obs (fun _ => dn_in_obs) dn_out_move
             (fun _ => dn_in_fin) (fun s r k H => Nat.lt_neq _ _ (cedge_lt H)) (@infl_dn_to _))
      with (pd := pd) (extok := ext_input_ok (length ns) x);
      [exact Hn | exact He | exact Hwd | exact Hfrom | |].
    + intros s k inp (-> & _ & _) Hext. destruct inp as [s0 a|s0 u|[|i] d|s0]; try reflexivity.
      apply Nat.eqb_eq in Hext. discriminate.
    + intros fin s r k Hl (-> & -> & Hlt). unfold after_step. cbn [nodes gst]. rewrite Hl.
      destruct fin as [i|cl| | |ob|]; cbn [pend infl_dn]; try (now destruct (s =? x)).
      * destruct (route (length ns) x cl) eqn:Er; cbn [pend infl_dn].
        -- destruct (Nat.eqb_spec s x) as [->|]; [|reflexivity].
           destruct cl as [j|j u|[|s'] d]; try reflexivity.
           destruct (proj1 (route_ext _ _ _ Er) Hlt). now exists d.
        -- destruct (route_up _ _ _ Er) as [[->|[u ->]] _]; now destruct (s =? x).
        -- destruct (route_dn _ _ _ Er) as (d & -> & _). cbn. now rewrite (Nat.eqb_sym s x).
      * destruct G1 as [|[j [| |]] G1']; cbn; now destruct (s =? x).
  - apply (gwire_step up_out_app (fun _ => up_in_app) up_out_obs (fun _ => up_in_obs) up_out_move
             (fun _ => up_in_fin) (R := fun s r k => cedge (length ns) r s k)
             (fun s r k H => Nat.neq_sym _ _ (Nat.lt_neq _ _ (cedge_lt H))) (@infl_up_to _))
      with (pd := pd) (extok := ext_input_ok (length ns) x);
      [exact Hn | exact He | exact Hwu | exact Hfrom | |].
    + intros s k inp (-> & _ & Hlt) Hext. destruct inp as [[|s0] a|[|s0] u|i d|s0]; try reflexivity;
        apply Nat.eqb_eq in Hext; lia.
    + intros fin s r k Hl (-> & -> & Hlt). unfold after_step. cbn [nodes gst]. rewrite Hl.
      destruct fin as [i|cl| | |ob|]; cbn [pend infl_up]; try (now destruct (S r =? x)).
      * destruct (route (length ns) x cl) eqn:Er; cbn [pend infl_up].
        -- destruct (Nat.eqb_spec (S r) x) as [<-|]; [|reflexivity].
           destruct cl as [[|j]|[|j] u|s' d]; try reflexivity;
             destruct (proj2 (route_ext _ _ _ Er) (Nat.lt_0_succ r)); [now left | right; now exists u].
        -- destruct (route_up _ _ _ Er) as [[->|[u ->]] Hx]; (destruct x as [|x0]; [lia|]);
             cbn; now rewrite (Nat.eqb_sym x0 r).
        -- destruct (route_dn _ _ _ Er) as (d & -> & _). now destruct (S r =? x).
      * destruct G1 as [|[j [| |]] G1']; cbn [pend infl_up]; now destruct (S r =? x).
Qed.

Section ChainWire2.
  Variable sigs : list (op * mparams * (mstate -> input -> bool)).
  Hypothesis Hsafe : forall s, In s sigs -> safe_sig s.
  Hypothesis Hreg : forall i s, nth_error sigs i = Some s -> regime_ok i s.

  Lemma net_step_wire2 N mv :
    Inv sigs N -> net_enabled N mv = true ->
    wire2_ok (nodes N) (pend N) -> wire2_ok (nodes (net_step N mv)) (pend (net_step N mv)).
  Proof.
    intros HI He Hw. destruct (net_step_view Hsafe Hreg _ HI He) as [x n m G1 -> _ Hn Hen Hfrom _ _ _ _].
    now apply after_step_wire2 with (pd := pend N).
  Qed.

  Theorem chain_wire2 ns N :
    map nsig ns = sigs -> (forall n, In n ns -> ninit n) ->
    net_reach (net0 ns) N -> wire2_ok (nodes N) (pend N).
  Proof.
    intros Hsig Hinit Hr. induction Hr as [|N mv Hr IH He].
    - apply wire2_gwire. split; apply gwire0; try exact Hinit;
        [exact dn_out_obs | exact (fun _ => dn_in_obs) | exact (@infl_dn_to _)
         | exact up_out_obs | exact (fun _ => up_in_obs) | exact (@infl_up_to _)].
    - apply net_step_wire2; [|exact He|exact IH].
      exact (chain_inv Hsafe Hreg Hsig Hinit Hr).
  Qed.

  (** at an idle point nothing is in flight: the two ends of every link have seen the same
      messages *)
  Corollary chain_wire2_idle ns N i U D :
    map nsig ns = sigs -> (forall n, In n ns -> ninit n) ->
    net_reach (net0 ns) N ->
    nth_error (nodes N) i = Some U -> nth_error (nodes N) (S i) = Some D ->
    pend N = PIdle ->
    dn_in (ntrace D) = dn_out (ntrace U) /\ up_in (ntrace U) = up_out (ntrace D).
  Proof.
    intros Hsig Hinit Hr HU HD Hp.
    destruct (chain_wire2 Hsig Hinit Hr i HU HD) as [Hd Hu].
    rewrite Hp in Hd, Hu. cbn [infl_dn infl_up] in Hd, Hu. rewrite app_nil_r in Hd, Hu.
    split; congruence.
  Qed.

  (** in general a receiver has counted no more than its neighbour has sent *)
  Corollary chain_wire2_counts ns N i U D :
    map nsig ns = sigs -> (forall n, In n ns -> ninit n) ->
    net_reach (net0 ns) N ->
    nth_error (nodes N) i = Some U -> nth_error (nodes N) (S i) = Some D ->
    hin (ntrace D) <= hout (ntrace U) /\ din (ntrace D) <= dout (ntrace U) /\
    pin (ntrace U) <= pout (ntrace D).
  Proof.
    intros Hsig Hinit Hr HU HD.
    destruct (chain_wire2 Hsig Hinit Hr i HU HD) as [Hd Hu].
    unfold hin, hout, din, dout, pin, pout. rewrite Hd, Hu, !cnt_app. lia.
  Qed.
End ChainWire2.

Print Assumptions chain_wire2.
Print Assumptions chain_wire2_idle.
Print Assumptions chain_wire2_counts.
