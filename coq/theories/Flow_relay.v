(** * Flow_relay: the flow facts ([stage_flow] of Flow.v) of the relays map, scan, filter, skip.

    A relay answers every message with one message: a Pull from the sink becomes a Pull to the
    upstream, a greeting a greeting, a datum from the upstream either a datum for the sink or -
    dropped - a Pull of the relay's own.  Hence the demand equation [pout + dout = pin + din] and
    [hout = hin] hold in every reachable configuration, not only at rest; the statements about
    [sk]/[us] are the relay invariant's [r_pair] and [r_subd]. *)

From CB Require Import ProofLib Spec Flow Inv_relay.

Set Implicit Arguments.

Section RelayFlow.
  Variable p : mparams.
  Hypothesis Hns : nsinks p = 1.
  Hypothesis Hnonest : no_nest p = false.
  Hypothesis Hreg : c14 p = true -> pullable p = true /\ one_pull p = true.
  Variable o : op.
  Variable ready : St o -> Prop.
  Hypothesis R : relay o ready.

  Lemma relay_counts (c : cfg o) :
    reach p g_std c ->
    pout (trace c) + dout (trace c) = pin (trace c) + din (trace c) /\
    hout (trace c) = hin (trace c).
  Proof.
    induction 1 as [|c m Hr [IHd IHh] He]; [split; reflexivity|].
    pose proof (relay_reach Hns Hnonest Hreg R Hr) as I.
    pose proof (enabled_live _ _ _ _ He) as Hlive.
    destruct m as [i|].
    - destruct (relay_in Hns R _ I He) as (s' & k & cl & Hh & Hrow & _).
      rewrite (step_in_trace p c i Hlive (enabled_deliverable _ _ _ _ He) Hh),
        pin_step, pout_step, din_step, dout_step, hin_step, hout_step.
      unfold pin, pout, hin, hout, din, dout, cnt in *.
      destruct Hrow as [| |v w|v|[|v|e|] Hd|[|e|]]; try discriminate; cbn; lia.
    - destruct (relay_ret R I He) as (k & cl & rest & s' & Hst & Hh).
      rewrite (step_ret_trace p c Hlive Hst Hh),
        pin_step, pout_step, din_step, dout_step, hin_step, hout_step.
      unfold pin, pout, hin, hout, din, dout, cnt in *. cbn. lia.
  Qed.

  Theorem relay_stage_flow : calls_sat port0 o -> stage_flow o p None.
  Proof.
    intros Hcalls. constructor; [| | | | | |exact Hcalls]; intros c Hr.
    - destruct (relay_counts Hr). lia.
    - intros _ _. apply (relay_counts Hr).
    - destruct (relay_counts Hr). lia.
    - intros _ Hsub Hsk. pose proof (relay_reach Hns Hnonest Hreg R Hr) as I.
      pose proof (r_pair I) as HP. pose proof (r_subd I Hsub). rewrite Hsk in HP.
      inversion HP; congruence.
    - intros _ Hsk. pose proof (r_pair (relay_reach Hns Hnonest Hreg R Hr)) as HP. rewrite Hsk in HP.
      now inversion HP.
    - intros _ Hsk. left. pose proof (r_pair (relay_reach Hns Hnonest Hreg R Hr)) as HP. rewrite Hsk in HP.
      now inversion HP.
  Qed.
End RelayFlow.

(** every call of a relay goes to its one port, whatever the input and the state *)
Ltac port0_calls Hh := inversion Hh; unfold port0; eauto.

Lemma map_calls f : calls_sat port0 (map_op f).
Proof.
  split; [|discriminate].
  intros i s s' os c k Hh. cbn in Hh.
  destruct i as [[|?] ?|[|?] ?|[|?] [|?|?|]|?]; port0_calls Hh.
Qed.

Lemma scan_calls r seed : calls_sat port0 (scan_op r seed).
Proof.
  split; [|discriminate].
  intros i s s' os c k Hh. cbn in Hh.
  destruct i as [[|?] ?|[|?] ?|[|?] [|?|?|]|?]; port0_calls Hh.
Qed.

Lemma filter_calls cond : calls_sat port0 (filter_op cond).
Proof.
  split; [|discriminate].
  intros i s s' os c k Hh.
  destruct i as [[|?] ?|[|?] ?|[|?] [|v|?|]|?]; cbn in Hh;
    try destruct (cond v); try destruct s; port0_calls Hh.
Qed.

Lemma skip_calls max : calls_sat port0 (skip_op max).
Proof.
  split; [|discriminate].
  intros i s s' os c k Hh.
  destruct i as [[|?] ?|[|?] ?|[|?] [|v|?|]|?]; cbn -[Nat.ltb] in Hh;
    try destruct (sk_skipped s <? max); try destruct (sk_tb s); port0_calls Hh.
Qed.

Theorem map_stage_flow (f : val -> val) p :
  nsinks p = 1 -> resub p = false -> no_nest p = false -> c14 p = false ->
  stage_flow (map_op f) p None.
Proof.
  intros H1 _ H3 H4.
  exact (relay_stage_flow p H1 H3 (no_c14 H4) (map_relay f) (map_calls f)).
Qed.
Print Assumptions map_stage_flow.

Theorem scan_stage_flow (r : val -> val -> val) (seed : val) p :
  nsinks p = 1 -> resub p = false -> no_nest p = false -> c14 p = false ->
  stage_flow (scan_op r seed) p None.
Proof.
  intros H1 _ H3 H4.
  exact (relay_stage_flow p H1 H3 (no_c14 H4) (scan_relay r seed) (scan_calls r seed)).
Qed.
Print Assumptions scan_stage_flow.

Theorem filter_stage_flow (cond : val -> bool) p :
  nsinks p = 1 -> resub p = false -> no_nest p = false -> c14 p = false ->
  stage_flow (filter_op cond) p None.
Proof.
  intros H1 _ H3 H4.
  exact (relay_stage_flow p H1 H3 (no_c14 H4) (filter_relay cond) (filter_calls cond)).
Qed.
Print Assumptions filter_stage_flow.

Theorem skip_stage_flow (n : nat) p :
  nsinks p = 1 -> resub p = false -> no_nest p = false -> c14 p = false ->
  stage_flow (skip_op n) p None.
Proof.
  intros H1 _ H3 H4.
  exact (relay_stage_flow p H1 H3 (no_c14 H4) (skip_relay n) (skip_calls n)).
Qed.
Print Assumptions skip_stage_flow.
