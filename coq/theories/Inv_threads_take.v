(** * Inv_threads_take: C19 for take(max) fed by any number of threads, over all schedules.

    One invariant serves both granularities: [tk_step true max] (Threads.v), where the delivery that
    reaches [max] claims the end, stops the upstream and begins the sink's Terminate in one step, and
    [tkf_step max] (ThreadsFine.v), where the claim ([end.swap(true)]) and the rest are two steps and
    in between [tks_end] is set, nothing has been sent and the claimant is at [TkAtEndStore].  What has
    been sent is counted by [tks_stopped]; at the coarse granularity [tks_stopped = tks_end]. *)

From CB Require Import Threads ThreadSpec ThreadsFine ThreadFacts.
From Coq Require Import List Arith Lia Bool.
Import ListNotations.

Set Implicit Arguments.

Inductive tk_reach (max : nat) (qs : nat -> list val) : tk_state -> Prop :=
| tkr0 : tk_reach max qs (tk_init qs)
| tkrS s t : tk_reach max qs s -> tk_reach max qs (tk_step true max s t).

Section TakeProof.
  Variable max : nat.
  Variable qs : nat -> list val.

  Definition pc (s : tk_state) (t : nat) : tk_pc := tk_pcv (tks_th s t).

  (** the pcs of the thread that obtained the last ticket *)
  Definition is_hpc (p : tk_pc) : bool :=
    match p with
    | TkInData t' => Nat.eqb t' max
    | TkAtEndLoad | TkAtEndStore | TkInTerm => true
    | _ => false
    end.

  (** [ThreadFacts.b2n] again: [sent], and through it the statements about the driver's runs, are
      written over this one *)
  Definition b2n (b : bool) : nat := if b then 1 else 0.

  (** [fine = true]: every access is a step *)
  Definition tk_gstep (fine : bool) : tk_state -> nat -> tk_state :=
    if fine then tkf_step max else tk_step true max.

  Lemma tk_gstep_eq fine s t :
    (fine = true -> pc s t = TkAtEndLoad -> tks_end s = true) ->
    tk_gstep fine s t = tk_step true max s t.
  Proof.
    destruct fine; [|reflexivity]. unfold tk_gstep, tkf_step, tk_step, pc. intros H.
    destruct (tk_pcv (tks_th s t)); try reflexivity. now rewrite H.
  Qed.

  Lemma next_pc b th :
    tk_pcv (tk_next b th) = TkFinished \/ tk_pcv (tk_next b th) = TkAtLoad.
  Proof.
    unfold tk_next. destruct (tk_q th) as [|v [|w q]]; cbn; auto. destruct b; cbn; auto.
  Qed.

  (** what the flags say about a thread at [p] *)
  Definition pc_ok (e st : bool) (p : tk_pc) : Prop :=
    match p with
    | TkInTerm => st = true
    | TkAtEndStore => e = true /\ st = false
    | TkAtInc => False
    | _ => True
    end.

  Record ctl (fine : bool) (tk : nat) (e st : bool) (pcs : nat -> tk_pc) : Prop := {
    c_le : tk <= max;
    c_se : st = true -> e = true;
    c_coarse : fine = false -> st = e;
    (* a thread at a holder's pc has the last ticket, and is the only such thread *)
    c_hold : forall t, is_hpc (pcs t) = true ->
             tk = max /\ forall t', is_hpc (pcs t') = true -> t' = t;
    c_done : 1 <= max -> tk = max -> e = true \/ exists t, is_hpc (pcs t) = true;
    (* the end is claimed and nothing has been sent: the claimant is before its cell load *)
    c_mid : e = true -> st = false -> exists t, pcs t = TkAtEndStore;
    c_pc : forall t, pc_ok e st (pcs t) }.

  Lemma ctl_ext fine tk e st pcs pcs' :
    (forall t, pcs' t = pcs t) -> ctl fine tk e st pcs -> ctl fine tk e st pcs'.
  Proof.
    intros E []. constructor; auto.
    - intros t H. rewrite E in H. destruct (c_hold0 _ H) as [? U]. split; [assumption|].
      intros t' H'. rewrite E in H'. auto.
    - intros Hp Hm. destruct (c_done0 Hp Hm) as [|[t H]]; [auto|]. right. exists t. now rewrite E.
    - intros He Hst. destruct (c_mid0 He Hst) as [t H]. exists t. now rewrite E.
    - intros t. rewrite E. auto.
  Qed.

  Lemma ctl_silent fine tk e st pcs t p' :
    ctl fine tk e st pcs -> pcs t <> TkAtEndStore ->
    (is_hpc p' = true -> is_hpc (pcs t) = true) ->
    (is_hpc (pcs t) = true -> is_hpc p' = true \/ e = true) ->
    pc_ok e st p' ->
    ctl fine tk e st (upd pcs t p').
  Proof.
    intros [] Hs H1 H2 Hok.
    assert (Hh : forall t0, is_hpc (upd pcs t p' t0) = true -> is_hpc (pcs t0) = true).
    { intros t0. apply upd_cases; [intros -> | ]; auto. }
    constructor; auto.
    - intros t0 H. destruct (c_hold0 _ (Hh _ H)) as [? U]. split; [assumption|].
      intros t' H'. apply U, Hh, H'.
    - intros Hp Hm. destruct (c_done0 Hp Hm) as [|[t0 H]]; [auto|].
      destruct (Nat.eq_dec t0 t) as [->|ne].
      + destruct (H2 H); [right; exists t; now rewrite upd_same | auto].
      + right. exists t0. now rewrite upd_other.
    - intros He Hst. destruct (c_mid0 He Hst) as [t0 H]. exists t0.
      rewrite upd_other; [exact H | congruence].
    - intros t0. apply upd_cases; auto.
  Qed.

  Lemma ctl_next fine tk e st pcs t b th :
    ctl fine tk e st pcs -> pcs t <> TkAtEndStore -> (is_hpc (pcs t) = true -> e = true) ->
    ctl fine tk e st (upd pcs t (tk_pcv (tk_next b th))).
  Proof.
    intros C Hs He. destruct (next_pc b th) as [-> | ->];
      (apply ctl_silent; [exact C | exact Hs | discriminate | auto | exact I]).
  Qed.

  Lemma ctl_ticket fine tk e st pcs t :
    ctl fine tk e st pcs -> tk < max -> ctl fine (S tk) e st (upd pcs t (TkInData (S tk))).
  Proof.
    intros [] Hlt.
    assert (Hno : forall t0, is_hpc (pcs t0) = true -> False).
    { intros t0 H. destruct (c_hold0 _ H). lia. }
    assert (Hh : forall t0, is_hpc (upd pcs t (TkInData (S tk)) t0) = true -> t0 = t /\ S tk = max).
    { intros t0. destruct (Nat.eq_dec t0 t) as [->|ne].
      - rewrite upd_same. cbn [is_hpc]. intros H. apply Nat.eqb_eq in H. auto.
      - rewrite upd_other by exact ne. intros H. destruct (Hno _ H). }
    constructor; auto.
    - intros t0 H. destruct (Hh _ H) as [-> ?]. split; [assumption|]. intros t' H'. apply (Hh _ H').
    - intros _ Hm. right. exists t. rewrite upd_same. cbn [is_hpc]. now apply Nat.eqb_eq.
    - intros He Hst. destruct (c_mid0 He Hst) as [t0 H]. destruct (Hno t0). now rewrite H.
    - intros t0. apply upd_cases; [intros _; exact I | auto].
  Qed.

  Lemma ctl_claim tk st pcs t :
    ctl true tk false st pcs -> pcs t = TkAtEndLoad -> ctl true tk true st (upd pcs t TkAtEndStore).
  Proof.
    intros [] E.
    assert (Est : st = false) by (destruct st; [discriminate c_se0|]; reflexivity).
    assert (Hh : forall t0, is_hpc (upd pcs t TkAtEndStore t0) = true -> is_hpc (pcs t0) = true).
    { intros t0. apply upd_cases; [intros ->; now rewrite E | auto]. }
    constructor; auto; try discriminate.
    - intros t0 H. destruct (c_hold0 _ (Hh _ H)) as [? U]. split; [assumption|].
      intros t' H'. apply U, Hh, H'.
    - intros _ _. exists t. apply upd_same.
    - intros t0. apply upd_cases; [now split|]. intros _. specialize (c_pc0 t0).
      destruct (pcs t0); cbn in *; auto.
  Qed.

  Lemma ctl_end_now fine tk e pcs t :
    ctl fine tk e false pcs -> is_hpc (pcs t) = true -> ctl fine tk true true (upd pcs t TkInTerm).
  Proof.
    intros [] Ht. destruct (c_hold0 _ Ht) as [Hm U].
    assert (Hh : forall t0, is_hpc (upd pcs t TkInTerm t0) = true -> t0 = t).
    { intros t0. destruct (Nat.eq_dec t0 t) as [|ne]; [auto|]. rewrite upd_other by exact ne. auto. }
    constructor; auto; try discriminate.
    - intros t0 H. split; [exact Hm|]. intros t' H'. now rewrite (Hh _ H), (Hh _ H').
    - intros t0. apply upd_cases; [reflexivity|]. intros ne. specialize (c_pc0 t0).
      destruct (pcs t0) eqn:E0; cbn in *; auto. destruct ne. apply U. now rewrite E0.
  Qed.

  Record sent (tk : nat) (st : bool) (tr : list tevent) : Prop := {
    s_taken : tk = count is_begin_data tr;
    s_up : count is_up_term tr = b2n st;
    s_bt : count is_begin_term tr = b2n st;
    s_nopanic : existsb is_panic tr = false }.

  Lemma sent_tend tk st tr t : sent tk st tr -> sent tk st ((t, TEnd) :: tr).
  Proof. intros []. constructor; assumption. Qed.

  Lemma sent_data tk st tr t v : sent tk st tr -> sent (S tk) st ((t, TBegin (DD v)) :: tr).
  Proof.
    intros []. constructor; try assumption. rewrite count_cons. cbn. now f_equal.
  Qed.

  Lemma sent_end tk tr t :
    sent tk false tr -> sent tk true ((t, TBegin DT) :: (t, TUp 0 UT) :: tr).
  Proof.
    intros []. constructor; try assumption; rewrite !count_cons; cbn; now f_equal.
  Qed.

  Definition inv (fine : bool) (s : tk_state) : Prop :=
    ctl fine (tks_taken s) (tks_end s) (tks_stopped s) (pc s)
    /\ sent (tks_taken s) (tks_stopped s) (tks_tr s).

  Lemma inv_set fine s s1 t th :
    tks_th s1 = tks_th s ->
    ctl fine (tks_taken s1) (tks_end s1) (tks_stopped s1) (upd (pc s) t (tk_pcv th)) ->
    sent (tks_taken s1) (tks_stopped s1) (tks_tr s1) ->
    inv fine (tk_set s1 t th).
  Proof.
    intros Eth C S. split; [|exact S]. eapply ctl_ext; [|exact C].
    intros t0. unfold pc, tk_set, upd. cbn. rewrite Eth. destruct (t0 =? t); reflexivity.
  Qed.

  Lemma inv_init fine : inv fine (tk_init qs).
  Proof.
    assert (Hn : forall t, is_hpc (pc (tk_init qs) t) = false /\ pc_ok false false (pc (tk_init qs) t)).
    { intros t. unfold pc. cbn. destruct (qs t); cbn; auto. }
    split; [|now constructor]. constructor; cbn; auto with arith; try discriminate.
    - intros t H. now rewrite (proj1 (Hn t)) in H.
    - lia.
    - intros t. apply Hn.
  Qed.

  Lemma inv_end_now fine s t :
    inv fine s -> is_hpc (pc s t) = true -> tks_stopped s = false ->
    inv fine (tk_end_now s t (tks_th s t)).
  Proof.
    intros [C S] Ht Est. rewrite Est in C, S.
    apply inv_set with (s := s); [reflexivity | cbn; eapply ctl_end_now; eassumption | now apply sent_end].
  Qed.

  Lemma inv_tk_step fine s t : inv fine s -> inv fine (tk_step true max s t).
  Proof.
    intros I. pose proof I as [C S]. pose proof (c_pc C t) as Hok.
    unfold tk_step. fold (pc s t). destruct (pc s t) eqn:E.
    - (* TkAtLoad *)
      destruct (tk_q (tks_th s t)) as [|v q]; [exact I|].
      destruct (Nat.ltb_spec (tks_taken s) max) as [Hlt|Hge];
        apply inv_set with (s := s); try reflexivity; cbn.
      + now apply ctl_ticket.
      + now apply sent_data.
      + apply ctl_next; rewrite ?E; [exact C | discriminate..].
      + exact S.
    - destruct Hok.
    - (* TkInData t' *)
      destruct (Nat.eqb_spec t' max) as [->|Hne];
        (apply inv_set with (s := s); [reflexivity | cbn | now apply sent_tend]).
      + apply ctl_silent; rewrite ?E; cbn; auto; try discriminate. now rewrite Nat.eqb_refl.
      + apply ctl_next; rewrite ?E; [exact C | discriminate |]. cbn. apply Nat.eqb_neq in Hne.
        now rewrite Hne.
    - (* TkAtEndLoad: [end.swap(true)] - whoever finds the flag unset goes on to the end *)
      destruct (tks_end s) eqn:Ee.
      + apply inv_set with (s := s); [reflexivity | rewrite Ee | exact S].
        apply ctl_next; rewrite ?E; [exact C | discriminate | auto].
      + apply inv_end_now; [exact I | now rewrite E |].
        destruct (tks_stopped s); [discriminate (c_se C eq_refl) | reflexivity].
    - (* TkAtEndStore *)
      apply inv_end_now; [exact I | now rewrite E | apply Hok].
    - (* TkInTerm *)
      apply inv_set with (s := s); [reflexivity | cbn | now apply sent_tend].
      apply ctl_next; rewrite ?E; [exact C | discriminate |]. intros _. exact (c_se C Hok).
    - exact I.
  Qed.

  Lemma inv_step fine s t : inv fine s -> inv fine (tk_gstep fine s t).
  Proof.
    intros I. destruct (tks_end s) eqn:Ee.
    - rewrite tk_gstep_eq by auto. now apply inv_tk_step.
    - destruct fine; [|now apply inv_tk_step].
      assert (D : pc s t = TkAtEndLoad \/ pc s t <> TkAtEndLoad)
        by (destruct (pc s t); (now left) || (right; discriminate)).
      destruct D as [E|E].
      + (* [end.swap(true)] finds the flag unset *)
        unfold tk_gstep, tkf_step. fold (pc s t). rewrite E, Ee. destruct I as [C S].
        apply inv_set with (s := s); [reflexivity | cbn | exact S]. rewrite Ee in C. now apply ctl_claim.
      + rewrite tk_gstep_eq by (intros _ E'; destruct (E E')). now apply inv_tk_step.
  Qed.

  (** *** C19 in a state satisfying the invariant: never more than [max] data, never two upstream
      terminations, never two completions; once every thread has returned and [max] data were
      delivered, the upstream was terminated and the sink completed, exactly once each *)

  Lemma inv_safe fine s :
    inv fine s ->
    count is_begin_data (tks_tr s) <= max
    /\ count is_up_term (tks_tr s) <= 1
    /\ count is_begin_term (tks_tr s) <= 1.
  Proof.
    intros [[] []]. rewrite <- s_taken0, s_up0, s_bt0. destruct (tks_stopped s); cbn; lia.
  Qed.

  Lemma inv_complete fine s :
    1 <= max -> inv fine s -> (forall t, tk_finished s t = true) ->
    max <= count is_begin_data (tks_tr s) ->
    count is_up_term (tks_tr s) = 1 /\ count is_begin_term (tks_tr s) = 1.
  Proof.
    intros Hpos [[] []] Hfin Hmax.
    assert (Hnf : forall t, pc s t <> TkFinished -> False).
    { intros t H. specialize (Hfin t). unfold tk_finished in Hfin. apply H. unfold pc.
      destruct (tk_pcv (tks_th s t)); (reflexivity || discriminate). }
    rewrite s_up0, s_bt0. rewrite <- s_taken0 in Hmax.
    assert (Ee : tks_end s = true).
    { destruct (c_done0 Hpos ltac:(lia)) as [H | [t H]]; [exact H|].
      destruct (Hnf t). intros E. now rewrite E in H. }
    destruct (tks_stopped s); [split; reflexivity|].
    destruct (c_mid0 Ee eq_refl) as [t H]. destruct (Hnf t). now rewrite H.
  Qed.

  Lemma inv_check fine s :
    1 <= max -> inv fine s -> (forall t, tk_finished s t = true) ->
    take_check max (rev (tks_tr s)) = [].
  Proof.
    intros Hpos I Hfin. unfold take_check.
    rewrite !count_rev, existsb_rev, (s_nopanic (proj2 I)).
    destruct (inv_safe I) as (H1 & H2 & H3).
    rewrite (proj2 (Nat.leb_le _ _) H1), (proj2 (Nat.leb_le _ _) H2), (proj2 (Nat.leb_le _ _) H3).
    destruct (Nat.leb_spec max (count is_begin_data (tks_tr s))) as [Hle|Hlt]; [|reflexivity].
    destruct (inv_complete Hpos I Hfin Hle) as [-> ->]. reflexivity.
  Qed.

  Lemma tk_gstep_other fine s t t0 : t0 <> t -> tks_th (tk_gstep fine s t) t0 = tks_th s t0.
  Proof.
    intros ne.
    assert (H : forall s1 x, tks_th s1 = tks_th s -> tks_th (tk_set s1 t x) t0 = tks_th s t0).
    { intros s1 x E. unfold tk_set. cbn. now rewrite upd_other, E. }
    destruct fine; unfold tk_gstep, tkf_step, tk_step, tk_end_now; destruct (tk_pcv (tks_th s t));
      repeat match goal with |- context [match ?x with _ => _ end] => destruct x end;
      first [reflexivity | apply H; reflexivity].
  Qed.

  Lemma tk_gstep_finished fine s t t0 :
    tk_finished s t0 = true -> tk_finished (tk_gstep fine s t) t0 = true.
  Proof.
    intros H. destruct (Nat.eq_dec t0 t) as [->|ne].
    - unfold tk_finished in H. rewrite tk_gstep_eq; unfold pc, tk_step.
      + destruct (tk_pcv (tks_th s t)) eqn:E; try discriminate. unfold tk_finished. now rewrite E.
      + intros _ E. rewrite E in H. discriminate.
    - unfold tk_finished. now rewrite tk_gstep_other.
  Qed.

  Lemma init_finished t : qs t = [] -> tk_finished (tk_init qs) t = true.
  Proof. intros H. unfold tk_finished. cbn. now rewrite H. Qed.

  (** threads beyond the [n] the driver runs have empty queues and never start;
      "all of the first [n] finished" is what the driver's drain loop establishes *)
  Lemma inv_check_n fine s n :
    1 <= max -> inv fine s -> (forall t, n <= t -> tk_finished s t = true) ->
    first_unfinished tk_finished n s = None ->
    take_check max (rev (tks_tr s)) = [].
  Proof.
    intros Hpos I Hq Hnone. apply (inv_check Hpos I).
    intros t. destruct (Nat.lt_ge_cases t n); [now apply (first_unfinished_none _ _ Hnone) | auto].
  Qed.

  Lemma inv_reach s : tk_reach max qs s -> inv false s.
  Proof. induction 1; [apply inv_init | now apply inv_tk_step]. Qed.

  Theorem take_threads_safe s :
    tk_reach max qs s ->
    count is_begin_data (tks_tr s) <= max
    /\ count is_up_term (tks_tr s) <= 1
    /\ count is_begin_term (tks_tr s) <= 1.
  Proof. intros R. exact (inv_safe (inv_reach R)). Qed.

  Theorem take_threads_no_panic s :
    tk_reach max qs s -> existsb is_panic (tks_tr s) = false.
  Proof. intros R. exact (s_nopanic (proj2 (inv_reach R))). Qed.

  Theorem take_threads_complete s :
    1 <= max ->
    tk_reach max qs s ->
    (forall t, tk_finished s t = true) ->
    max <= count is_begin_data (tks_tr s) ->
    count is_up_term (tks_tr s) = 1 /\ count is_begin_term (tks_tr s) = 1.
  Proof. intros Hpos R. exact (inv_complete Hpos (inv_reach R)). Qed.

  Corollary take_threads_check s :
    1 <= max ->
    tk_reach max qs s ->
    (forall t, tk_finished s t = true) ->
    take_check max (rev (tks_tr s)) = [].
  Proof. intros Hpos R. exact (inv_check Hpos (inv_reach R)). Qed.

  Lemma run_full_reach n sch fuel s :
    tk_reach max qs s -> tk_reach max qs (run_full (tk_step true max) tk_finished n sch fuel s).
  Proof. apply run_full_inv. intros s' t. apply tkrS. Qed.

  Corollary run_full_safe n sch fuel :
    let s := run_full (tk_step true max) tk_finished n sch fuel (tk_init qs) in
    count is_begin_data (tks_tr s) <= max
    /\ count is_up_term (tks_tr s) <= 1
    /\ count is_begin_term (tks_tr s) <= 1.
  Proof. apply take_threads_safe, run_full_reach. constructor. Qed.

  Corollary run_full_check n sch fuel :
    1 <= max ->
    let s := run_full (tk_step true max) tk_finished n sch fuel (tk_init qs) in
    (forall t, tk_finished s t = true) ->
    take_check max (rev (tks_tr s)) = [].
  Proof. intros Hpos s. apply take_threads_check; [exact Hpos|]. apply run_full_reach. constructor. Qed.

  Lemma empty_queue_finished s t :
    tk_reach max qs s -> qs t = [] -> tk_finished s t = true.
  Proof.
    intros R Hq. induction R; [now apply init_finished | now apply (@tk_gstep_finished false)].
  Qed.

  Corollary run_full_check_n n sch fuel :
    1 <= max ->
    (forall t, n <= t -> qs t = []) ->
    let s := run_full (tk_step true max) tk_finished n sch fuel (tk_init qs) in
    first_unfinished tk_finished n s = None ->
    take_check max (rev (tks_tr s)) = [].
  Proof.
    intros Hpos Hq s.
    assert (R : tk_reach max qs s) by (apply run_full_reach; constructor).
    apply (inv_check_n Hpos (inv_reach R)). intros t Ht. apply (empty_queue_finished R). now apply Hq.
  Qed.

End TakeProof.

Print Assumptions take_threads_safe.
Print Assumptions take_threads_no_panic.
Print Assumptions take_threads_complete.
Print Assumptions take_threads_check.
Print Assumptions run_full_reach.
Print Assumptions run_full_safe.
Print Assumptions run_full_check.
Print Assumptions run_full_check_n.

(** ** the unrepaired code (load, then fetch_add) over-delivers: two threads, one item each *)

Definition unfixed_qs (t : nat) : list val :=
  match t with 0 => [VN 10] | 1 => [VN 20] | _ => [] end.
Definition unfixed_sch : list nat := [0;1;0;0;0;0;0;1;1].

Lemma take_threads_unfixed_run :
  let s := run_full (tk_step false 1) tk_finished 2 unfixed_sch 50 (tk_init unfixed_qs) in
  rev (tks_tr s) =
    [(0, TBegin (DD (VN 10))); (0, TEnd); (0, TUp 0 UT); (0, TBegin DT); (0, TEnd);
     (1, TBegin (DD (VN 20))); (1, TEnd)]
  /\ count is_begin_data (tks_tr s) = 2
  /\ tk_finished s 0 = true /\ tk_finished s 1 = true
  /\ take_check 1 (rev (tks_tr s)) = [TvOverDeliver].
Proof. vm_compute. repeat split; reflexivity. Qed.

Lemma take_threads_unfixed_refuted :
  exists qs sch,
    let s := run_full (tk_step false 1) tk_finished 2 sch 50 (tk_init qs) in
    count is_begin_data (tks_tr s) = 2 /\ ~ count is_begin_data (tks_tr s) <= 1.
Proof.
  exists unfixed_qs, unfixed_sch. vm_compute. split; [reflexivity|]. intros H.
  apply le_S_n in H. inversion H.
Qed.

Print Assumptions take_threads_unfixed_run.
Print Assumptions take_threads_unfixed_refuted.

(** [1 <= max] is needed for the completion statements: with [max = 0] this model never
    completes the sink (no thread ever obtains "the last ticket") *)
Lemma take_threads_complete_needs_pos :
  let s := tk_init (fun _ => []) in
  tk_reach 0 (fun _ => []) s /\ (forall t, tk_finished s t = true)
  /\ 0 <= count is_begin_data (tks_tr s) /\ count is_up_term (tks_tr s) = 0
  /\ take_check 0 (rev (tks_tr s)) = [TvNotCompleted].
Proof. cbn. repeat split; constructor. Qed.

Print Assumptions take_threads_complete_needs_pos.
