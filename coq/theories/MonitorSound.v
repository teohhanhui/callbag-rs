(** * MonitorSound: what "the monitor found no violation" means, in monitor-free terms.

    [mon_trace p tr] folds the protocol monitor of Machine.v over a trace; the
    per-operator theorems prove [viols (ms c) = []] for every reachable
    configuration.  This file is the generic bridge, proved once for every
    operator and every parameter record [p]: from [viols (mon_trace p tr) = []]
    to statements about the list of events [tr] alone, which can be read
    without knowing how the monitor works.

    The statements only constrain the *component's* calls ([ECall]); the
    environment's moves ([EIn]) are not checked by the monitor and may occur
    anywhere in an arbitrary trace.

    Exported theorems (all closed under the global context):
    - [viols_nil_prefix]                       violations only accumulate
    - [sound_C17], [sound_C01], [sound_C02], [sound_C03]
                                               for any [p], any trace
    - [sound_C04]  ([resub p = false])         [sub_once], [talkback_only_live]
         unconditionally; [stop_once] and [no_pull_outside] for an upstream
         that itself greets at most once and greets first (hypotheses on the
         environment's moves; the two [Example]s [*_needs_*] at the end show
         violation-free arbitrary traces on which the unconditional readings
         fail, because the monitor lets an upstream greet again)
    - [reach_ms_trace], [run_ms_trace]         [ms c = mon_trace p (trace c)]
    - [reach_upstream_conformant]              for reachable violation-free
         configurations those hypotheses hold (this is what [enabled] enforces)
    - [reach_sound]                            everything together for
         [trace c], [c] reachable, [viols (ms c) = []], [resub p = false]. *)

From CB Require Import MachineFacts.

Set Implicit Arguments.

(** ** The readable statements

    All of them are phrased with splits of the trace:
    [tr = pre ++ ev :: post] reads "[ev] occurs in [tr], [pre] is what
    happened before it and [post] what happened after it". *)

(** C01: sink [s] is greeted (sent Handshake) at most once. *)
Definition greet_once (s : nat) (tr : list event) : Prop :=
  forall pre post,
    tr = pre ++ ECall (CDn s DH) :: post ->
    ~ In (ECall (CDn s DH)) post.

(** C01: whatever else sink [s] is sent, it was greeted before.  The one
    sanctioned exception (interval, C16): the subscription of sink [s] was
    refused ([ISub s aux] with [aux <> 0]) and the message is the Error
    [spawn_err_id aux] that says so. *)
Definition greet_first (s : nat) (tr : list event) : Prop :=
  forall pre m post,
    tr = pre ++ ECall (CDn s m) :: post ->
    m <> DH ->
    In (ECall (CDn s DH)) pre
    \/ (exists e aux,
           m = DE e /\ aux <> 0 /\ e = spawn_err_id aux /\ In (EIn (ISub s aux)) pre).

(** C02: after sink [s] was sent Terminate or Error it is sent nothing. *)
Definition term_final (s : nat) (tr : list event) : Prop :=
  forall pre m post,
    tr = pre ++ ECall (CDn s m) :: post ->
    dmsg_is_term m = true ->
    forall m', ~ In (ECall (CDn s m')) post.

(** C03: after sink [s] sent Terminate or Error upward it is sent nothing. *)
Definition dispose_respected (s : nat) (tr : list event) : Prop :=
  forall pre u post,
    tr = pre ++ EIn (IUp s u) :: post ->
    umsg_is_term u = true ->
    forall m', ~ In (ECall (CDn s m')) post.

(** C04: upstream [i] is subscribed at most once. *)
Definition sub_once (i : nat) (tr : list event) : Prop :=
  forall pre post,
    tr = pre ++ ECall (CSub i) :: post ->
    ~ In (ECall (CSub i)) post.

(** C04, the unconditional form: the talkback of upstream [i] is only used
    while [i] is live, that is: [i] has greeted, and since that greeting
    [i] has not ended by itself (sent Terminate/Error), has not been stopped
    (been sent Terminate/Error) and has not been subscribed again. *)
Definition live_since_greeting (i : nat) (pre : list event) : Prop :=
  exists pre1 pre2,
    pre = pre1 ++ EIn (IDn i DH) :: pre2
    /\ (forall m, dmsg_is_term m = true -> ~ In (EIn (IDn i m)) pre2)
    /\ (forall u, umsg_is_term u = true -> ~ In (ECall (CUp i u)) pre2)
    /\ ~ In (ECall (CSub i)) pre2.

Definition talkback_only_live (i : nat) (tr : list event) : Prop :=
  forall pre u post,
    tr = pre ++ ECall (CUp i u) :: post ->
    live_since_greeting i pre.

(** What a well-behaved upstream [i] does (this is C01 read from the other
    side; it is a statement about the *environment's* moves, which the monitor
    does not check, so it is a hypothesis of the next two statements): it
    greets at most once, and sends nothing before it has greeted. *)
Definition upstream_greets_once (i : nat) (tr : list event) : Prop :=
  forall pre post,
    tr = pre ++ EIn (IDn i DH) :: post ->
    ~ In (EIn (IDn i DH)) post.

Definition upstream_greets_first (i : nat) (tr : list event) : Prop :=
  forall pre m post,
    tr = pre ++ EIn (IDn i m) :: post ->
    m <> DH ->
    In (EIn (IDn i DH)) pre.

(** C04: upstream [i] is stopped (sent Terminate/Error) at most once, and is
    not stopped after it ended by itself.  (Both clauses are proved in the
    stronger form "its talkback is not used at all afterwards", see
    [talkback_dead_after_stop] and [talkback_dead_after_end].) *)
Definition stop_once (i : nat) (tr : list event) : Prop :=
  (forall pre u post,
      tr = pre ++ ECall (CUp i u) :: post ->
      umsg_is_term u = true ->
      forall u', umsg_is_term u' = true -> ~ In (ECall (CUp i u')) post)
  /\
  (forall pre m post,
      tr = pre ++ EIn (IDn i m) :: post ->
      dmsg_is_term m = true ->
      forall u', umsg_is_term u' = true -> ~ In (ECall (CUp i u')) post).

(** C04: a Pull is only sent to an upstream that has greeted, has not ended
    by itself and has not been stopped. *)
Definition no_pull_outside (i : nat) (tr : list event) : Prop :=
  forall pre post,
    tr = pre ++ ECall (CUp i UP) :: post ->
    In (EIn (IDn i DH)) pre
    /\ (forall m, dmsg_is_term m = true -> ~ In (EIn (IDn i m)) pre)
    /\ (forall u, umsg_is_term u = true -> ~ In (ECall (CUp i u)) pre).

(** the stronger facts behind [stop_once] *)
Definition talkback_dead_after_stop (i : nat) (tr : list event) : Prop :=
  forall pre u post,
    tr = pre ++ ECall (CUp i u) :: post ->
    umsg_is_term u = true ->
    forall u', ~ In (ECall (CUp i u')) post.

Definition talkback_dead_after_end (i : nat) (tr : list event) : Prop :=
  forall pre m post,
    tr = pre ++ EIn (IDn i m) :: post ->
    dmsg_is_term m = true ->
    forall u', ~ In (ECall (CUp i u')) post.

(** C17: nothing panicked. *)
Definition no_panic (tr : list event) : Prop := ~ In EPanic tr.

Section MonitorSound.
  Variable p : mparams.

  Local Notation runm := (fold_left (mon_event p)).

  (** *** violations only accumulate *)

  Lemma mon_call_viols m c :
    viols (mon_event p m (ECall c)) = check_call p m c ++ viols m.
  Proof.
    cbn [mon_event]. rewrite add_viols_eq. cbn [viols set set_cstack].
    cbn. now rewrite mon_call_upd_viols.
  Qed.

  Lemma mon_event_viols m ev : exists vs, viols (mon_event p m ev) = vs ++ viols m.
  Proof.
    destruct ev as [i|c| | |ob|].
    - exists []. cbn [mon_event]. now rewrite mon_input_viols.
    - exists (check_call p m c). apply mon_call_viols.
    - exists []. reflexivity.
    - cbn [mon_event]. destruct (cstack m).
      + exists (check_quiescent p m). rewrite add_viols_eq. reflexivity.
      + exists []. reflexivity.
    - exists []. destruct ob as [r|v|s [|]|s]; reflexivity.
    - exists [VPanic]. reflexivity.
  Qed.

  Lemma run_viols tr : forall m, exists vs, viols (runm tr m) = vs ++ viols m.
  Proof.
    induction tr as [|ev tr IH]; intros m; cbn [fold_left].
    - now exists [].
    - destruct (IH (mon_event p m ev)) as [vs1 E1].
      destruct (mon_event_viols m ev) as [vs2 E2].
      exists (vs1 ++ vs2). now rewrite E1, E2, app_assoc.
  Qed.

  Lemma run_viols_nil tr m : viols (runm tr m) = [] -> viols m = [].
  Proof.
    intros H. destruct (run_viols tr m) as [vs E]. rewrite H in E.
    symmetry in E. now apply app_eq_nil in E.
  Qed.

  Theorem viols_nil_prefix tr1 tr2 :
    viols (mon_trace p (tr1 ++ tr2)) = [] -> viols (mon_trace p tr1) = [].
  Proof.
    unfold mon_trace. rewrite fold_left_app. apply run_viols_nil.
  Qed.

  Lemma mon_trace_snoc tr ev :
    mon_trace p (tr ++ [ev]) = mon_event p (mon_trace p tr) ev.
  Proof. unfold mon_trace. now rewrite fold_left_app. Qed.

  (** no violation overall: the check made at each call of the trace passed *)
  Lemma split_check pre c post :
    viols (mon_trace p (pre ++ ECall c :: post)) = [] ->
    check_call p (mon_trace p pre) c = [].
  Proof.
    intros H.
    replace (pre ++ ECall c :: post) with ((pre ++ [ECall c]) ++ post) in H
      by now rewrite <- app_assoc.
    apply viols_nil_prefix in H. rewrite mon_trace_snoc, mon_call_viols in H.
    now apply app_eq_nil in H.
  Qed.

  (** *** how one event moves the status maps *)

  Definition sk_next (k : sks) (s : nat) (ev : event) : sks :=
    match ev with
    | EIn (IUp s' u) => if Nat.eqb s s' && umsg_is_term u then SDisposed else k
    | ECall (CDn s' d) =>
        if Nat.eqb s s' then
          match d with
          | DH => match k with SNone => SLive | _ => k end
          | DD _ => k
          | _ => match k with SDisposed => SDisposed | _ => SFinished end
          end
        else k
    | _ => k
    end.

  Definition us_next (k : uss) (i : nat) (ev : event) : uss :=
    match ev with
    | EIn (IDn i' d) =>
        if Nat.eqb i i' then
          match d with DH => ULive | DD _ => k | _ => UEnded end
        else k
    | ECall (CSub i') => if Nat.eqb i i' then USubd else k
    | ECall (CUp i' u) => if Nat.eqb i i' && umsg_is_term u then UStopped else k
    | _ => k
    end.

  Definition refused_next (r : option nat) (s : nat) (ev : event) : option nat :=
    match ev with
    | EIn (ISub s' (S a)) => if Nat.eqb s s' then Some (spawn_err_id (S a)) else r
    | _ => r
    end.

  Definition cr_next (n : nat) (s : nat) (ev : event) : nat :=
    match ev with
    | EIn (IUp s' UP) => if Nat.eqb s s' then pred n else n
    | ECall (CDn s' DH) => if Nat.eqb s s' then S n else n
    | ECall (CDn s' (DD _)) => if Nat.eqb s s' then S n else n
    | _ => n
    end.

  Definition subd_next (b : bool) (s : nat) (ev : event) : bool :=
    match ev with
    | EIn (ISub s' _) => if Nat.eqb s s' then true else b
    | _ => b
    end.

  (** one case analysis per monitor function, for all five maps *)
  Lemma call_upd_status m c :
    (forall s, sk (mon_call_upd m c) s = sk_next (sk m s) s (ECall c)) /\
    (forall i, us (mon_call_upd m c) i = us_next (us m i) i (ECall c)) /\
    (forall s, credit (mon_call_upd m c) s = cr_next (credit m s) s (ECall c)) /\
    refused (mon_call_upd m c) = refused m /\ subd (mon_call_upd m c) = subd m.
  Proof.
    destruct c as [i'|i' u|s' d]; [repeat split | destruct u; repeat split |].
    1-3: intros i; cbn; unfold upd; destruct (Nat.eqb i i'); reflexivity.
    destruct d as [|v|e|]; cbn [mon_call_upd sk_next us_next cr_next].
    - destruct (sk m s') eqn:E; repeat split; intros s; cbn; unfold upd;
        destruct (Nat.eqb_spec s s') as [->|]; rewrite ?E; reflexivity.
    - repeat split; intros s; cbn; unfold upd; destruct (Nat.eqb_spec s s') as [->|]; reflexivity.
    - destruct (sk m s') eqn:E, (err_due m s') as [e'|]; try destruct (Nat.eqb e e');
        repeat split; intros s; cbn; unfold upd;
        destruct (Nat.eqb_spec s s') as [->|]; rewrite ?E; reflexivity.
    - destruct (sk m s') eqn:E; repeat split; intros s; cbn; unfold upd;
        destruct (Nat.eqb_spec s s') as [->|]; rewrite ?E; reflexivity.
  Qed.

  Lemma input_status m inp :
    (forall s, sk (mon_input p m inp) s = sk_next (sk m s) s (EIn inp)) /\
    (forall i, us (mon_input p m inp) i = us_next (us m i) i (EIn inp)) /\
    (forall s, refused (mon_input p m inp) s = refused_next (refused m s) s (EIn inp)) /\
    (forall s, credit (mon_input p m inp) s = cr_next (credit m s) s (EIn inp)) /\
    (forall s, subd (mon_input p m inp) s = subd_next (subd m s) s (EIn inp)).
  Proof.
    destruct inp as [j [|aux]|j [|e|]|j [|v|e|]|j]; repeat split; intros i; cbn;
      unfold upd; destruct (Nat.eqb_spec i j) as [->|]; reflexivity.
  Qed.

  Lemma event_status m ev :
    (forall s, sk (mon_event p m ev) s = sk_next (sk m s) s ev) /\
    (forall i, us (mon_event p m ev) i = us_next (us m i) i ev) /\
    (forall s, refused (mon_event p m ev) s = refused_next (refused m s) s ev) /\
    (forall s, credit (mon_event p m ev) s = cr_next (credit m s) s ev) /\
    (forall s, subd (mon_event p m ev) s = subd_next (subd m s) s ev).
  Proof.
    destruct ev as [inp|c| | |ob|].
    - apply input_status.
    - cbn [mon_event]. rewrite add_viols_eq.
      destruct (call_upd_status m c) as (A & B & C & R & S).
      repeat split; [exact A | exact B | | exact C |]; intros s; cbn; now rewrite ?R, ?S.
    - repeat split.
    - cbn [mon_event]. destruct (cstack m); rewrite ?add_viols_eq; repeat split.
    - destruct ob as [r|v|s' [|]|s']; repeat split.
    - repeat split.
  Qed.

  Lemma sk_mon_event m ev s : sk (mon_event p m ev) s = sk_next (sk m s) s ev.
  Proof. apply event_status. Qed.

  Lemma us_mon_event m ev i : us (mon_event p m ev) i = us_next (us m i) i ev.
  Proof. apply event_status. Qed.

  Lemma refused_mon_event m ev s :
    refused (mon_event p m ev) s = refused_next (refused m s) s ev.
  Proof. apply event_status. Qed.

  Lemma credit_mon_event m ev s : credit (mon_event p m ev) s = cr_next (credit m s) s ev.
  Proof. apply event_status. Qed.

  Lemma subd_mon_event m ev s : subd (mon_event p m ev) s = subd_next (subd m s) s ev.
  Proof. apply event_status. Qed.

  (** *** what a passed check says about the status *)

  Lemma check_greet m s : check_call p m (CDn s DH) = [] -> sk m s = SNone.
  Proof. cbn. destruct (sk m s); intros H; try discriminate; reflexivity. Qed.

  Lemma check_dn m s d :
    d <> DH -> check_call p m (CDn s d) = [] ->
    sk m s = SLive \/ (sk m s = SNone /\ exists e, d = DE e /\ refused m s = Some e).
  Proof.
    intros Hd H.
    destruct d as [|v|e|]; [congruence| | |]; cbn [check_call] in H;
      apply app_eq_nil in H; destruct H as [H _];
      destruct (sk m s); try discriminate; auto; right; split; auto.
    destruct (refused m s) as [e'|]; [|discriminate].
    destruct (Nat.eqb_spec e e'); [subst|discriminate]. now exists e'.
  Qed.

  (** a delivery that passes the check goes to a sink in the state the message needs *)
  Lemma check_dn_sk m s d :
    check_call p m (CDn s d) = [] -> refused m s = None ->
    sk m s = match d with DH => SNone | _ => SLive end.
  Proof.
    intros H Hr. destruct d as [|v|e|]; [exact (check_greet _ _ H)|..];
      (apply check_dn in H; [|discriminate]; destruct H as [E|[_ (e' & _ & E)]];
       [exact E | congruence]).
  Qed.

  Lemma check_dn_over m s d : sk_over (sk m s) = true -> check_call p m (CDn s d) <> [].
  Proof.
    intros Ho. destruct d as [|v|e|]; cbn [check_call];
      destruct (sk m s); try discriminate Ho; discriminate.
  Qed.

  Lemma check_sub m i : resub p = false -> check_call p m (CSub i) = [] -> us m i = UNone.
  Proof.
    intros Hr H. cbn [check_call] in H. apply app_eq_nil in H. destruct H as [H _].
    rewrite Hr in H. destruct (us m i); try discriminate; reflexivity.
  Qed.

  Lemma check_up m i u : check_call p m (CUp i u) = [] -> us m i = ULive.
  Proof.
    intros H. cbn [check_call] in H. apply app_eq_nil in H. destruct H as [H _].
    destruct (us m i); try discriminate; reflexivity.
  Qed.

  Lemma sk_next_none k s ev :
    sk_next k s ev = SNone -> k = SNone /\ ev <> ECall (CDn s DH).
  Proof.
    destruct ev as [[s' aux|s' u|i' d|s']|[i'|i' u|s' d]| | |ob|]; cbn;
      try (intros ->; split; [reflexivity|discriminate]).
    - destruct (Nat.eqb s s' && umsg_is_term u); [discriminate|].
      intros ->; split; [reflexivity|discriminate].
    - destruct (Nat.eqb_spec s s') as [->|Hne].
      + destruct d as [|v|e|]; destruct k; try discriminate;
          intros _; split; try reflexivity; discriminate.
      + intros ->; split; [reflexivity|congruence].
  Qed.

  Lemma sk_next_live k s ev :
    sk_next k s ev = SLive -> k = SLive \/ ev = ECall (CDn s DH).
  Proof.
    destruct ev as [[s' aux|s' u|i' d|s']|[i'|i' u|s' d]| | |ob|]; cbn; auto.
    - destruct (Nat.eqb s s' && umsg_is_term u); [discriminate|auto].
    - destruct (Nat.eqb_spec s s') as [->|Hne]; [|auto].
      destruct d as [|v|e|]; destruct k; try discriminate; auto.
  Qed.

  Lemma sk_next_over k s ev : sk_over k = true -> sk_over (sk_next k s ev) = true.
  Proof.
    intros Ho.
    destruct ev as [[s' aux|s' u|i' d|s']|[i'|i' u|s' d]| | |ob|]; cbn; auto.
    - destruct (Nat.eqb s s' && umsg_is_term u); auto.
    - destruct (Nat.eqb s s'); [|auto].
      destruct d as [|v|e|]; destruct k; try discriminate Ho; reflexivity.
  Qed.

  Lemma sk_next_term_dn k s d :
    dmsg_is_term d = true -> sk_over (sk_next k s (ECall (CDn s d))) = true.
  Proof.
    intros Ht. cbn. rewrite Nat.eqb_refl.
    destruct d as [|v|e|]; try discriminate Ht; destruct k; reflexivity.
  Qed.

  Lemma sk_next_term_up k s u :
    umsg_is_term u = true -> sk_over (sk_next k s (EIn (IUp s u))) = true.
  Proof. intros Ht. cbn. now rewrite Nat.eqb_refl, Ht. Qed.

  Lemma refused_next_some r s ev e :
    refused_next r s ev = Some e ->
    r = Some e \/ exists a, ev = EIn (ISub s (S a)) /\ e = spawn_err_id (S a).
  Proof.
    destruct ev as [[s' [|a]|s' u|i' d|s']|c| | |ob|]; cbn; auto.
    destruct (Nat.eqb_spec s s') as [->|Hne]; [|auto].
    intros [= <-]. right. now exists a.
  Qed.

  (** *** the status after a prefix, in terms of the prefix (any trace) *)

  Lemma mon_trace_split pre ev post :
    mon_trace p (pre ++ ev :: post) = runm post (mon_event p (mon_trace p pre) ev).
  Proof. unfold mon_trace. now rewrite fold_left_app. Qed.

  Lemma after_greet tr s :
    In (ECall (CDn s DH)) tr -> sk (mon_trace p tr) s <> SNone.
  Proof.
    induction tr as [|ev tr IH] using rev_ind; intros Hin; [destruct Hin|].
    rewrite mon_trace_snoc, sk_mon_event. intros Hn.
    apply sk_next_none in Hn. destruct Hn as [Hk Hev].
    apply in_app_or in Hin. destruct Hin as [Hin|[Heq|[]]].
    - now apply IH.
    - congruence.
  Qed.

  Lemma live_greeted tr s :
    sk (mon_trace p tr) s = SLive -> In (ECall (CDn s DH)) tr.
  Proof.
    induction tr as [|ev tr IH] using rev_ind; [discriminate|].
    rewrite mon_trace_snoc, sk_mon_event. intros Hl.
    apply sk_next_live in Hl. apply in_or_app. destruct Hl as [Hl| ->].
    - left. now apply IH.
    - right. now left.
  Qed.

  Lemma refused_sub tr s e :
    refused (mon_trace p tr) s = Some e ->
    exists aux, aux <> 0 /\ e = spawn_err_id aux /\ In (EIn (ISub s aux)) tr.
  Proof.
    induction tr as [|ev tr IH] using rev_ind; [discriminate|].
    rewrite mon_trace_snoc, refused_mon_event. intros Hr.
    apply refused_next_some in Hr. destruct Hr as [Hr|[a [-> ->]]].
    - destruct (IH Hr) as [aux [Ha [He Hin]]]. exists aux. repeat split; auto.
      apply in_or_app. now left.
    - exists (S a). repeat split; auto. apply in_or_app. right. now left.
  Qed.

  Lemma run_over tr s : forall m,
    sk_over (sk m s) = true -> sk_over (sk (runm tr m) s) = true.
  Proof.
    induction tr as [|ev tr IH]; intros m Ho; cbn [fold_left]; [exact Ho|].
    apply IH. rewrite sk_mon_event. now apply sk_next_over.
  Qed.

  Lemma over_after_dn pre s d mid :
    dmsg_is_term d = true ->
    sk_over (sk (mon_trace p (pre ++ ECall (CDn s d) :: mid)) s) = true.
  Proof.
    intros Ht. rewrite mon_trace_split. apply run_over.
    rewrite sk_mon_event. now apply sk_next_term_dn.
  Qed.

  Lemma over_after_up pre s u mid :
    umsg_is_term u = true ->
    sk_over (sk (mon_trace p (pre ++ EIn (IUp s u) :: mid)) s) = true.
  Proof.
    intros Ht. rewrite mon_trace_split. apply run_over.
    rewrite sk_mon_event. now apply sk_next_term_up.
  Qed.

  (** re-bracketing [pre ++ x :: (a ++ y :: b)] around the second event *)
  Lemma resplit (pre a b : list event) x y :
    pre ++ x :: a ++ y :: b = (pre ++ x :: a) ++ y :: b.
  Proof. now rewrite <- app_assoc. Qed.

  Theorem sound_C17 tr : viols (mon_trace p tr) = [] -> no_panic tr.
  Proof.
    intros Hv Hin. apply in_split in Hin. destruct Hin as [pre [post ->]].
    replace (pre ++ EPanic :: post) with ((pre ++ [EPanic]) ++ post) in Hv
      by now rewrite <- app_assoc.
    apply viols_nil_prefix in Hv. rewrite mon_trace_snoc in Hv. discriminate Hv.
  Qed.

  Theorem sound_C01 tr :
    viols (mon_trace p tr) = [] -> forall s, greet_once s tr /\ greet_first s tr.
  Proof.
    intros Hv s. split.
    - intros pre post -> Hin. apply in_split in Hin. destruct Hin as [a [b ->]].
      rewrite resplit in Hv. apply split_check, check_greet in Hv.
      revert Hv. apply after_greet. apply in_or_app. right. now left.
    - intros pre m post -> Hm. apply split_check in Hv.
      apply (check_dn _ _ Hm) in Hv. destruct Hv as [Hl|[_ [e [-> Hr]]]].
      + left. now apply live_greeted.
      + right. apply refused_sub in Hr. destruct Hr as [aux [Ha [He Hin]]].
        now exists e, aux.
  Qed.

  Theorem sound_C02 tr : viols (mon_trace p tr) = [] -> forall s, term_final s tr.
  Proof.
    intros Hv s pre m post -> Ht m' Hin.
    apply in_split in Hin. destruct Hin as [a [b ->]].
    rewrite resplit in Hv. apply split_check in Hv.
    revert Hv. apply check_dn_over. now apply over_after_dn.
  Qed.

  Theorem sound_C03 tr : viols (mon_trace p tr) = [] -> forall s, dispose_respected s tr.
  Proof.
    intros Hv s pre u post -> Ht m' Hin.
    apply in_split in Hin. destruct Hin as [a [b ->]].
    rewrite resplit in Hv. apply split_check in Hv.
    revert Hv. apply check_dn_over. now apply over_after_up.
  Qed.

  Ltac ne_events :=
    repeat split; try discriminate; try congruence;
    intros; intro Heq; inversion Heq; subst; try discriminate; congruence.

  Lemma us_next_none k i ev :
    us_next k i ev = UNone -> k = UNone /\ ev <> ECall (CSub i).
  Proof.
    destruct ev as [[s' aux|s' u|i' d|s']|[i'|i' u|s' d]| | |ob|]; cbn;
      try (intros ->; split; [reflexivity|discriminate]).
    - destruct (Nat.eqb_spec i i') as [->|Hne].
      + destruct d as [|v|e|]; try discriminate. intros ->. split; [reflexivity|discriminate].
      + intros ->. split; [reflexivity|discriminate].
    - destruct (Nat.eqb_spec i i') as [->|Hne]; [discriminate|].
      intros ->. split; [reflexivity|congruence].
    - destruct (Nat.eqb i i' && umsg_is_term u); [discriminate|].
      intros ->. split; [reflexivity|discriminate].
  Qed.

  Definition not_a_killer (i : nat) (ev : event) : Prop :=
    (forall m, dmsg_is_term m = true -> ev <> EIn (IDn i m))
    /\ (forall u, umsg_is_term u = true -> ev <> ECall (CUp i u))
    /\ ev <> ECall (CSub i).

  Lemma us_next_live k i ev :
    us_next k i ev = ULive ->
    ev = EIn (IDn i DH) \/ (k = ULive /\ not_a_killer i ev).
  Proof.
    unfold not_a_killer.
    destruct ev as [[s' aux|s' u|i' d|s']|[i'|i' u|s' d]| | |ob|]; cbn;
      try (intros ->; right; split; [reflexivity|ne_events]).
    - destruct (Nat.eqb_spec i i') as [->|Hne].
      + destruct d as [|v|e|]; try discriminate; auto.
        intros ->. right. split; [reflexivity|ne_events].
      + intros ->. right. split; [reflexivity|ne_events].
    - destruct (Nat.eqb_spec i i') as [->|Hne]; [discriminate|].
      intros ->. right. split; [reflexivity|ne_events].
    - destruct (Nat.eqb_spec i i') as [->|Hne]; cbn.
      + destruct (umsg_is_term u) eqn:Eu; [discriminate|].
        intros ->. right. split; [reflexivity|ne_events].
      + intros ->. right. split; [reflexivity|ne_events].
  Qed.

  Lemma us_next_dead k i ev :
    k <> ULive -> ev <> EIn (IDn i DH) -> us_next k i ev <> ULive.
  Proof.
    intros Hk Hev Hl. apply us_next_live in Hl. destruct Hl as [Hl|[Hl _]]; contradiction.
  Qed.

  Lemma us_next_stop k i u :
    umsg_is_term u = true -> us_next k i (ECall (CUp i u)) = UStopped.
  Proof. intros Ht. cbn. now rewrite Nat.eqb_refl, Ht. Qed.

  Lemma us_next_end k i d :
    dmsg_is_term d = true -> us_next k i (EIn (IDn i d)) = UEnded.
  Proof.
    intros Ht. cbn. rewrite Nat.eqb_refl. destruct d; try discriminate Ht; reflexivity.
  Qed.

  Lemma after_sub tr i :
    In (ECall (CSub i)) tr -> us (mon_trace p tr) i <> UNone.
  Proof.
    induction tr as [|ev tr IH] using rev_ind; intros Hin; [destruct Hin|].
    rewrite mon_trace_snoc, us_mon_event. intros Hn.
    apply us_next_none in Hn. destruct Hn as [Hk Hev].
    apply in_app_or in Hin. destruct Hin as [Hin|[Heq|[]]].
    - now apply IH.
    - congruence.
  Qed.

  Lemma live_since tr i :
    us (mon_trace p tr) i = ULive -> live_since_greeting i tr.
  Proof.
    induction tr as [|ev tr IH] using rev_ind; [discriminate|].
    rewrite mon_trace_snoc, us_mon_event. intros Hl.
    apply us_next_live in Hl. destruct Hl as [->|[Hl [Hk1 [Hk2 Hk3]]]].
    - exists tr, []. repeat split; auto.
    - destruct (IH Hl) as [pre1 [pre2 [-> [H1 [H2 H3]]]]].
      exists pre1, (pre2 ++ [ev]). split; [now rewrite <- app_assoc|].
      repeat split.
      + intros m Hm Hin. apply in_app_or in Hin. destruct Hin as [Hin|[Heq|[]]].
        * exact (H1 m Hm Hin).
        * exact (Hk1 m Hm Heq).
      + intros u Hu Hin. apply in_app_or in Hin. destruct Hin as [Hin|[Heq|[]]].
        * exact (H2 u Hu Hin).
        * exact (Hk2 u Hu Heq).
      + intros Hin. apply in_app_or in Hin. destruct Hin as [Hin|[Heq|[]]].
        * exact (H3 Hin).
        * exact (Hk3 Heq).
  Qed.

  Lemma live_greeted_up tr i :
    us (mon_trace p tr) i = ULive -> In (EIn (IDn i DH)) tr.
  Proof.
    intros Hl. apply live_since in Hl. destruct Hl as [pre1 [pre2 [-> _]]].
    apply in_or_app. right. now left.
  Qed.

  Lemma run_dead tr i : forall m,
    us m i <> ULive -> ~ In (EIn (IDn i DH)) tr -> us (runm tr m) i <> ULive.
  Proof.
    induction tr as [|ev tr IH]; intros m Hm Hno; cbn [fold_left]; [exact Hm|].
    apply IH.
    - rewrite us_mon_event. apply us_next_dead; [exact Hm|].
      intros ->. apply Hno. now left.
    - intros Hin. apply Hno. now right.
  Qed.

  (** once the status of upstream [i] is not "live" and [i] does not greet
      again, a violation-free continuation does not use its talkback *)
  Lemma dead_no_up pre ev post i :
    viols (mon_trace p (pre ++ ev :: post)) = [] ->
    us (mon_event p (mon_trace p pre) ev) i <> ULive ->
    ~ In (EIn (IDn i DH)) post ->
    forall u, ~ In (ECall (CUp i u)) post.
  Proof.
    intros Hv Hd Hno u Hin. apply in_split in Hin. destruct Hin as [a [b ->]].
    rewrite resplit in Hv. apply split_check, check_up in Hv.
    revert Hv. rewrite mon_trace_split. apply run_dead; [exact Hd|].
    intros Hin. apply Hno. apply in_or_app. now left.
  Qed.

  Theorem sound_C04_sub tr :
    resub p = false -> viols (mon_trace p tr) = [] -> forall i, sub_once i tr.
  Proof.
    intros Hr Hv i pre post -> Hin. apply in_split in Hin. destruct Hin as [a [b ->]].
    rewrite resplit in Hv. apply split_check, (check_sub _ _ Hr) in Hv.
    revert Hv. apply after_sub. apply in_or_app. right. now left.
  Qed.

  Theorem sound_C04_live tr :
    viols (mon_trace p tr) = [] -> forall i, talkback_only_live i tr.
  Proof.
    intros Hv i pre u post ->. apply split_check, check_up in Hv. now apply live_since.
  Qed.

  Theorem sound_C04_dead_after_stop tr :
    viols (mon_trace p tr) = [] ->
    forall i, upstream_greets_once i tr -> talkback_dead_after_stop i tr.
  Proof.
    intros Hv i Hg pre u post -> Ht.
    pose proof (split_check _ _ _ Hv) as Hl. apply check_up, live_greeted_up in Hl.
    apply in_split in Hl. destruct Hl as [p1 [p2 ->]].
    eapply dead_no_up; [exact Hv| |].
    - rewrite us_mon_event, us_next_stop by exact Ht. discriminate.
    - intros Hin.
      apply (Hg p1 (p2 ++ ECall (CUp i u) :: post)); [now rewrite <- app_assoc|].
      apply in_or_app. right. now right.
  Qed.

  Theorem sound_C04_dead_after_end tr :
    viols (mon_trace p tr) = [] ->
    forall i, upstream_greets_once i tr -> upstream_greets_first i tr ->
              talkback_dead_after_end i tr.
  Proof.
    intros Hv i Hg Hf pre m post -> Ht.
    assert (Hm : m <> DH) by (intros ->; discriminate Ht).
    pose proof (Hf _ _ _ eq_refl Hm) as Hl.
    apply in_split in Hl. destruct Hl as [p1 [p2 ->]].
    eapply dead_no_up; [exact Hv| |].
    - rewrite us_mon_event, us_next_end by exact Ht. discriminate.
    - intros Hin.
      apply (Hg p1 (p2 ++ EIn (IDn i m) :: post)); [now rewrite <- app_assoc|].
      apply in_or_app. right. now right.
  Qed.

  Theorem sound_C04_conformant tr :
    viols (mon_trace p tr) = [] ->
    forall i, upstream_greets_once i tr -> upstream_greets_first i tr ->
              stop_once i tr /\ no_pull_outside i tr.
  Proof.
    intros Hv i Hg Hf.
    pose proof (sound_C04_dead_after_stop Hv Hg) as Hs.
    pose proof (sound_C04_dead_after_end Hv Hg Hf) as He.
    split; [split|].
    - intros pre u post E Ht u' _. exact (Hs pre u post E Ht u').
    - intros pre m post E Ht u' _. exact (He pre m post E Ht u').
    - intros pre post E. split; [|split].
      + subst tr. apply split_check, check_up in Hv. now apply live_greeted_up.
      + intros m Hm Hin. apply in_split in Hin. destruct Hin as [a [b ->]].
        apply (He a m (b ++ ECall (CUp i UP) :: post)) with (u' := UP); [now rewrite E, <- app_assoc|exact Hm|].
        apply in_or_app. right. left. reflexivity.
      + intros u Hu Hin. apply in_split in Hin. destruct Hin as [a [b ->]].
        apply (Hs a u (b ++ ECall (CUp i UP) :: post)) with (u' := UP); [now rewrite E, <- app_assoc|exact Hu|].
        apply in_or_app. right. left. reflexivity.
  Qed.

  (** the three parts together *)
  Theorem sound_C04 tr :
    resub p = false -> viols (mon_trace p tr) = [] ->
    forall i,
      sub_once i tr
      /\ talkback_only_live i tr
      /\ (upstream_greets_once i tr -> upstream_greets_first i tr ->
          stop_once i tr /\ no_pull_outside i tr).
  Proof.
    intros Hr Hv i. split; [|split].
    - now apply sound_C04_sub.
    - now apply sound_C04_live.
    - now apply sound_C04_conformant.
  Qed.

  (** *** once upstream [i] has greeted it is never "awaiting its greeting" again
          (without re-subscription), as long as there is no violation *)

  Definition us_greeted (u : uss) : bool :=
    match u with ULive | UEnded | UStopped => true | _ => false end.

  Lemma us_next_greeted k i ev :
    us_greeted k = true -> ev <> ECall (CSub i) -> us_greeted (us_next k i ev) = true.
  Proof.
    intros Hk Hev.
    destruct ev as [[s' aux|s' u|i' d|s']|[i'|i' u|s' d]| | |ob|]; cbn; auto.
    - destruct (Nat.eqb i i'); [|auto]. destruct d; auto.
    - destruct (Nat.eqb_spec i i') as [->|Hne]; [congruence|auto].
    - destruct (Nat.eqb i i' && umsg_is_term u); auto.
  Qed.

  Lemma run_greeted tr i :
    resub p = false ->
    forall m, us_greeted (us m i) = true -> viols (runm tr m) = [] ->
              us_greeted (us (runm tr m) i) = true.
  Proof.
    intros Hr. induction tr as [|ev tr IH]; intros m Hm Hv; cbn [fold_left] in *; [exact Hm|].
    apply IH; [|exact Hv].
    rewrite us_mon_event. apply us_next_greeted; [exact Hm|].
    intros ->. apply run_viols_nil in Hv. rewrite mon_call_viols in Hv.
    apply app_eq_nil in Hv. destruct Hv as [Hv _]. apply (check_sub _ _ Hr) in Hv.
    rewrite Hv in Hm. discriminate Hm.
  Qed.

  Lemma greeted_after tr i :
    resub p = false -> viols (mon_trace p tr) = [] ->
    In (EIn (IDn i DH)) tr -> us_greeted (us (mon_trace p tr) i) = true.
  Proof.
    intros Hr Hv Hin. apply in_split in Hin. destruct Hin as [pre [post ->]].
    rewrite mon_trace_split in *. apply run_greeted; [exact Hr| |exact Hv].
    rewrite us_mon_event. cbn. now rewrite Nat.eqb_refl.
  Qed.

End MonitorSound.

Print Assumptions viols_nil_prefix.
Print Assumptions sound_C17.
Print Assumptions sound_C01.
Print Assumptions sound_C02.
Print Assumptions sound_C03.
Print Assumptions sound_C04_sub.
Print Assumptions sound_C04_live.
Print Assumptions sound_C04_dead_after_stop.
Print Assumptions sound_C04_dead_after_end.
Print Assumptions sound_C04_conformant.
Print Assumptions sound_C04.

(** ** Reachable configurations: the conformant environment of Machine.v
       discharges the hypotheses about the upstreams

    [enabled] lets upstream [i] greet only while it is awaited ([USubd]) and
    send anything else only while it is live, so on the trace of a reachable,
    violation-free configuration (without re-subscription) every upstream
    greets at most once and greets first.  Together with the theorems above
    this turns [viols (ms c) = []] into the complete list of readable
    statements about [trace c]. *)

Section Reach.
  Variable p : mparams.
  Variable o : op.
  Variable g : mstate -> input -> bool.

  (** the monitor state carried by a configuration is the monitor run over
      its trace (for every configuration the machine can build, conformant
      environment or not) *)
  Definition ms_is_trace (c : cfg o) : Prop := ms c = mon_trace p (trace c).

  Lemma push_events_ms_trace evs (c : cfg o) :
    ms_is_trace c -> ms_is_trace (push_events p evs c).
  Proof.
    unfold ms_is_trace, trace, mon_trace. intros H. cbn [push_events ms rtrace].
    rewrite rev_append_rev, rev_app_distr, rev_involutive, fold_left_app.
    now rewrite <- H.
  Qed.

  Lemma settle_ms_trace (c : cfg o) r : ms_is_trace c -> ms_is_trace (settle p c r).
  Proof.
    intros H. destruct r as [[s' os] a].
    destruct a as [| |cl k]; unfold settle.
    - exact (push_events_ms_trace [EDone] (push_events_ms_trace (map EObs os) H)).
    - exact (push_events_ms_trace [EPanic] (push_events_ms_trace (map EObs os) H)).
    - exact (push_events_ms_trace [ECall cl] (push_events_ms_trace (map EObs os) H)).
  Qed.

  Lemma step_ms_trace (c : cfg o) m : ms_is_trace c -> ms_is_trace (step p c m).
  Proof.
    intros H. unfold step. destruct (dead c); [exact H|].
    destruct m as [i|].
    - destruct (deliverable (ms c) i).
      + apply settle_ms_trace. now apply push_events_ms_trace.
      + now apply push_events_ms_trace.
    - destruct (stack c) as [|[k cl] rest]; [exact H|].
      apply settle_ms_trace. exact (push_events_ms_trace [ERet] H).
  Qed.

  Lemma run_ms_trace moves : ms (run p o moves) = mon_trace p (trace (run p o moves)).
  Proof.
    unfold run. change (ms_is_trace (fold_left (step p (o:=o)) moves (cfg0 o))).
    assert (H0 : ms_is_trace (cfg0 o)) by reflexivity.
    revert H0. generalize (cfg0 o). induction moves as [|m moves IH]; intros c Hc; cbn.
    - exact Hc.
    - apply IH. now apply step_ms_trace.
  Qed.

  Lemma reach_ms_trace (c : cfg o) : reach p g c -> ms c = mon_trace p (trace c).
  Proof.
    induction 1 as [|c m Hc IH He]; [reflexivity|]. now apply step_ms_trace.
  Qed.

  Lemma enabled_step_trace (c : cfg o) m :
    enabled p g c m = true ->
    exists h rest,
      trace (step p c m) = trace c ++ h :: rest
      /\ (forall x, ~ In (EIn x) rest)
      /\ (forall x, h = EIn x -> m = MIn x).
  Proof.
    intros He. eexists _, _. split; [exact (stepped_trace (en_step He))|]. split.
    - intros x Hin. apply in_app_or in Hin. destruct Hin as [Hin|[Hin|[]]].
      + apply in_map_iff in Hin. destruct Hin as [ob [Heq _]]. discriminate Heq.
      + destruct (snd (result c m)); discriminate Hin.
    - destruct m; intros x [= ->]. reflexivity.
  Qed.

  Lemma enabled_dn_live (c : cfg o) i d :
    d <> DH -> enabled p g c (MIn (IDn i d)) = true -> us (ms c) i = ULive.
  Proof. intros Hd He. now destruct (en_dn _ _ _ _ Hd He) as (_ & H & _). Qed.

  (** where an occurrence of [x] in [l ++ l'] lies *)
  Lemma split_app (l l' : list event) : forall pre x post,
    l ++ l' = pre ++ x :: post ->
    (exists post', l = pre ++ x :: post' /\ post = post' ++ l')
    \/ (exists pre', pre = l ++ pre' /\ l' = pre' ++ x :: post).
  Proof.
    induction l as [|y l IH]; intros pre x post E.
    - right. exists pre. split; [reflexivity|exact E].
    - destruct pre as [|y' pre]; cbn in E; injection E as <- E.
      + left. exists l. split; [reflexivity|now rewrite E].
      + destruct (IH _ _ _ E) as [[post' [-> ->]]|[pre' [-> ->]]].
        * left. now exists post'.
        * right. now exists pre'.
  Qed.

  (** an input event in the appended part [h :: rest] of an enabled step is [h] *)
  Lemma input_in_suffix h (rest pre' post : list event) x :
    (forall y, ~ In (EIn y) rest) ->
    h :: rest = pre' ++ EIn x :: post ->
    pre' = [] /\ h = EIn x /\ post = rest.
  Proof.
    intros Hrest E. destruct pre' as [|y pre']; cbn in E; injection E as -> E.
    - now subst.
    - exfalso. apply (Hrest x). rewrite E. apply in_or_app. right. now left.
  Qed.

  Theorem reach_upstream_conformant (c : cfg o) :
    resub p = false -> reach p g c -> viols (ms c) = [] ->
    forall i, upstream_greets_once i (trace c) /\ upstream_greets_first i (trace c).
  Proof.
    intros Hr Hc. induction Hc as [|c m Hc IH He]; intros Hv i.
    - split.
      + intros pre post E. destruct pre; discriminate E.
      + intros pre d post E. destruct pre; discriminate E.
    - destruct (enabled_step_trace _ _ He) as [h [rest [Et [Hrest Hh]]]].
      pose proof (reach_ms_trace Hc) as Hms.
      assert (Hvc : viols (ms c) = []).
      { assert (Hc' : reach p g (step p c m)) by now apply reachS.
        rewrite (reach_ms_trace Hc'), Et in Hv.
        apply viols_nil_prefix in Hv. now rewrite Hms. }
      destruct (IH Hvc i) as [IH1 IH2]. rewrite Et. split.
      + intros pre post E. apply split_app in E.
        destruct E as [[post' [E ->]]|[pre' [-> E]]].
        * intros Hin. apply in_app_or in Hin. destruct Hin as [Hin|Hin].
          -- exact (IH1 _ _ E Hin).
          -- apply in_split in Hin. destruct Hin as [a [b Hs]].
             apply (input_in_suffix _ _ _ Hrest) in Hs. destruct Hs as [_ [Hs _]].
             apply Hh in Hs. subst m. destruct (en_greet _ _ _ _ He) as (_ & Hus & _).
             assert (Hin : In (EIn (IDn i DH)) (trace c))
               by (rewrite E; apply in_or_app; right; now left).
             rewrite Hms in Hvc.
             assert (Hgr : us_greeted (us (mon_trace p (trace c)) i) = true)
               by now apply greeted_after.
             rewrite <- Hms, Hus in Hgr. discriminate Hgr.
        * apply (input_in_suffix _ _ _ Hrest) in E. destruct E as [_ [_ ->]].
          apply Hrest.
      + intros pre d post E Hd. apply split_app in E.
        destruct E as [[post' [E ->]]|[pre' [-> E]]].
        * exact (IH2 _ _ _ E Hd).
        * apply (input_in_suffix _ _ _ Hrest) in E. destruct E as [-> [E _]].
          apply Hh in E. subst m. apply (enabled_dn_live _ _ Hd) in He.
          rewrite Hms in He. apply live_greeted_up in He.
          rewrite app_nil_r. exact He.
  Qed.

  (** everything together, for the trace of a reachable configuration in
      which the monitor found no violation *)
  Theorem reach_sound (c : cfg o) :
    resub p = false -> reach p g c -> viols (ms c) = [] ->
    no_panic (trace c)
    /\ (forall s, greet_once s (trace c) /\ greet_first s (trace c)
                  /\ term_final s (trace c) /\ dispose_respected s (trace c))
    /\ (forall i, sub_once i (trace c) /\ talkback_only_live i (trace c)
                  /\ stop_once i (trace c) /\ no_pull_outside i (trace c)).
  Proof.
    intros Hr Hc Hv.
    pose proof (reach_upstream_conformant Hr Hc Hv) as Hup.
    rewrite (reach_ms_trace Hc) in Hv.
    split; [now apply sound_C17 with p|split].
    - intros s. destruct (sound_C01 _ _ Hv s) as [H1 H2].
      repeat split; auto.
      + now apply sound_C02 with p.
      + now apply sound_C03 with p.
    - intros i. destruct (Hup i) as [Hg Hf].
      destruct (sound_C04 _ _ Hr Hv i) as [H1 [H2 H3]].
      destruct (H3 Hg Hf) as [H4 H5]. auto.
  Qed.

End Reach.

Print Assumptions run_ms_trace.
Print Assumptions reach_ms_trace.
Print Assumptions reach_upstream_conformant.
Print Assumptions reach_sound.

(** ** Why [stop_once] and [no_pull_outside] carry hypotheses about the upstream

    The monitor does not check the environment's moves.  In an arbitrary trace
    an upstream may greet a second time, which makes it live again in the
    monitor's eyes, or send Terminate before it has greeted; the two traces
    below are violation-free (for the standard parameters, [resub = false])
    and falsify the unconditional readings.  The unconditional content of the
    monitor's C04 checks is [talkback_only_live]; for the traces of reachable
    configurations the hypotheses hold ([reach_upstream_conformant]). *)

Definition p_std : mparams :=
  {| nsinks := 1; late_ok := false; pullable := false; one_pull := false;
     resub := false; no_nest := false; c14 := false |}.

Example stop_once_needs_greets_once :
  let tr := [ECall (CSub 0); EIn (IDn 0 DH); ECall (CUp 0 UT);
             EIn (IDn 0 DH); ECall (CUp 0 UT)] in
  viols (mon_trace p_std tr) = [] /\ ~ stop_once 0 tr.
Proof.
  split; [reflexivity|]. intros [H _].
  apply (H [ECall (CSub 0); EIn (IDn 0 DH)] UT [EIn (IDn 0 DH); ECall (CUp 0 UT)]
           eq_refl eq_refl UT eq_refl).
  right. now left.
Qed.

Example no_pull_outside_needs_greets_first :
  let tr := [ECall (CSub 0); EIn (IDn 0 DT); EIn (IDn 0 DH); ECall (CUp 0 UP)] in
  viols (mon_trace p_std tr) = [] /\ ~ no_pull_outside 0 tr.
Proof.
  split; [reflexivity|]. intros H.
  destruct (H [ECall (CSub 0); EIn (IDn 0 DT); EIn (IDn 0 DH)] [] eq_refl) as [_ [H1 _]].
  apply (H1 DT eq_refl). right. now left.
Qed.

(** ** The readable statements do reject what they should (sanity checks) *)

Example greet_once_rejects : ~ greet_once 0 [ECall (CDn 0 DH); ECall (CDn 0 DH)].
Proof. intros H. apply (H [] [ECall (CDn 0 DH)] eq_refl). now left. Qed.

Example greet_first_rejects : ~ greet_first 0 [ECall (CDn 0 (DD (VN 1))); ECall (CDn 0 DH)].
Proof.
  intros H. destruct (H [] (DD (VN 1)) [ECall (CDn 0 DH)] eq_refl) as [[]|[e [aux [E _]]]];
    discriminate.
Qed.

Example term_final_rejects : ~ term_final 0 [ECall (CDn 0 DT); ECall (CDn 0 (DD (VN 1)))].
Proof.
  intros H. apply (H [] DT [ECall (CDn 0 (DD (VN 1)))] eq_refl eq_refl (DD (VN 1))). now left.
Qed.

Example dispose_respected_rejects :
  ~ dispose_respected 0 [ECall (CDn 0 DH); EIn (IUp 0 UT); ECall (CDn 0 DT)].
Proof.
  intros H. apply (H [ECall (CDn 0 DH)] UT [ECall (CDn 0 DT)] eq_refl eq_refl DT). now left.
Qed.

Example talkback_only_live_rejects :
  ~ talkback_only_live 0 [ECall (CSub 0); EIn (IDn 0 DH); EIn (IDn 0 DT); ECall (CUp 0 UT)].
Proof.
  intros H.
  destruct (H [ECall (CSub 0); EIn (IDn 0 DH); EIn (IDn 0 DT)] UT [] eq_refl)
    as [pre1 [pre2 [E [H1 _]]]].
  destruct pre1 as [|x1 [|x2 [|x3 [|x4 pre1]]]]; cbn in E; try discriminate E.
  inversion E; subst. apply (H1 DT eq_refl). now left.
Qed.
