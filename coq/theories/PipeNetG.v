(** * PipeNetG: the nets of LivenessG.v made runnable, for the pipelines the harness can write.

    [stage] (Pipe.v) is the first-order description of a stage that the driver parses and the harness
    builds on the real crate; [ustage_of] maps its unary cases to the stages of Programs.v, so that the
    very net [pipeline_completes] talks about can be run (extracted) next to the crate: values given
    to f, number of Iterator::next calls, completion. *)

From CB Require Import ProofLib Spec Chain Programs Pipe Flow LivenessG.
From CB Require Inv_for_each Inv_from_iter.

Set Implicit Arguments.

Definition ustage_of (s : stage) : option ustage :=
  match s with
  | StMap a b => Some (UMap (fun v => match v with VN x => VN (affn a b x) | _ => v end))
  | StFilter m r => Some (UFilter (fun v => match v with VN x => condn m r x | _ => false end))
  | StScan k seed =>
      Some (UScan (fun acc v => match acc, v with VN a, VN x => VN (redn k a x) | _, _ => acc end)
                  (VN seed))
  | StTake n => Some (UTake n)
  | StSkip n => Some (USkip n)
  | _ => None
  end.

Fixpoint ustages_of (p : list stage) : option (list ustage) :=
  match p with
  | [] => Some []
  | s :: p' =>
      match ustage_of s, ustages_of p' with
      | Some u, Some us => Some (u :: us)
      | _, _ => None
      end
  end.

Definition nat_of_val (v : val) : nat := match v with VN x => x | VT _ => 0 end.

Definition count_nexts (tr : list event) : nat :=
  length (filter (fun e => match e with EObs (ONext _) => true | _ => false end) tr).

(** the iterator the harness builds: the items of [xs], then (if [inf = Some b]) b, b+1, .. for ever *)
Definition it_of (xs : list nat) (inf : option nat) (k : nat) : option val :=
  match nth_error xs k with
  | Some x => Some (VN x)
  | None => match inf with Some b => Some (VN (b + (k - length xs))) | None => None end
  end.

(** run the net to rest, at most [steps_max ust B] transfers:
    (arguments of f, Iterator::next calls, for_each saw the end, at rest) *)
Definition net_pipe_run (p : list stage) (xs : list nat) (inf : option nat) (B : nat)
  : option (list nat * nat * bool * bool) :=
  match ustages_of p with
  | None => None
  | Some ust =>
      let it := it_of xs inf in
      let N := taus (steps_max ust B) (net_step (NP it ust) (kick ust)) in
      let calls := match nth_error (nodes N) (last ust) with
                   | Some nf => map nat_of_val (Inv_for_each.user_calls (ntrace nf))
                   | None => []
                   end in
      let nx := match nth_error (nodes N) 0 with
                | Some n0 => count_nexts (ntrace n0)
                | None => 0
                end in
      let fin := match nth_error (nodes N) (last ust) with
                 | Some nf => match us (nms nf) 0 with UEnded => true | _ => false end
                 | None => false
                 end in
      Some (calls, nx, fin, match pend N with PIdle => true | _ => false end)
  end.

(** ** What the runner returns, by [pipeline_completes] *)

Lemma taus_idle m N : pend N = PIdle -> taus m N = N.
Proof.
  intros Hp. induction m as [|m IH]; cbn [taus]; [reflexivity|]. now rewrite (tau_idle _ Hp).
Qed.

Lemma taus_add a b N : taus (a + b) N = taus b (taus a N).
Proof. revert N. induction a as [|a IH]; intros N; cbn [taus Nat.add]; [reflexivity|apply IH]. Qed.

Lemma ustages_sem p us (l : list nat) :
  ustages_of p = Some us -> usem us (map VN l) = map VN (sem p l).
Proof.
  revert us l. induction p as [|s p IH]; intros us l H; cbn in H.
  - inversion H. reflexivity.
  - destruct (ustage_of s) as [u|] eqn:Eu; [|discriminate].
    destruct (ustages_of p) as [us'|] eqn:Ep; [|discriminate]. inversion H; subst us. clear H.
    unfold usem, sem. cbn [fold_left]. fold (usem us' (usem1 u (map VN l))). fold (sem p (sem1 s l)).
    assert (E1 : usem1 u (map VN l) = map VN (sem1 s l)).
    { destruct s as [a b|m r|k seed|n|n|ys|ys|m]; cbn in Eu; inversion Eu; subst u; cbn.
      - now rewrite !map_map.
      - induction l as [|x l IHl]; cbn; [reflexivity|]. destruct (condn m r x); cbn; now rewrite IHl.
      - generalize seed. induction l as [|x l IHl]; intros sd; cbn; [reflexivity|]. now rewrite IHl.
      - now rewrite firstn_map.
      - now rewrite skipn_map. }
    rewrite E1. now apply IH.
Qed.

Lemma ustages_ok p us :
  ustages_of p = Some us -> Forall (fun s => match s with StTake n => 1 <= n | _ => True end) p ->
  Forall ustage_ok us.
Proof.
  revert us. induction p as [|s p IH]; intros us H Hall; cbn in H.
  - inversion H. constructor.
  - destruct (ustage_of s) as [u|] eqn:Eu; [|discriminate].
    destruct (ustages_of p) as [us'|] eqn:Ep; [|discriminate]. inversion H; subst us. clear H.
    inversion Hall as [|? ? Hs Hp]; subst. constructor; [|now apply IH].
    destruct s; cbn in Eu; inversion Eu; subst u; cbn; auto.
Qed.

Lemma it_of_fin xs k : it_of xs None k = nth_error (map VN xs) k.
Proof.
  unfold it_of. rewrite nth_error_map. destruct (nth_error xs k); reflexivity.
Qed.

(** for every pipeline of unary stages (take counts >= 1) over every finite input, the runner ends
    at rest, for_each has seen the end, and f was called on exactly the list function *)
Theorem net_pipe_run_correct p xs us :
  ustages_of p = Some us ->
  Forall (fun s => match s with StTake n => 1 <= n | _ => True end) p ->
  exists nx, net_pipe_run p xs None (length xs) = Some (sem p xs, nx, true, true).
Proof.
  intros Hu Hall. pose proof (ustages_ok Hu Hall) as Hok.
  destruct (@pipeline_completes (it_of xs None) us Hok (map VN xs) (it_of_fin xs))
    as (m & N & Hm & HN & Hr & Hp & _ & nf & Hnf & Hend & Hcalls).
  rewrite map_length in Hm.
  unfold net_pipe_run. rewrite Hu. cbv zeta.
  assert (E : taus (steps_max us (length xs)) (net_step (NP (it_of xs None) us) (kick us)) = N).
  { replace (steps_max us (length xs)) with (m + (steps_max us (length xs) - m)) by lia.
    rewrite taus_add, <- HN. now apply taus_idle. }
  rewrite E, Hnf, Hend, Hp, Hcalls, (@ustages_sem p us xs Hu), map_map. cbn [nat_of_val].
  rewrite map_id. eexists. reflexivity.
Qed.
Print Assumptions net_pipe_run_correct.

Lemma count_nexts_nexts tr : count_nexts tr = length (Inv_from_iter.nexts tr).
Proof.
  unfold count_nexts. induction tr as [|e tr IH]; cbn; [reflexivity|].
  destruct e as [i|c| | |[r|v|s b|s]|]; cbn; rewrite ?IH; reflexivity.
Qed.

(** the same over ANY input - unbounded too - when a take follows stages that pass every datum on
    (map, scan): the runner ends at rest within the bound computed from the take's count alone,
    for_each has seen the end, and next() was called at most n times *)
Theorem net_pipe_run_take_stops p1 n p2 xs inf us :
  ustages_of (p1 ++ StTake n :: p2) = Some us ->
  Forall (fun s => match s with StTake k => 1 <= k | _ => True end) (p1 ++ StTake n :: p2) ->
  Forall (fun s => match s with StMap _ _ | StScan _ _ => True | _ => False end) p1 ->
  exists calls nx, net_pipe_run (p1 ++ StTake n :: p2) xs inf n = Some (calls, nx, true, true) /\ nx <= n.
Proof.
  intros Hu Hall Hone. pose proof (ustages_ok Hu Hall) as Hok.
  (* split the translated stage list at the take *)
  assert (Hsplit : exists u1 u2, us = u1 ++ UTake n :: u2 /\ Forall oneshot u1).
  { clear Hall Hok. revert us Hu. induction p1 as [|s p1 IH]; intros us Hu; cbn in Hu.
    - destruct (ustages_of p2) as [u2|]; [|discriminate]. inversion Hu.
      exists [], u2. split; [reflexivity | constructor].
    - inversion Hone as [|? ? Hs Hp1]; subst.
      destruct (ustage_of s) as [u|] eqn:Eu; [|discriminate].
      destruct (ustages_of (p1 ++ StTake n :: p2)) as [us'|] eqn:Ep; [|discriminate].
      inversion Hu; subst us. destruct (IH Hp1 us' eq_refl) as (u1 & u2 & -> & Ho).
      exists (u :: u1), u2. split; [reflexivity|]. constructor; [|exact Ho].
      destruct s; try contradiction; cbn in Eu; inversion Eu; exact I. }
  destruct Hsplit as (u1 & u2 & Hus & Ho).
  destruct (@take_stops (it_of xs inf) us Hok u1 u2 n Hus Ho)
    as (m & N & Hm & HN & Hr & Hp & nf & n0 & Hnf & Hn0 & Hend & _ & Hnx).
  unfold net_pipe_run. rewrite Hu. cbv zeta.
  assert (E : taus (steps_max us n) (net_step (NP (it_of xs inf) us) (kick us)) = N).
  { replace (steps_max us n) with (m + (steps_max us n - m)) by lia.
    rewrite taus_add, <- HN. now apply taus_idle. }
  rewrite E, Hnf, Hn0, Hend, Hp. do 2 eexists. split; [reflexivity|].
  now rewrite count_nexts_nexts.
Qed.
Print Assumptions net_pipe_run_take_stops.

(** non-vacuity: pipe!(from_iter([1;2;3;4;5]), map(+1), filter(even), take(2), for_each), and
    pipe!(from_iter(0..), map(2x+1), take(3), for_each) over an unbounded iterator *)
Example net_pipe_run_example :
  net_pipe_run [StMap 1 1; StFilter 2 0; StTake 2] [1; 2; 3; 4; 5] None 5 = Some ([2; 4], 3, true, true).
Proof. vm_compute. reflexivity. Qed.

Example net_pipe_run_unbounded_example :
  net_pipe_run [StMap 2 1; StTake 3] [] (Some 0) 3 = Some ([1; 3; 5], 3, true, true).
Proof. vm_compute. reflexivity. Qed.
