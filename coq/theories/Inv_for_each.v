(** * Inv_for_each: the invariant of for_each (a sink: there is no
      downstream side, [ISub 0 0] stands for applying [for_each f] to the source) *)
From CB Require Import Unary.

Set Implicit Arguments.

(** the values on which the user closure was called, in order *)
Fixpoint user_calls (tr : list event) : list val :=
  match tr with
  | [] => []
  | EObs (OUser v) :: tr' => v :: user_calls tr'
  | _ :: tr' => user_calls tr'
  end.

Lemma user_calls_app tr1 tr2 : user_calls (tr1 ++ tr2) = user_calls tr1 ++ user_calls tr2.
Proof.
  induction tr1 as [|e tr1 IH]; cbn; [reflexivity|].
  destruct e as [i|c| | |[r|v|s b|s]|]; cbn; try exact IH. now rewrite IH.
Qed.

Section ForEachInv.
  Variable p : mparams.
  Hypothesis Hns : nsinks p = 1.
  Hypothesis Hresub : resub p = false.
  Hypothesis Hnonest : no_nest p = false.
  Hypothesis Hc14 : c14 p = false.
  Let o := for_each_op.

  (** Every Pull is the last action of the handler of a message that a live
      upstream has just sent (the greeting or a datum), so the only fact needed
      about suspended activations is that they do nothing when resumed, which
      holds of the single frame [FDone] by computation. *)
  Record Inv (c : cfg o) : Prop := {
    i_viols : viols (ms c) = [];
    i_dead : dead c = false;
    i_sk : forall s, sk (ms c) s = SNone;               (* there is no sink *)
    i_tb : us (ms c) 0 = ULive -> cst c = true;         (* the talkback cell is set *)
    i_subd : subd (ms c) 0 = false -> us (ms c) 0 = UNone;
    i_due : forall s, err_due (ms c) s = None;
    i_us_other : forall i, i <> 0 -> us (ms c) i = UNone;
    i_task : forall s, task (ms c) s = false;
  }.

  Lemma inv0 : Inv (cfg0 o).
  Proof. constructor; cbn; auto; intros; try tauto; discriminate. Qed.

  Lemma quiescent (c : cfg o) :
    Inv c -> forall m', sk m' = sk (ms c) -> (forall s, err_due m' s = None) ->
    check_quiescent p m' = [].
  Proof.
    intros [] m' E1 E2. apply quiescent_nil.
    - intros _ Hov. rewrite E1, i_sk0 in Hov. discriminate.
    - exact E2.
    - rewrite Hc14. discriminate.
  Qed.

  (** what the step preserves: [Inv] read off the monitor's base (Ports.v) of an operator
      whose one port is upstream 0 and whose sink never comes to life *)
  Record binv (c : cfg o) : Prop := {
    b_dead : dead c = false;
    b_base : ubase None (ms c);
    b_sk : sk (ms c) 0 = SNone;
    b_tb : us (ms c) 0 = ULive -> cst c = true;
  }.

  Lemma binv_Inv c : binv c -> Inv c.
  Proof.
    intros [Hd B Hk Htb]. constructor; auto; try apply B.
    - intros [|s]; [exact Hk | apply B].
    - intros E. now apply (pb_subd B).
    - intros [|s]; apply B.
    - intros i Hi. destruct (us (ms c) i) eqn:E; [reflexivity | destruct Hi; apply (known_used B); congruence..].
  Qed.

  (* the frame type as [Fr o], the form in which the lemmas of Ports.v meet it *)
  Notation calls cl := (@ACall (Fr o) cl FDone).
  Notation returns := (@ARet (Fr o)).

  Lemma binv_step c m : binv c -> enabled p g_std c m = true -> binv (step p c m).
  Proof using Hns Hresub Hc14.
    intros [Hd B Hk Htb] He.
    assert (Hq : forall m, c14 p = true -> owed m 0 = 0) by (rewrite Hc14; discriminate).
    destruct m as [[s aux|s u|i d|s]|].
    - (* :114-139 the subscription is passed up *)
      destruct (en_sub_std Hns He) as (-> & -> & _ & Hsub).
      assert (Hh : handle o (ISub 0 0) (cst c) = (false, [], calls (CSub 0))) by reflexivity.
      step_eqs (en_step_in _ _ _ _ He Hh). env_half (pin_sub Em1 B).
      op_half (pcall_sub Em B1 eq_refl); [| now rewrite K1, Hk | exact S1 |].
      { rewrite U1. now apply (pb_subd B). }
      constructor; auto; rw_ports; auto; discriminate.
    - (* there is no sink *)
      destruct (en_up _ _ _ _ _ He) as (_ & Hsk & _).
      pose proof (live_sink_0 B Hsk). subst s. congruence.
    - destruct (en_member _ _ _ _ _ He) as [_ Hus].
      assert (i = 0) by (apply (known_used B); rewrite Hus; destruct d; discriminate). subst i.
      destruct d as [|v|e|]; cbn in Hus.
      + (* :126-130 the greeting: keep the talkback, pull *)
        assert (Hh : handle o (IDn 0 DH) (cst c) = (true, [], calls (CUp 0 UP))) by reflexivity.
        step_eqs (en_step_in _ _ _ _ He Hh). env_half (pin_greet Em1 B); [congruence|].
        op_half (pcall_pull Em B1); [now rewrite U1, upd_same | auto |].
        constructor; auto; rw_ports; auto.
      + (* :132-136 a datum: call the closure, pull *)
        assert (Hh : handle o (IDn 0 (DD v)) (cst c) = (cst c, [OUser v], calls (CUp 0 UP))).
        { cbn. now rewrite (Htb Hus). }
        step_eqs (en_step_in _ _ _ _ He Hh). env_half (pin_data Em1 B).
        change (ms_settle p o ?m [OUser v] ?a) with (ms_settle p o m [] a) in Em.
        op_half (pcall_pull Em B1); [congruence | auto |].
        constructor; auto; rw_ports; auto. rewrite Ec. auto.
      + (* an Error of the upstream is ignored: it is owed to nobody, there is no sink *)
        assert (Hh : handle o (IDn 0 (DE e)) (cst c) = (cst c, [], returns)) by reflexivity.
        step_eqs (en_step_in _ _ _ _ He Hh). env_half (pin_error Em1 B Hns Hk); [congruence|].
        done_half pcall_done; [| rewrite K1, Hk; discriminate..].
        constructor; auto; rw_ports; auto; discriminate.
      + (* and so is its completion *)
        assert (Hh : handle o (IDn 0 DT) (cst c) = (cst c, [], returns)) by reflexivity.
        step_eqs (en_step_in _ _ _ _ He Hh). env_half (pin_term Em1 B); [congruence|].
        done_half pcall_done; [| rewrite K1, Hk; discriminate..].
        constructor; auto; rw_ports; auto; discriminate.
    - destruct (en_tick _ _ _ _ He) as [_ Ht]. now rewrite (pb_task B) in Ht.
    - (* every pending call was for_each's last action *)
      destruct (en_ret _ _ _ He) as (k & cl & rest & Hst & _).
      step_eqs (en_step_ret _ _ _ He Hst (eq_refl : resume o k (cst c) = (cst c, [], returns))).
      env_half (pin_ret Em1 B).
      done_half pcall_done; [| rewrite K1, Hk; discriminate..].
      constructor; auto; rw_ports; auto. now rewrite Ec.
  Qed.

  Theorem inv_reach c : reach p g_std c -> Inv c.
  Proof.
    intros Hr. apply binv_Inv. revert c Hr. apply reach_invariant.
    - constructor; auto; [apply pbase0 | discriminate].
    - intros c m _. apply binv_step.
  Qed.

  (** the closure is called on exactly the data received, in order, at every
      control point (no invariant needed: the Data arm calls it before the
      [expect]) *)
  Theorem user_reach (c : cfg o) :
    reach p g_std c -> user_calls (trace c) = data_in 0 (trace c).
  Proof.
    induction 1 as [|c m Hr IH He]; [reflexivity|].
    rewrite (en_trace _ _ _ _ He), user_calls_app, data_in_app, IH. f_equal.
    destruct m as [[[|s] aux|[|s] u|[|i] [|v|e|]|s]|]; cbn; try destruct (cst c); try reflexivity.
    all: now destruct (stack c) as [|[k cl] r].
  Qed.
End ForEachInv.

(** no protocol violation (towards the upstream: C04) and no panic in any
    reachable configuration *)
Theorem for_each_safe p :
  nsinks p = 1 -> resub p = false -> no_nest p = false -> c14 p = false ->
  forall c : cfg for_each_op, reach p g_std c -> viols (ms c) = [] /\ dead c = false.
Proof.
  intros H1 H2 H3 H4 c Hr.
  assert (HI : Inv c) by (eapply inv_reach; eassumption).
  destruct HI. split; assumption.
Qed.
Print Assumptions for_each_safe.

Theorem for_each_user p :
  forall c : cfg for_each_op, reach p g_std c -> user_calls (trace c) = data_in 0 (trace c).
Proof. intros c Hr. exact (user_reach Hr). Qed.
Print Assumptions for_each_user.

(** sanity check (non-vacuity): the upstream answers every Pull from inside
    the Pull and ends from inside the last one; the outer activations return
    afterwards without touching the ended upstream *)
Module ForEachSanity.
  Definition p0 : mparams :=
    {| nsinks := 1; late_ok := false; pullable := false; one_pull := false;
       resub := false; no_nest := false; c14 := false |}.
  Definition script : list move :=
    [MIn (ISub 0 0); MIn (IDn 0 DH); MIn (IDn 0 (DD (VN 1))); MIn (IDn 0 (DD (VN 2)));
     MIn (IDn 0 DT); MRet; MRet; MRet; MRet].
  Example script_enabled : all_enabled p0 g_std (cfg0 for_each_op) script = true.
  Proof. vm_compute. reflexivity. Qed.
  Example script_end :
    let c := run p0 for_each_op script in
    stack c = [] /\ user_calls (trace c) = [VN 1; VN 2] /\
    us (ms c) 0 = UEnded /\ viols (ms c) = [].
  Proof. vm_compute. repeat split; reflexivity. Qed.
End ForEachSanity.
