(** * FlowGeneric: facts about the message counts of a trace that hold of EVERY component.

    For an arbitrary operator model [o], parameters [p] and guard [g]:

    - a safe component greets its sink
      at most once, ends it at most once, and the monitor's [sk _ 0] tells which of the two happened
      ([sk_counts]);
    - the same towards upstream 0 ([us_counts]);
    - returns + pending calls = calls;
    - static facts about the calls of [handle]/[resume]
      carry over to the stack and the trace;
    - under [one_pull] the monitor's credit is exactly greetings + data - Pulls;
    - an enabled move appends exactly one move event and at most one call.

    The first two need the safety of the component (no violation, no panic in any reachable configuration);
    the others hold of every model and need no hypothesis beyond the one named.  All but the last are the fields of
    one invariant ([ginv]), proved by one induction over [reach]. *)

From CB Require Import ProofLib Spec Flow MonitorSound MonitorFacts.

Set Implicit Arguments.

(** ** Lists of messages: every message is of exactly one kind *)

Lemma dmsg_len (l : list dmsg) : length l = cnt is_hs l + cnt is_data l + cnt is_end l.
Proof.
  induction l as [|d l IH]; [reflexivity|].
  rewrite !cnt_cons. destruct d; cbn [length is_hs is_data is_end]; lia.
Qed.

Lemma umsg_len (l : list (option umsg)) :
  length l = cnt is_sub l + cnt is_pull l + cnt is_stop l.
Proof.
  induction l as [|x l IH]; [reflexivity|].
  rewrite !cnt_cons. destruct x as [[| |]|]; cbn [length is_sub is_pull is_stop]; lia.
Qed.

Lemma callupd_viols m cl : viols (mon_call_upd m cl) = viols m.
Proof. exact (MachineFacts.mon_call_upd_viols m cl). Qed.

(** ** One event against the status of port 0 and the messages sent there *)

Definition sk_inv (k : sks) (l : list dmsg) : Prop :=
  match k with
  | SNone => cnt is_hs l = 0 /\ cnt is_end l = 0
  | SLive | SDisposed => cnt is_hs l = 1 /\ cnt is_end l = 0
  | SFinished => cnt is_hs l = 1 /\ cnt is_end l = 1
  end.

Definition us_inv (u : uss) (l : list (option umsg)) : Prop :=
  match u with
  | UNone => cnt is_sub l = 0 /\ cnt is_stop l = 0
  | USubd | ULive | UEnded => cnt is_sub l = 1 /\ cnt is_stop l = 0
  | UStopped => cnt is_sub l = 1 /\ cnt is_stop l = 1
  end.

(** the status an event meets: [enabled] says so of an input, [check_call] of a call *)
Definition sk_pre (k : sks) (ev : event) : Prop :=
  match ev with
  | ECall (CDn 0 DH) => k = SNone
  | ECall (CDn 0 _) | EIn (IUp 0 _) => k = SLive
  | _ => True
  end.

Definition us_pre (u : uss) (ev : event) : Prop :=
  match ev with
  | ECall (CSub 0) => u = UNone
  | EIn (IDn 0 DH) => u = USubd
  | EIn (IDn 0 _) | ECall (CUp 0 _) => u = ULive
  | _ => True
  end.

Lemma sk_inv_next k ev l :
  sk_inv k l -> sk_pre k ev -> sk_inv (sk_next k 0 ev) (l ++ dn_out [ev]).
Proof.
  intros H E.
  destruct ev as [[s a|[|s] u|j d|s]|[i|i u|[|s] [|v|e|]]| | |ob|]; cbn in E |- *;
    rewrite ?app_nil_r; try exact H; subst k; try (destruct u; exact H).
  all: cbn [sk_inv] in *; rewrite !cnt_app; cbn; lia.
Qed.

Lemma us_inv_next u ev l :
  us_inv u l -> us_pre u ev -> us_inv (us_next u 0 ev) (l ++ up_out [ev]).
Proof.
  intros H E.
  destruct ev as [[s a|s x|[|j] [|v|e|]|s]|[[|i]|[|i] [|e|]|s d]| | |ob|]; cbn in E |- *;
    rewrite ?app_nil_r; try exact H; subst u; try exact H.
  all: cbn [us_inv] in *; rewrite !cnt_app; cbn; lia.
Qed.

Lemma check_sk p m cl :
  check_call p m cl = [] -> refused m 0 = None -> sk_pre (sk m 0) (ECall cl).
Proof.
  intros Hc Hr. destruct cl as [i|i u|[|s] d]; try exact I.
  pose proof (check_dn_sk _ _ _ _ Hc Hr) as H. now destruct d.
Qed.

Lemma check_us p m cl : resub p = false -> check_call p m cl = [] -> us_pre (us m 0) (ECall cl).
Proof.
  intros Hres Hc. destruct cl as [[|i]|[|i] u|s d]; try exact I.
  - exact (check_sub _ _ _ Hres Hc).
  - exact (check_up _ _ _ _ Hc).
Qed.

Lemma cr_next_count n ev :
  (ev = EIn (IUp 0 UP) -> 0 < n) -> cr_next n 0 ev + pin [ev] = n + hout [ev] + dout [ev].
Proof.
  destruct ev as [[[|s] a|[|s] [|e|]|j d|s]|[i|i u|[|s] [|v|e|]]| | |ob|]; cbn; intros H; try lia.
  specialize (H eq_refl). lia.
Qed.

Lemma settle_check p o m os cl (k : Fr o) :
  viols (ms_settle p o m os (ACall cl k)) = [] ->
  check_call p (fold_left (mon_event p) (map EObs os) m) cl = [].
Proof. apply viols_add_nil. Qed.

Definition on_call (P : call -> Prop) (e : event) : Prop :=
  match e with ECall cl => P cl | _ => True end.

Lemma port0_calls tr :
  Forall (on_call port0) tr -> n_call tr = length (up_out tr) + length (dn_out tr).
Proof.
  induction 1 as [|e tr He _ IH]; [reflexivity|].
  rewrite (c_cons n_call_counter e tr), (p_cons up_out_proj e tr), (p_cons dn_out_proj e tr),
    !app_length, IH.
  destruct e as [i|cl| | |ob|]; try reflexivity.
  destruct He as [->|[[u ->]|[d ->]]]; cbn; lia.
Qed.

Lemma only_dn_calls tr : Forall (on_call only_dn) tr -> up_out tr = [].
Proof.
  induction 1 as [|e tr He _ IH]; [reflexivity|]. rewrite (p_cons up_out_proj e tr), IH.
  destruct e as [i|cl| | |ob|]; try reflexivity. destruct He as [d ->]. reflexivity.
Qed.

Lemma only_up_calls tr : Forall (on_call only_up) tr -> dn_out tr = [].
Proof.
  induction 1 as [|e tr He _ IH]; [reflexivity|]. rewrite (p_cons dn_out_proj e tr), IH.
  destruct e as [i|cl| | |ob|]; try reflexivity. destruct He as [->|[u ->]]; reflexivity.
Qed.

Section Generic.
  Variable p : mparams.
  Variable o : op.
  Variable g : mstate -> input -> bool.

  (** the call an answer ends in is one the operator's code makes *)
  Lemma result_calls (c : cfg o) m P :
    calls_sat P o -> match snd (result c m) with ACall cl _ => P cl | _ => True end.
  Proof.
    intros [H1 H2]. destruct m as [i|]; cbn [result].
    - destruct (handle o i (cst c)) as [[s' os] [| |cl k]] eqn:Hh; cbn; eauto.
    - destruct (stack c) as [|[k0 cl0] rest]; [exact I|].
      destruct (resume o k0 (cst c)) as [[s' os] [| |cl k]] eqn:Hh; cbn; eauto.
  Qed.

  (** a return pops one frame, an input none *)
  Lemma base_stack (c : cfg o) m :
    enabled p g c m = true ->
    length (base c m) + match m with MRet => 1 | MIn _ => 0 end = length (stack c) /\
    incl (base c m) (stack c).
  Proof.
    intros He. destruct m as [i|]; cbn [base]; [split; [lia | apply incl_refl]|].
    destruct (enabled_ret_stack _ _ _ He) as (k & cl & rest & ->). cbn.
    split; [lia | apply incl_tl, incl_refl].
  Qed.

  (** what [enabled] says about the status the move meets *)
  Lemma move_pre (c : cfg o) m :
    enabled p g c m = true ->
    sk_pre (sk (ms c) 0) (move_event m) /\ us_pre (us (ms c) 0) (move_event m) /\
    (one_pull p = true -> move_event m = EIn (IUp 0 UP) -> 0 < credit (ms c) 0).
  Proof.
    intros He. destruct m as [[s a|[|s] u|[|j] d|s]|]; cbn [move_event sk_pre us_pre];
      try (repeat split; [exact I .. | discriminate]).
    - destruct (en_up _ _ _ _ _ He) as (_ & H1 & H2). repeat split; [exact H1|].
      intros Hone E. inversion E; subst u. exact (H2 eq_refl Hone).
    - split; [exact I|]. split; [|discriminate].
      destruct (en_member _ _ _ _ _ He) as [_ E]. now destruct d.
  Qed.

  Local Notation safe := (forall c : cfg o, reach p g c -> viols (ms c) = [] /\ dead c = false).
  Local Notation std := (forall m inp, g m inp = g_std m inp).

  Record ginv (c : cfg o) : Prop := {
    gi_ret : n_ret (trace c) + length (stack c) = n_call (trace c);
    gi_stack : forall P, calls_sat P o -> Forall (fun fc => P (snd fc)) (stack c);
    gi_calls : forall P, calls_sat P o -> Forall (on_call P) (trace c);
    gi_credit : one_pull p = true ->
                credit (ms c) 0 + pin (trace c) = hout (trace c) + dout (trace c);
    gi_sk : safe -> std -> sk_inv (sk (ms c) 0) (dn_out (trace c));
    gi_us : safe -> resub p = false -> us_inv (us (ms c) 0) (up_out (trace c));
  }.

  Lemma ginv_reach : forall c, reach p g c -> ginv c.
  Proof.
    apply reach_invariant.
    { split; intros; try reflexivity; try constructor; try (split; reflexivity). }
    intros c m Hr [I1 I2 I3 I4 I5 I6] He.
    pose proof (en_step He) as Hst. pose proof (stepped_trace Hst) as Htr.
    destruct Hst as [_ Hs Hm Hd _]. pose proof (result_calls c m) as Hc.
    destruct (base_stack _ _ He) as [Hl Hin].
    destruct (result c m) as [[s' os] a]. cbn [fst snd] in *.
    destruct (move_pre _ _ He) as (Psk & Pus & Pcr).
    split.
    - rewrite Htr, Hs, (count_step n_ret_counter), (count_step n_call_counter).
      destruct m, a; cbn in Hl |- *; lia.
    - intros P HP. rewrite Hs.
      assert (Hb : Forall (fun fc => P (snd fc)) (base c m)).
      { apply Forall_forall. intros x Hx. exact (proj1 (Forall_forall _ _) (I2 P HP) x (Hin x Hx)). }
      specialize (Hc P HP). destruct a; auto.
    - intros P HP. rewrite Htr. apply Forall_app. split; [exact (I3 P HP)|].
      constructor; [destruct m; exact I|]. apply Forall_app. split.
      + apply Forall_forall. intros e He'. apply in_map_iff in He'. destruct He' as (ob & <- & _). exact I.
      + constructor; [|constructor]. specialize (Hc P HP). destruct a; auto; exact I.
    - intros Hone. specialize (I4 Hone).
      rewrite Hm, (fld_step o (credit_field p)), Htr, (count_step pin_counter),
        (count_step hout_counter), (count_step dout_counter).
      assert (E : act_event o a = EIn (IUp 0 UP) -> 0 < cr_next (credit (ms c) 0) 0 (move_event m))
        by (destruct a; discriminate).
      pose proof (cr_next_count (Pcr Hone)). pose proof (cr_next_count E). lia.
    - intros Hsafe Hg. specialize (I5 Hsafe Hg).
      destruct (Hsafe _ (reachS m Hr He)) as [Hv Hdd]. rewrite Hm in Hv. rewrite Hd in Hdd.
      rewrite Hm, (fld_step o (sk_field p)), Htr, (proj_step dn_out_proj), app_assoc.
      apply sk_inv_next; [apply sk_inv_next; [exact I5 | exact Psk]|].
      destruct a as [| |cl k]; [exact I | discriminate |].
      rewrite <- (fld_pre (sk_field p) (ms c) m os 0).
      apply (check_sk p); [exact (settle_check _ _ _ _ _ _ Hv)|].
      now rewrite (fld_obs (refused_field p)), (move_refused Hg He), (reach_refused Hg Hr).
    - intros Hsafe Hres. specialize (I6 Hsafe Hres).
      destruct (Hsafe _ (reachS m Hr He)) as [Hv Hdd]. rewrite Hm in Hv. rewrite Hd in Hdd.
      rewrite Hm, (fld_step o (us_field p)), Htr, (proj_step up_out_proj), app_assoc.
      apply us_inv_next; [apply us_inv_next; [exact I6 | exact Pus]|].
      destruct a as [| |cl k]; [exact I | discriminate |].
      rewrite <- (fld_pre (us_field p) (ms c) m os 0).
      exact (check_us p _ _ Hres (settle_check _ _ _ _ _ _ Hv)).
  Qed.
End Generic.

Section Exported.
  Variable p : mparams.
  Variable o : op.
  Variable g : mstate -> input -> bool.
  Variable c : cfg o.

  Local Notation safe :=
    (forall c' : cfg o, reach p g c' -> viols (ms c') = [] /\ dead c' = false).
  Local Notation std := (forall m inp, g m inp = g_std m inp).

  (** which of greeting and end the sink has seen, by monitor state *)
  Theorem sk_counts :
    safe -> std -> resub p = false -> reach p g c ->
    match sk (ms c) 0 with
    | SNone => hout (trace c) = 0 /\ cnt is_end (dn_out (trace c)) = 0
    | SLive | SDisposed => hout (trace c) = 1 /\ cnt is_end (dn_out (trace c)) = 0
    | SFinished => hout (trace c) = 1 /\ cnt is_end (dn_out (trace c)) = 1
    end.
  Proof.
    intros Hsafe Hg _ Hr. exact (gi_sk (ginv_reach Hr) Hsafe Hg).
  Qed.

  Theorem refused_none :
    safe -> std -> resub p = false -> reach p g c -> forall s, refused (ms c) s = None.
  Proof.
    intros _ Hg _ Hr. exact (reach_refused Hg Hr).
  Qed.

  Theorem greet_once :
    safe -> std -> resub p = false -> reach p g c -> hout (trace c) <= 1.
  Proof.
    intros Hsafe Hg Hres Hr. pose proof (sk_counts Hsafe Hg Hres Hr) as H.
    destruct (sk (ms c) 0); lia.
  Qed.

  Theorem end_once :
    safe -> std -> resub p = false -> reach p g c -> cnt is_end (dn_out (trace c)) <= 1.
  Proof.
    intros Hsafe Hg Hres Hr. pose proof (sk_counts Hsafe Hg Hres Hr) as H.
    destruct (sk (ms c) 0); lia.
  Qed.

  Theorem dn_out_len :
    safe -> std -> resub p = false -> reach p g c ->
    length (dn_out (trace c)) <= dout (trace c) + 2.
  Proof.
    intros Hsafe Hg Hres Hr.
    pose proof (greet_once Hsafe Hg Hres Hr) as H1. pose proof (end_once Hsafe Hg Hres Hr) as H2.
    rewrite (dmsg_len (dn_out (trace c))). unfold hout, dout in *. lia.
  Qed.

  Theorem greeted_hout :
    safe -> std -> resub p = false -> reach p g c -> sk (ms c) 0 <> SNone -> hout (trace c) = 1.
  Proof.
    intros Hsafe Hg Hres Hr Hn. pose proof (sk_counts Hsafe Hg Hres Hr) as H.
    destruct (sk (ms c) 0); try tauto; congruence.
  Qed.

  Theorem us_counts :
    safe -> std -> resub p = false -> reach p g c ->
    match us (ms c) 0 with
    | UNone => cnt is_sub (up_out (trace c)) = 0 /\ cnt is_stop (up_out (trace c)) = 0
    | USubd | ULive | UEnded =>
        cnt is_sub (up_out (trace c)) = 1 /\ cnt is_stop (up_out (trace c)) = 0
    | UStopped => cnt is_sub (up_out (trace c)) = 1 /\ cnt is_stop (up_out (trace c)) = 1
    end.
  Proof. intros Hsafe _ Hres Hr. exact (gi_us (ginv_reach Hr) Hsafe Hres). Qed.

  Theorem sub_once :
    safe -> std -> resub p = false -> reach p g c -> cnt is_sub (up_out (trace c)) <= 1.
  Proof.
    intros Hsafe Hg Hres Hr. pose proof (us_counts Hsafe Hg Hres Hr) as H.
    destruct (us (ms c) 0); lia.
  Qed.

  Theorem stop_once :
    safe -> std -> resub p = false -> reach p g c -> cnt is_stop (up_out (trace c)) <= 1.
  Proof.
    intros Hsafe Hg Hres Hr. pose proof (us_counts Hsafe Hg Hres Hr) as H.
    destruct (us (ms c) 0); lia.
  Qed.

  Theorem up_out_len :
    safe -> std -> resub p = false -> reach p g c ->
    length (up_out (trace c)) <= pout (trace c) + 2.
  Proof.
    intros Hsafe Hg Hres Hr.
    pose proof (sub_once Hsafe Hg Hres Hr) as H1. pose proof (stop_once Hsafe Hg Hres Hr) as H2.
    rewrite (umsg_len (up_out (trace c))). unfold pout. lia.
  Qed.

  Theorem ret_le_call : reach p g c -> n_ret (trace c) + length (stack c) = n_call (trace c).
  Proof. intros Hr. exact (gi_ret (ginv_reach Hr)). Qed.

  Theorem stack_sat (P : call -> Prop) :
    calls_sat P o -> reach p g c -> Forall (fun fc => P (snd fc)) (stack c).
  Proof. intros HP Hr. exact (gi_stack (ginv_reach Hr) HP). Qed.

  Theorem calls_port0 :
    calls_sat port0 o -> reach p g c ->
    n_call (trace c) = length (up_out (trace c)) + length (dn_out (trace c)).
  Proof. intros HP Hr. exact (port0_calls (gi_calls (ginv_reach Hr) HP)). Qed.

  Theorem no_up : calls_sat only_dn o -> reach p g c -> up_out (trace c) = [].
  Proof. intros HP Hr. exact (only_dn_calls (gi_calls (ginv_reach Hr) HP)). Qed.

  Theorem no_dn : calls_sat only_up o -> reach p g c -> dn_out (trace c) = [].
  Proof. intros HP Hr. exact (only_up_calls (gi_calls (ginv_reach Hr) HP)). Qed.

  Theorem credit_exact :
    one_pull p = true -> reach p g c ->
    credit (ms c) 0 + pin (trace c) = hout (trace c) + dout (trace c).
  Proof. intros Hone Hr. exact (gi_credit (ginv_reach Hr) Hone). Qed.

  Theorem moves_step (m : move) :
    enabled p g c m = true ->
    n_in (trace (step p c m)) + n_ret (trace (step p c m)) = S (n_in (trace c) + n_ret (trace c)) /\
    n_call (trace (step p c m)) =
      n_call (trace c) +
      match hd_error (rtrace (step p c m)) with Some (ECall _) => 1 | _ => 0 end /\
    n_in (trace (step p c m)) = n_in (trace c) + match m with MIn _ => 1 | MRet => 0 end.
  Proof.
    intros He.
    pose proof (stepped_trace (en_step He)) as Htr.
    pose proof (f_equal (@hd_error _) (st_rtrace (en_step He))) as Hhd.
    destruct (result c m) as [[s' os] a]. cbn [fst snd hd_error] in *.
    rewrite Htr, Hhd, (count_step n_in_counter), (count_step n_ret_counter),
      (count_step n_call_counter).
    destruct m, a; cbn; lia.
  Qed.

End Exported.

Print Assumptions sk_counts.
Print Assumptions refused_none.
Print Assumptions greet_once.
Print Assumptions end_once.
Print Assumptions dn_out_len.
Print Assumptions greeted_hout.
Print Assumptions us_counts.
Print Assumptions sub_once.
Print Assumptions stop_once.
Print Assumptions up_out_len.
Print Assumptions ret_le_call.
Print Assumptions stack_sat.
Print Assumptions calls_port0.
Print Assumptions no_up.
Print Assumptions no_dn.
Print Assumptions credit_exact.
Print Assumptions moves_step.
