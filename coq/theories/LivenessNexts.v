(** * LivenessNexts: "the iterator is advanced only on demand, once per element delivered plus once to
      discover exhaustion" - for every reachable state of every pipeline (C06, C15 composed). *)

From CB Require Import ProofLib Spec Chain Programs Flow FlowLists LivenessG.
From CB Require Inv_from_iter.

Set Implicit Arguments.

(** in every reachable state of every pipeline (with or without for_each, any iterator): the results of
    next() so far are exactly the items from_iter delivered, followed by None iff from_iter told its
    sink the end; and never more calls of next() than Pulls from_iter received *)
Theorem pipeline_nexts it stages b N :
  Forall ustage_ok stages -> net_reach (pipe_net it stages b) N ->
  forall n0, nth_error (nodes N) 0 = Some n0 ->
    Inv_from_iter.nexts (ntrace n0) =
      map Some (data_out 0 (ntrace n0)) ++
      match sk (nms n0) 0 with SFinished => [None] | _ => [] end /\
    length (Inv_from_iter.nexts (ntrace n0)) <= pin (ntrace n0).
Proof.
  intros Hok Hr n0 Hn0.
  pose proof (p_src_at Hok Hr Hn0) as E. pose proof (p_reach Hok _ Hr Hn0) as Hre.
  split; [|exact (proj2 (nr_lazy E Hre))].
  destruct (nsig_inv E) as [c ->].
  exact (@Inv_from_iter.from_iter_done_exact it p_src eq_refl eq_refl eq_refl eq_refl c Hre).
Qed.
Print Assumptions pipeline_nexts.

(** over a finite input: at most [length xs + 1] calls of next(), in every reachable state *)
Theorem pipeline_nexts_bound (xs : list val) stages b N :
  Forall ustage_ok stages -> net_reach (pipe_net (fun k => nth_error xs k) stages b) N ->
  forall n0, nth_error (nodes N) 0 = Some n0 ->
    length (Inv_from_iter.nexts (ntrace n0)) <= S (length xs).
Proof.
  intros Hok Hr n0 Hn0.
  destruct (pipeline_nexts Hok Hr Hn0) as [E _]. rewrite E, app_length, map_length.
  pose proof (prefix_length (nr_prefix xs (fun k => eq_refl) (p_src_at Hok Hr Hn0)
                               (p_reach Hok _ Hr Hn0))) as Hl.
  destruct (sk (nms n0) 0); cbn; lia.
Qed.
Print Assumptions pipeline_nexts_bound.
