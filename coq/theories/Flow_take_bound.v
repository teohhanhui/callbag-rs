(** * Flow_take_bound: under a one-Pull-per-message sink, take(n) sends at most n Pulls up and
      delivers at most n data.

    Why: take forwards a Pull only while [tk_taken < n]; [tk_taken = dout] (Flow_take.dout_taken);
    under [one_pull] the monitor's credit is exactly greetings + data - Pulls received
    (FlowGeneric.credit_exact), so  pin <= hout + dout <= 1 + dout;  and a Pull sent up is a Pull
    received ([pout <= pin]).  Hence right after a Pull is forwarded
        pout <= pin <= 1 + tk_taken <= n.
    The induction is [Flow_take.take_counts]. *)

From CB Require Import Unary Flow Inv_take Flow_take.

Set Implicit Arguments.

Theorem take_pulls_bounded (n : nat) p :
  nsinks p = 1 -> resub p = false -> no_nest p = false -> c14 p = false -> 1 <= n ->
  one_pull p = true ->
  forall c : cfg (take_op n), reach p g_std c -> pout (trace c) <= n.
Proof.
  intros H1 H2 H3 H4 Hn Hone c Hr. exact (proj1 (take_counts Hn H1 H2 H3 (no_c14 H4) Hr) Hone).
Qed.
Print Assumptions take_pulls_bounded.

(** a Pull sent up is a Pull received *)
Theorem take_pulls_le_pin (n : nat) p :
  nsinks p = 1 -> resub p = false -> no_nest p = false -> c14 p = false -> 1 <= n ->
  one_pull p = true ->
  forall c : cfg (take_op n), reach p g_std c -> pout (trace c) <= pin (trace c).
Proof.
  intros H1 H2 H3 H4 Hn _ c Hr.
  exact (proj2 (proj2 (proj2 (proj2 (take_counts Hn H1 H2 H3 (no_c14 H4) Hr))))).
Qed.
Print Assumptions take_pulls_le_pin.

Theorem take_data_bounded (n : nat) p :
  nsinks p = 1 -> resub p = false -> no_nest p = false -> c14 p = false -> 1 <= n ->
  one_pull p = true ->
  forall c : cfg (take_op n), reach p g_std c -> dout (trace c) <= n.
Proof.
  intros H1 _ H3 H4 Hn _ c Hr. rewrite (dout_taken Hn H1 H3 (no_c14 H4) Hr).
  exact (i_le (take_reach Hn H1 H3 (no_c14 H4) Hr)).
Qed.
Print Assumptions take_data_bounded.

(** not vacuous, and the bound is attained: the fully nested run of take(2) under a one-Pull sink
    is conformant with [one_pull = true]; the sink's third Pull (after the 2nd datum) is swallowed *)
Module TakeBoundSanity.
  Definition p1 : mparams :=
    {| nsinks := 1; late_ok := false; pullable := false; one_pull := true;
       resub := false; no_nest := false; c14 := false |}.
  Definition script : list move :=
    [MIn (ISub 0 0); MIn (IDn 0 DH); MIn (IUp 0 UP); MIn (IDn 0 (DD (VN 1)));
     MIn (IUp 0 UP); MIn (IDn 0 (DD (VN 2))); MIn (IUp 0 UP);
     MRet; MRet; MRet; MRet; MRet; MRet; MRet; MRet].
  Example script_enabled : all_enabled p1 g_std (cfg0 (take_op 2)) script = true.
  Proof. vm_compute. reflexivity. Qed.
  Example script_end :
    let c := run p1 (take_op 2) script in
    stack c = [] /\ pin (trace c) = 3 /\ pout (trace c) = 2 /\ dout (trace c) = 2.
  Proof. vm_compute. repeat split; reflexivity. Qed.
End TakeBoundSanity.
