(** * Inv_concat_pull: property C14 (demand conservation) for concat, for every
      member count [n], in the pull regime: the invariant of Inv_concat.v where the
      demand counts are checked, and non-vacuity witnesses. *)
From CB Require Import Ports Inv_concat.

Set Implicit Arguments.

Section ConcatPull.
  Variable n : nat.
  Variable p : mparams.
  Hypothesis Hns : nsinks p = 1.
  Hypothesis Hnonest : no_nest p = false.
  Hypothesis Hc14 : c14 p = true.
  Hypothesis Hpullable : pullable p = true.
  Hypothesis Hone : one_pull p = true.
  Hypothesis Hlate : late_ok p = false.

  Lemma inv_reach (c : cfg (concat_op n)) : reach p g_std c -> Inv c /\ Dem p c.
  Proof. exact (inv_dem_reach Hns Hnonest (fun _ => conj Hpullable Hone) Hlate (c := c)).
  Qed.
End ConcatPull.

(** C14 for concat, for every member count (zero included): in the pull
    regime no Pull is sent to a member that still owes an answer, the sink
    never gets more Data than it pulled for, and no Pull of the sink is left
    without an answer at a quiescent point - in particular across member
    boundaries, where the Pull answered by the Terminate of member [k] is
    re-issued to member [k+1] when it greets.  (None of the C01-C05, C17
    violations occurs either.) *)
Theorem concat_safe_pull n p :
  nsinks p = 1 -> resub p = false -> no_nest p = false ->
  c14 p = true -> pullable p = true -> one_pull p = true -> late_ok p = false ->
  forall c : cfg (concat_op n), reach p g_std c -> viols (ms c) = [] /\ dead c = false.
Proof.
  intros H1 H2 H3 H4 H5 H6 H7 c Hr.
  destruct (inv_reach H1 H3 H5 H6 H7 Hr) as [[Hd HB _ _ _ _] _].
  split; [exact (pb_viols HB) | exact Hd].
Qed.
Print Assumptions concat_safe_pull.

(** the conservation equations themselves, for use by clients: while the sink
    and a member are live that member is the one at the cursor, every Pull of
    the sink is answered or owed by it, and exactly one of "the sink holds a
    credit" / "the member owes an answer" is the case; members past the cursor
    are owed nothing *)
Theorem concat_pull_counts n p :
  nsinks p = 1 -> resub p = false -> no_nest p = false ->
  c14 p = true -> pullable p = true -> one_pull p = true -> late_ok p = false ->
  forall c : cfg (concat_op n), reach p g_std c ->
    (forall j, us (ms c) j = ULive ->
       j = cc_i (cst c) /\ sk (ms c) 0 = SLive /\
       owed (ms c) j + ndata (ms c) 0 = npull (ms c) 0 /\
       credit (ms c) 0 + owed (ms c) j = 1 /\ In j (ports (ms c))) /\
    (forall j, us (ms c) j = USubd ->
       j = cc_i (cst c) /\ credit (ms c) 0 = 0 /\ owed (ms c) j = 0 /\
       npull (ms c) 0 = match j with 0 => 0 | S _ => 1 end + ndata (ms c) 0) /\
    (forall j, cc_i (cst c) < j -> owed (ms c) j = 0).
Proof.
  intros H1 H2 H3 H4 H5 H6 H7 c Hr.
  destruct (inv_reach H1 H3 H5 H6 H7 Hr) as [HI [_ ZS ZL]].
  pose proof (i_base HI) as HB.
  split; [|split].
  - intros j Hj. destruct (live_current j HI Hj) as (-> & Hsk & _).
    destruct (ZL H4 Hj). repeat split; auto. apply (pb_known HB). congruence.
  - intros j Hj. destruct (subd_current j HI Hj) as (-> & _). destruct (ZS H4 Hj) as (? & ? & ?).
  auto.
  - intros j Hj. apply (proj2 (i_around HI) j Hj).
Qed.
Print Assumptions concat_pull_counts.

(** ** Non-vacuity: a conformant run of the pull regime over two members.  The
    sink pulls inside its greeting, member 0 answers with one item, the sink
    pulls again inside that delivery, member 0 answers with Terminate, member 1
    is subscribed inside that Terminate, greets and is pulled at once, answers
    with one item, the sink pulls, member 1 terminates, the sink is completed
    and everything unwinds to a quiescent point. *)
Definition p_pull : mparams :=
  {| nsinks := 1; late_ok := false; pullable := true; one_pull := true;
     resub := false; no_nest := false; c14 := true |}.

Definition witness_script : list move :=
  [MIn (ISub 0 0); MIn (IDn 0 DH); MIn (IUp 0 UP);
   MIn (IDn 0 (DD (VN 1))); MIn (IUp 0 UP);
   MIn (IDn 0 DT); MIn (IDn 1 DH);
   MIn (IDn 1 (DD (VN 2))); MIn (IUp 0 UP);
   MIn (IDn 1 DT);
   MRet; MRet; MRet; MRet; MRet; MRet; MRet; MRet; MRet; MRet].

Example concat_pull_witness :
  let c := run p_pull (concat_op 2) witness_script in
  reach p_pull g_std c /\ stack c = [] /\ sk (ms c) 0 = SFinished /\
  data_out 0 (trace c) = [VN 1; VN 2] /\ npull (ms c) 0 = 3 /\ ndata (ms c) 0 = 2 /\
  In (ECall (CUp 1 UP)) (trace c) /\ viols (ms c) = [].
Proof.
  split; [apply reach_run; vm_compute; reflexivity|].
  vm_compute. repeat split; auto 40.
Qed.

(** the boundary at a quiescent point: member 0 answers the sink's only Pull
    with Terminate, member 1 greets and is pulled, and everything returns.  The
    sink is live, [npull 0 = 1 <> 0 = ndata 0], and [VUnanswered] does not fire
    because the re-issued Pull is owed by member 1 *)
Definition boundary_script : list move :=
  [MIn (ISub 0 0); MIn (IDn 0 DH); MIn (IUp 0 UP); MIn (IDn 0 DT); MIn (IDn 1 DH);
   MRet; MRet; MRet; MRet; MRet].

Example concat_pull_boundary :
  let c := run p_pull (concat_op 2) boundary_script in
  reach p_pull g_std c /\ stack c = [] /\ sk (ms c) 0 = SLive /\
  npull (ms c) 0 = 1 /\ ndata (ms c) 0 = 0 /\ owed (ms c) 0 = 0 /\ owed (ms c) 1 = 1 /\
  ports (ms c) = [1; 0] /\ viols (ms c) = [].
Proof.
  split; [apply reach_run; vm_compute; reflexivity|].
  vm_compute. repeat split.
Qed.

(** zero members: the sink pulls inside its greeting (the no-op talkback), is
    completed when the greeting returns, and is not live at the quiescent point *)
Example concat_pull_zero :
  let c := run p_pull (concat_op 0) [MIn (ISub 0 0); MIn (IUp 0 UP); MRet; MRet] in
  reach p_pull g_std c /\ stack c = [] /\ sk (ms c) 0 = SFinished /\
  npull (ms c) 0 = 1 /\ ndata (ms c) 0 = 0 /\ viols (ms c) = [].
Proof.
  split; [apply reach_run; vm_compute; reflexivity|].
  vm_compute. repeat split.
Qed.
