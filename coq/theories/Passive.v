(** * Passive: what a handler does from its entry to its return when the peers it calls
      simply return (no re-entrant reaction).

    The invariant theorems (Inv_*.v) quantify over every re-entrant environment and say what can
    NEVER happen.  The "completeness" clauses of the properties (a Pull reaches EVERY live member,
    EVERY attached sink receives the datum) are about what one activation DOES; they are stated for
    the passive continuation of a reachable configuration: after the input, every pending call of
    the component is answered by a plain return until control is back at top level.  With a
    re-entrant peer the set of addressees changes while the broadcast is running, and what may
    happen then is what the invariant theorems bound. *)

From CB Require Import ProofLib Spec.

Set Implicit Arguments.

Section Passive.
  Variable p : mparams.
  Variable o : op.

  (** answer every pending call with a return, innermost first, at most [fuel] times *)
  Fixpoint drain (fuel : nat) (c : cfg o) : cfg o :=
    match fuel with
    | 0 => c
    | S f => match stack c with
             | [] => c
             | _ :: _ => drain f (step p c MRet)
             end
    end.

  Fixpoint calls_of (tr : list event) : list call :=
    match tr with
    | [] => []
    | ECall c :: tr' => c :: calls_of tr'
    | _ :: tr' => calls_of tr'
    end.

  Lemma calls_of_app a b : calls_of (a ++ b) = calls_of a ++ calls_of b.
  Proof.
    induction a as [|e a IH]; cbn; [reflexivity|]. destruct e; cbn; rewrite ?IH; reflexivity.
  Qed.

  Lemma drain_nil fuel c : stack c = [] -> drain fuel c = c.
  Proof. intros H. destruct fuel; cbn; [reflexivity|]. now rewrite H. Qed.

  Lemma drain_S fuel c f cl rest :
    stack c = (f, cl) :: rest -> drain (S fuel) c = drain fuel (step p c MRet).
  Proof. intros H. cbn. now rewrite H. Qed.

  Lemma drain_add a b c : drain (a + b) c = drain b (drain a c).
  Proof.
    revert c. induction a as [|a IH]; intros c; cbn; [reflexivity|].
    destruct (stack c) eqn:E; [now rewrite drain_nil|]. apply IH.
  Qed.

  Lemma drain_trace_prefix fuel :
    forall c : cfg o, exists evs, trace (drain fuel c) = trace c ++ evs.
  Proof.
    induction fuel as [|f IH]; intros c; cbn [drain].
    - exists []. now rewrite app_nil_r.
    - destruct (stack c) as [|[k cl] rest] eqn:Es; [exists []; now rewrite app_nil_r|].
      destruct (dead c) eqn:Ed.
      + assert (E : step p c MRet = c) by (unfold step; now rewrite Ed). rewrite E. apply IH.
      + destruct (resume o k (cst c)) as [[s' os] a] eqn:Hr.
        pose proof (step_ret_trace p c Ed Es Hr) as Htr.
        destruct (IH (step p c MRet)) as [evs E]. rewrite E, Htr.
        eexists. rewrite <- app_assoc. reflexivity.
  Qed.

  (** a passive continuation stays inside the conformant environment as long as every return it
      performs is enabled (a return from a subscribing call needs the upstream's greeting unless
      [late_ok]) *)
  Variable g : mstate -> input -> bool.

  Fixpoint drain_enabled (fuel : nat) (c : cfg o) : bool :=
    match fuel with
    | 0 => true
    | S f => match stack c with
             | [] => true
             | _ :: _ => enabled p g c MRet && drain_enabled f (step p c MRet)
             end
    end.

  Lemma drain_enabled_S fuel c f cl rest :
    stack c = (f, cl) :: rest ->
    drain_enabled (S fuel) c = enabled p g c MRet && drain_enabled fuel (step p c MRet).
  Proof. intros H. cbn. now rewrite H. Qed.

  Lemma drain_reach fuel : forall c,
    reach p g c -> drain_enabled fuel c = true -> reach p g (drain fuel c).
  Proof.
    induction fuel as [|f IH]; intros c Hr He; cbn in *; [exact Hr|].
    destruct (stack c) eqn:E; [exact Hr|].
    apply andb_prop in He. destruct He as [H1 H2].
    apply IH; [|exact H2]. now apply reachS.
  Qed.
End Passive.

(** [runs r l s']: an activation that ends as [r] says, and the resumptions that follow when
    every call simply returns, make exactly the calls [l] (none of them a subscription) and
    then return in state [s'].  [drain] runs them, within the conformant environment. *)
Section Loop.
  Variable p : mparams.
  Variable o : op.
  Variable g : mstate -> input -> bool.

  Definition no_sub (cl : call) : Prop := match cl with CSub _ => False | _ => True end.

  Fixpoint runs (r : St o * list obs * act (Fr o)) (l : list call) (s_end : St o) : Prop :=
    match l with
    | [] => r = (s_end, [], ARet)
    | cl :: l' => no_sub cl /\
                  exists k s, r = (s, [], ACall cl k) /\ runs (resume o k s) l' s_end
    end.

  Lemma enabled_ret_nosub (c : cfg o) k cl rest :
    dead c = false -> stack c = (k, cl) :: rest -> no_sub cl -> enabled p g c MRet = true.
  Proof.
    intros Hd Hs Hcl. unfold enabled. rewrite Hd, Hs. destruct cl; [destruct Hcl|reflexivity..].
  Qed.

  Theorem drain_loop l : forall (c : cfg o) k cl0 s_end,
    dead c = false -> stack c = [(k, cl0)] -> no_sub cl0 -> runs (resume o k (cst c)) l s_end ->
    let c' := drain p (S (length l)) c in
    stack c' = [] /\ cst c' = s_end /\ dead c' = false /\
    (exists evs, trace c' = trace c ++ evs /\ calls_of evs = l) /\
    drain_enabled p g (S (length l)) c = true.
  Proof.
    induction l as [|cl l IH]; intros c k cl0 s_end Hd Hst H0 Hr; cbv zeta;
      pose proof (enabled_ret_nosub c Hd Hst H0) as He;
      cbn [length]; rewrite (drain_S p _ c Hst), (drain_enabled_S p g _ c Hst), He.
    - destruct (step_ret p c Hd Hst Hr) as (Hc & Hs & _ & Hdd). cbn [drain].
      repeat split; auto. exists [ERet; EDone]. split; [|reflexivity].
      exact (step_ret_trace p c Hd Hst Hr).
    - destruct Hr as (Hcl & k' & s' & Hr & Hruns).
      destruct (step_ret p c Hd Hst Hr) as (Hc & Hs & _ & Hdd). rewrite <- Hc in Hruns.
      destruct (IH _ _ _ _ Hdd Hs Hcl Hruns) as (H1 & H2 & H3 & (evs & H4 & H5) & H6).
      rewrite H6. repeat split; auto. exists (ERet :: ECall cl :: evs). split; [|now rewrite <- H5].
      rewrite H4, (step_ret_trace p c Hd Hst Hr), <- app_assoc. reflexivity.
  Qed.

  Theorem drain_input (c : cfg o) i l s_end :
    dead c = false -> deliverable (ms c) i = true -> stack c = [] ->
    runs (handle o i (cst c)) l s_end ->
    let c' := drain p (length l) (step p c (MIn i)) in
    stack c' = [] /\ cst c' = s_end /\ dead c' = false /\
    (exists evs, trace c' = trace c ++ EIn i :: evs /\ calls_of evs = l) /\
    (reach p g c -> enabled p g c (MIn i) = true -> reach p g c').
  Proof.
    intros Hd Hdel Hst Hr. destruct l as [|cl l]; cbv zeta.
    - destruct (step_in p c i Hd Hdel Hr) as (Hc & Hs & _ & Hdd). rewrite Hst in Hs.
      repeat split; auto; [|now apply reachS]. exists [EDone]. split; [|reflexivity].
      exact (step_in_trace p c i Hd Hdel Hr).
    - destruct Hr as (Hcl & k & s & Hr & Hruns). cbn [length].
      destruct (step_in p c i Hd Hdel Hr) as (Hc & Hs & _ & Hdd).
      rewrite Hst in Hs. rewrite <- Hc in Hruns.
      destruct (@drain_loop l _ _ _ _ Hdd Hs Hcl Hruns) as (H1 & H2 & H3 & (evs & H4 & H5) & H6).
      repeat split; auto.
      + exists (ECall cl :: evs). split; [|now rewrite <- H5].
        rewrite H4, (step_in_trace p c i Hd Hdel Hr), <- app_assoc. reflexivity.
      + intros Hre He. apply drain_reach; [now apply reachS|exact H6].
  Qed.
End Loop.
