(** * Flow_ends: the flow facts (Flow.v) of the two ends of a pipeline,
      for_each ([sink_flow]) and from_iter ([source_flow]). *)
From CB Require Import ProofLib Spec Flow MonitorSound MonitorFacts FlowGeneric.
From CB Require Inv_for_each Inv_from_iter.

Set Implicit Arguments.

(** The monitor's counters are the trace counts (every operator, every
    trace): [npull _ 0] counts [EIn (IUp 0 UP)], [ndata _ 0] counts
    [ECall (CDn 0 (DD _))]. *)
Lemma npull_mon_event p m ev : npull (mon_event p m ev) 0 = npull m 0 + pin [ev].
Proof.
  destruct ev as [inp|c| | |ob|].
  - destruct inp as [[|s'] [|aux]|[|s'] [|e|]|i' [|v|e|]|s']; cbn; lia.
  - cbn [mon_event]. rewrite add_viols_eq. cbn.
    rewrite (proj2 (proj2 (proj2 (mon_call_upd_frame m c)))). lia.
  - cbn. lia.
  - cbn [mon_event]. destruct (cstack m); rewrite ?add_viols_eq; cbn; lia.
  - destruct ob as [r|v|s' [|]|s']; cbn; lia.
  - cbn. lia.
Qed.

Lemma ndata_mon_event p m ev : ndata (mon_event p m ev) 0 = ndata m 0 + dout [ev].
Proof.
  destruct ev as [inp|c| | |ob|].
  - destruct inp as [s' [|aux]|s' [|e|]|i' [|v|e|]|s']; cbn; lia.
  - cbn [mon_event]. rewrite add_viols_eq.
    destruct c as [i'|i' u|[|s'] d].
    + cbn. lia.
    + destruct u; cbn; lia.
    + destruct d as [|v|e|]; cbn.
      * destruct (sk m 0); cbn; lia.
      * lia.
      * destruct (sk m 0), (err_due m 0) as [e'|]; cbn;
          try destruct (Nat.eqb e e'); cbn; lia.
      * destruct (sk m 0); cbn; lia.
    + destruct d as [|v|e|]; cbn.
      * destruct (sk m (S s')); cbn; lia.
      * lia.
      * destruct (sk m (S s')), (err_due m (S s')) as [e'|]; cbn;
          try destruct (Nat.eqb e e'); cbn; lia.
      * destruct (sk m (S s')); cbn; lia.
  - cbn. lia.
  - cbn [mon_event]. destruct (cstack m); rewrite ?add_viols_eq; cbn; lia.
  - destruct ob as [r|v|s' [|]|s']; cbn; lia.
  - cbn. lia.
Qed.

Lemma npull_mon_trace p tr : npull (mon_trace p tr) 0 = pin tr.
Proof.
  induction tr as [|ev tr IH] using rev_ind; [reflexivity|].
  now rewrite mon_trace_snoc, npull_mon_event, (count_app pin_counter), IH.
Qed.

Lemma ndata_mon_trace p tr : ndata (mon_trace p tr) 0 = dout tr.
Proof.
  induction tr as [|ev tr IH] using rev_ind; [reflexivity|].
  now rewrite mon_trace_snoc, ndata_mon_event, (count_app dout_counter), IH.
Qed.

Theorem reach_npull_pin p o g (c : cfg o) : reach p g c -> npull (ms c) 0 = pin (trace c).
Proof. intros Hr. rewrite (reach_ms_trace Hr). apply npull_mon_trace. Qed.
Print Assumptions reach_npull_pin.

Theorem reach_ndata_dout p o g (c : cfg o) : reach p g c -> ndata (ms c) 0 = dout (trace c).
Proof. intros Hr. rewrite (reach_ms_trace Hr). apply ndata_mon_trace. Qed.
Print Assumptions reach_ndata_dout.

Section ForEachFlow.
  Variable p : mparams.
  Hypothesis Hns : nsinks p = 1.
  Hypothesis Hresub : resub p = false.
  Hypothesis Hc14 : c14 p = false.
  Let o := for_each_op.

  Record FInv (c : cfg o) : Prop := {
    fe_nostop : us (ms c) 0 <> UStopped;
    fe_subd : subd (ms c) 0 = true -> us (ms c) 0 <> UNone;
    fe_pulls : pout (trace c) = hin (trace c) + din (trace c);
  }.

  Lemma fe_reach : forall c, reach p g_std c -> FInv c.
  Proof.
    apply reach_invariant; [split; [discriminate | discriminate | reflexivity]|].
    intros c m Hr [IH1 IH2 IH3] He.
    pose proof (stepped_trace (en_step He)) as Ht.
    assert (Htb : forall v, m = MIn (IDn 0 (DD v)) -> cst c = true).
    { intros v ->. apply (Inv_for_each.i_tb (Inv_for_each.inv_reach Hns Hresub Hc14 Hr)).
      refine (proj1 (proj2 (en_dn _ _ _ _ _ He))). discriminate. }
    split; rewrite ?(fld_result (us_field p) 0 He), ?(fld_result (subd_field p) 0 He),
      ?Ht, ?(count_step pout_counter), ?(count_step hin_counter), ?(count_step din_counter), ?IH3.
    all: destruct m as [[[|s] aux|[|s] u|[|i] [|v|e|]|s]|]; cbn; try rewrite (Htb _ eq_refl);
      try destruct (stack c) as [|[[] cl] rest]; cbn; auto; try discriminate; lia.
  Qed.

  Lemma fe_calls : calls_sat only_up o.
  Proof.
    split.
    - intros i s s' os c k Hh. cbn in Hh.
      destruct i as [[|s0] aux|[|s0] u|[|i] [|v|e|]|s0]; try destruct s;
        inversion Hh; subst; unfold only_up; eauto.
    - intros fr s s' os c k Hh. cbn in Hh. discriminate.
  Qed.
End ForEachFlow.

Theorem for_each_sink_flow p :
  nsinks p = 1 -> resub p = false -> no_nest p = false -> c14 p = false ->
  sink_flow for_each_op p.
Proof.
  intros H1 H2 H3 H4. constructor.
  - intros c Hr. exact (fe_pulls (fe_reach H1 H2 H4 Hr)).
  - intros c Hr. exact (fe_nostop (fe_reach H1 H2 H4 Hr)).
  - intros c Hr. exact (fe_subd (fe_reach H1 H2 H4 Hr)).
  - exact fe_calls.
Qed.
Print Assumptions for_each_sink_flow.

(** from_iter, when the sink sends at most one Pull per message received *)
Section FromIterFlow.
  Variable it : nat -> option val.
  Variable p : mparams.
  Hypothesis Hns : nsinks p = 1.
  Hypothesis Hresub : resub p = false.
  Hypothesis Hnonest : no_nest p = true.
  Hypothesis Hc14 : c14 p = false.
  Hypothesis Hone : one_pull p = true.
  Notation o := (from_iter_op it).

  Definition flag (b : bool) : nat := if b then 1 else 0.

  (** the counting invariant of Inv_from_iter_pull.v in terms of the credit: while the sink is live
      it either holds a credit or its Pull is pending in the flag, and outside the loop no Pull is
      pending *)
  Definition jinv (k : sks) (cr : nat) (s : fi_st) : Prop :=
    match k with
    | SNone => cr = 0
    | SLive => cr + flag (fi_got_pull s) = 1 /\ (fi_in_loop s = false -> fi_got_pull s = false)
    | _ => True
    end.

  (** the invariant after the operator's answer [r], which it gives with status [k], credit [cr] *)
  Definition post (k : sks) (cr : nat) (r : fi_st * list obs * act fi_fr) : Prop :=
    jinv (sk_next k 0 (act_event o (snd r))) (cr_next cr 0 (act_event o (snd r))) (fst (fst r)).

  Lemma post_over k cr r : sk_over k = true -> post k cr r.
  Proof.
    intros H. unfold post. pose proof (sk_next_over k 0 (act_event o (snd r)) H) as H'.
    destruct (sk_next k 0 (act_event o (snd r))); try discriminate; exact I.
  Qed.

  (** the loop answers a pending Pull by a datum (or the end), and otherwise stops *)
  Lemma post_loop cr s :
    fi_completed s = false -> cr + flag (fi_got_pull s) = 1 -> post SLive cr (fi_loop it s).
  Proof.
    intros Hc H. unfold post, fi_loop. rewrite Hc.
    destruct (fi_got_pull s); cbn [andb negb flag] in *; [destruct (it (fi_pos s))|]; cbn; auto.
    split; [lia | reflexivity].
  Qed.

  (** a Pull from a sink that has a credit: outside the loop it starts the loop; inside (from
      within the delivery of a datum) it sets the flag, which was clear: no coalescing *)
  Lemma post_pull cr s :
    fi_completed s = false -> fi_res_done s = false -> jinv SLive cr s -> 0 < cr ->
    post SLive (pred cr) (fi_handle it (IUp 0 UP) s).
  Proof.
    intros Hc Hd [H1 H2] Hcr. unfold fi_handle. rewrite Hc, Hd.
    destruct (fi_in_loop s); cbn [negb andb].
    - unfold post. cbn. split; [lia | discriminate].
    - apply post_loop; [reflexivity|]. rewrite (H2 eq_refl) in H1. cbn in *. lia.
  Qed.

  Lemma si_reach : forall c : cfg o, reach p g_std c -> jinv (sk (ms c) 0) (credit (ms c) 0) (cst c).
  Proof.
    apply reach_invariant; [reflexivity|].
    intros c m Hr IH He.
    pose proof (Inv_from_iter.inv_reach Hns Hc14 Hr) as HI.
    rewrite (st_cst (en_step He)), (fld_result (sk_field p) 0 He), (fld_result (credit_field p) 0 He).
    change (post (sk_next (sk (ms c) 0) 0 (move_event m))
                 (cr_next (credit (ms c) 0) 0 (move_event m)) (result c m)).
    destruct m as [[s aux|s u|i d|s]|]; cbn [result move_event].
    - (* the sink subscribes: greeted from inside *)
      destruct (en_sub _ _ _ _ _ He) as (_ & Hs & Hsb). rewrite Hns in Hs.
      assert (s = 0) by lia. subst s. rewrite (Inv_from_iter.i_subd HI) in Hsb.
      destruct (sk (ms c) 0); try discriminate. unfold post. cbn in *. now rewrite IH.
    -
      destruct (en_up _ _ _ _ _ He) as (_ & Hsk & Hcr).
      destruct s as [|s]; [|rewrite (Inv_from_iter.i_sk_other HI) in Hsk by lia; discriminate].
      pose proof (Inv_from_iter.i_compl HI) as Hcp. pose proof (Inv_from_iter.i_rdone HI) as Hrd.
      rewrite Hsk in *. destruct u as [|e|]; [|apply post_over; reflexivity ..].
      exact (post_pull Hcp Hrd IH (Hcr eq_refl Hone)).
    - (* there is no upstream *)
      exfalso. destruct (en_member _ _ _ _ _ He) as [_ Hu].
      rewrite (Inv_from_iter.i_us HI i) in Hu. now destruct d.
    - exfalso. pose proof (proj2 (en_tick _ _ _ _ He)) as Ht.
      rewrite (Inv_from_iter.i_task HI) in Ht. discriminate.
    -
      destruct (en_ret _ _ _ He) as (k & cl & rest & Hst & _). rewrite Hst. cbn [sk_next cr_next].
      destruct (sk (ms c) 0) eqn:Esk; [|destruct k|apply post_over; reflexivity ..].
      + destruct (Inv_from_iter.i_none HI Esk) as [Hn _]. rewrite Hn in Hst. discriminate.
      + exact IH.
      + pose proof (Inv_from_iter.i_compl HI) as Hcp. rewrite Esk in Hcp.
        exact (post_loop _ _ Hcp (proj1 IH)).
      + (* the loop's last frame is on the stack only when the sink has been told the end *)
        destruct (Inv_from_iter.i_shape HI)
          as (b & [-> | ->] & [(_ & E)|[(_ & _ & v & E)|(_ & E & _)]]);
          rewrite ?Hst in E; congruence.
  Qed.

  Lemma fi_served (c : cfg o) :
    reach p g_std c -> stack c = [] -> sk (ms c) 0 = SLive -> pin (trace c) = dout (trace c).
  Proof.
    intros Hr Hst Hl. pose proof (si_reach Hr) as HJ. rewrite Hl in HJ. destruct HJ as [H1 H2].
    assert (Hil : fi_in_loop (cst c) = false).
    { destruct (Inv_from_iter.i_shape (Inv_from_iter.inv_reach Hns Hc14 Hr))
        as (b & Hb & [(Hil & _) | [(_ & _ & v0 & Hs) | (_ & _ & Hs)]]);
        [exact Hil | rewrite Hst in Hs; discriminate ..]. }
    rewrite (H2 Hil) in H1.
    pose proof (credit_exact Hone Hr) as Hcr.
    rewrite (greeted_hout (@Inv_from_iter.from_iter_safe it p Hns Hresub Hnonest Hc14)
               (fun _ _ => eq_refl) Hresub Hr) in Hcr by congruence.
    cbn in H1. lia.
  Qed.

  Lemma fi_calls : calls_sat only_dn o.
  Proof.
    split.
    - intros i s s' os c k Hh. cbn in Hh. unfold only_dn.
      destruct i as [[|s0] aux|[|s0] [|e|]|i d|s0]; cbn in Hh; unfold fi_loop in Hh; cbn in Hh;
        repeat match type of Hh with
               | context [if ?b then _ else _] => destruct b; cbn in Hh
               | context [match it ?n with _ => _ end] => destruct (it n); cbn in Hh
               end;
        inversion Hh; subst; eauto.
    - intros fr s s' os c k Hh. cbn in Hh. unfold only_dn.
      destruct fr; cbn in Hh; unfold fi_loop in Hh; cbn in Hh;
        repeat match type of Hh with
               | context [if ?b then _ else _] => destruct b; cbn in Hh
               | context [match it ?n with _ => _ end] => destruct (it n); cbn in Hh
               end;
        inversion Hh; subst; eauto.
  Qed.
End FromIterFlow.

(** in any regime from_iter advances the iterator only on demand, and delivers only its items *)
Lemma from_iter_demand (it : nat -> option val) p :
  nsinks p = 1 -> c14 p = false -> forall c : cfg (from_iter_op it), reach p g_std c ->
  dout (trace c) <= length (Inv_from_iter.nexts (trace c)) <= pin (trace c).
Proof.
  intros H1 H4 c Hr. pose proof (Inv_from_iter.inv_reach H1 H4 Hr) as HI.
  pose proof (Inv_from_iter.i_lazy HI) as Hl. rewrite (reach_npull_pin Hr) in Hl.
  rewrite dout_data_out, <- (map_length Some), (Inv_from_iter.i_data HI).
  pose proof (cnt_le_length Inv_from_iter.is_some (Inv_from_iter.nexts (trace c))) as H3.
  unfold cnt in H3. lia.
Qed.

Theorem from_iter_source_flow (it : nat -> option val) p :
  nsinks p = 1 -> resub p = false -> no_nest p = true -> c14 p = false -> one_pull p = true ->
  source_flow (from_iter_op it) p.
Proof.
  intros H1 H2 H3 H4 H5. constructor.
  - intros c Hr Hst Hl. exact (fi_served H1 H2 H3 H4 H5 Hr Hst Hl).
  - apply fi_calls.
Qed.
Print Assumptions from_iter_source_flow.

(** Non-vacuity: conformant scripts of the two regimes that end at rest with the
    counts the records speak about *)
Module FlowEndsSanity.
  Definition pk : mparams :=
    {| nsinks := 1; late_ok := false; pullable := false; one_pull := false;
       resub := false; no_nest := false; c14 := false |}.
  Definition k_script : list move :=
    [MIn (ISub 0 0); MIn (IDn 0 DH); MIn (IDn 0 (DD (VN 1))); MIn (IDn 0 (DD (VN 2)));
     MIn (IDn 0 DT); MRet; MRet; MRet; MRet].
  Example k_ok :
    all_enabled pk g_std (cfg0 for_each_op) k_script = true /\
    let c := run pk for_each_op k_script in
    stack c = [] /\ pout (trace c) = 3 /\ hin (trace c) = 1 /\ din (trace c) = 2 /\
    us (ms c) 0 = UEnded /\ subd (ms c) 0 = true.
  Proof. vm_compute. repeat split; reflexivity. Qed.

  Definition ex_it (k : nat) : option val := if k <? 2 then Some (VN k) else None.
  Definition pr : mparams :=
    {| nsinks := 1; late_ok := false; pullable := false; one_pull := true;
       resub := false; no_nest := true; c14 := false |}.
  Definition r_script : list move :=
    [MIn (ISub 0 0); MIn (IUp 0 UP); MIn (IUp 0 UP); MRet; MRet; MRet].
  Example r_ok :
    all_enabled pr g_std (cfg0 (from_iter_op ex_it)) r_script = true /\
    let c := run pr (from_iter_op ex_it) r_script in
    stack c = [] /\ sk (ms c) 0 = SLive /\ pin (trace c) = 2 /\ dout (trace c) = 2.
  Proof. vm_compute. repeat split; reflexivity. Qed.

  (** [one_pull] is needed: without it two Pulls sent from inside one Data delivery are
      coalesced (served by one item), and the run rests with the sink live, 3 Pulls, 2 data *)
  Definition pr_many : mparams :=
    {| nsinks := 1; late_ok := false; pullable := false; one_pull := false;
       resub := false; no_nest := true; c14 := false |}.
  Definition coalescing_script : list move :=
    [MIn (ISub 0 0); MIn (IUp 0 UP); MIn (IUp 0 UP); MIn (IUp 0 UP); MRet; MRet; MRet].
  Example coalescing_without_one_pull :
    all_enabled pr_many g_std (cfg0 (from_iter_op ex_it)) coalescing_script = true /\
    let c := run pr_many (from_iter_op ex_it) coalescing_script in
    stack c = [] /\ sk (ms c) 0 = SLive /\ pin (trace c) = 3 /\ dout (trace c) = 2.
  Proof. vm_compute. repeat split; reflexivity. Qed.
End FlowEndsSanity.
