(** * ClosedDemand: property C14 inside every pipeline under for_each.

    In every state of the run of pipe!(from_iter(it), stages.., for_each(f)) - any iterator, any stages
    from map/filter/scan/take/skip - the sink of every node has never received more Data than it sent
    Pulls, and every node is driven by a sink that sends one Pull per message it received
    ([all_one_pull]): the premise of C14 holds at every link, and so does its first conclusion. *)

From CB Require Import ProofLib Spec Chain Programs Flow LivenessG.

Set Implicit Arguments.

Section Closed.
  Variable it : nat -> option val.
  Variable stages : list ustage.
  Hypothesis Hok : Forall ustage_ok stages.

  Theorem closed_no_overdata N : crun it stages N ->
    forall i n, i <= length stages -> nth_error (nodes N) i = Some n ->
      dout (ntrace n) <= pin (ntrace n).
  Proof. intros Hc. exact (no_overdata Hok (crun_reach Hc)). Qed.

  (** at every link the sink side keeps the discipline that C14 assumes of sinks *)
  Theorem closed_disciplined N : crun it stages N ->
    forall i n, nth_error (nodes N) i = Some n ->
      nreach1 n /\ credit (nms n) 0 + pin (ntrace n) = hout (ntrace n) + dout (ntrace n).
  Proof.
    intros Hc i n Hn. pose proof (all_one_pull Hok Hc i Hn) as H1. exact (conj H1 (ncredit_exact H1)).
  Qed.
End Closed.

Print Assumptions closed_no_overdata.
Print Assumptions closed_disciplined.
