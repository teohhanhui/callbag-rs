(** * Inv_from_iter: the invariant of from_iter over every reachable configuration,
      in every regime with one sink: with the C15 check [no_nest] on or off, and with
      the demand counts of C14 off or, if the sink sends one Pull per message, on.
      Before it, what the monitor sees of any source (also used by Inv_interval.v). *)
From CB Require Import Ports.

Set Implicit Arguments.

(** the results of Iterator::next, in order *)
Fixpoint nexts (tr : list event) : list (option val) :=
  match tr with
  | [] => []
  | EObs (ONext r) :: tr' => r :: nexts tr'
  | _ :: tr' => nexts tr'
  end.

Lemma nexts_app tr1 tr2 : nexts (tr1 ++ tr2) = nexts tr1 ++ nexts tr2.
Proof.
  induction tr1 as [|e tr1 IH]; cbn; [reflexivity|].
  destruct e as [i|cl| | |[r|v|s b|s]|]; cbn; try exact IH. now rewrite IH.
Qed.

Definition is_some (r : option val) : bool :=
  match r with Some _ => true | None => false end.

Local Arguments trace : simpl never.
Local Arguments seq : simpl never.

Section StepTrace.
  Variable p : mparams.
  Variable o : op.
  Variable g : mstate -> input -> bool.

  Lemma en_step_in_trace (c : cfg o) i :
    enabled p g c (MIn i) = true ->
    forall s' os a, handle o i (cst c) = (s', os, a) ->
    trace (step p c (MIn i)) = trace c ++ EIn i :: map EObs os ++ [act_event o a].
  Proof.
    intros He. apply step_in_trace; [eapply enabled_live | eapply enabled_deliverable]; exact He.
  Qed.

  Lemma en_step_ret_trace (c : cfg o) k cl rest :
    enabled p g c MRet = true -> stack c = (k, cl) :: rest ->
    forall s' os a, resume o k (cst c) = (s', os, a) ->
    trace (step p c MRet) = trace c ++ ERet :: map EObs os ++ [act_event o a].
  Proof. intros He. apply step_ret_trace. eapply enabled_live. exact He. Qed.
End StepTrace.

(** Sources: [pbase] of Ports.v for an operator that subscribes no upstream port *)
Section Source.
  Variable p : mparams.
  Variable o : op.
  Variable tk : nat -> bool.
  Variable rf : nat -> option nat.
  Notation sbase := (pbase (fun _ => False) tk rf).

  Lemma no_upstream d m : sbase d m -> (forall i, us m i = UNone) /\ ports m = [].
  Proof.
    intros B. split.
    - intros i. destruct (us m i) eqn:E; [reflexivity | destruct (known_used B (i := i)); congruence..].
    - destruct (ports m) as [|i l] eqn:E; [reflexivity|]. destruct (pb_used B (i := i)). rewrite E. now left.
  Qed.

  (** the activation ends; if no call is pending the monitor looks at the whole port *)
  Lemma done_source m m' : m' = ms_settle p o m [] ARet -> sbase None m ->
    (cstack m = [] -> c14 p = true -> sk m 0 = SLive -> npull m 0 = ndata m 0) -> m' = m.
  Proof.
    intros E B H. apply (pcall_done E B).
    - intros _ _ i. rewrite (proj1 (no_upstream B)). discriminate.
    - intros Hc H14 Hl _. now apply H.
  Qed.

  Lemma ms_settle_next m r a : ms_settle p o m [ONext r] a = ms_settle p o m [] a.
  Proof. reflexivity. Qed.
End Source.
Arguments done_source [p o tk rf m m'].

(** what can be below the emission loop: nothing, or the subscribing
    activation suspended in its Handshake delivery *)
Definition is_base (st : list (fi_fr * call)) : Prop :=
  st = [] \/ st = [(FiDone, CDn 0 DH)].

(** [fi_in_loop] is tied to the stack: it is set iff exactly one loop frame
    ([FiLoop] inside a Data delivery, [FiAfterBreak] inside the Terminate
    delivery) is on the stack, and that frame is the innermost one.  In
    particular at most one [CDn 0 (DD _)] is pending at any time. *)
Definition shape (il : bool) (k : sks) (st : list (fi_fr * call)) : Prop :=
  exists b, is_base b /\
    ((il = false /\ st = b) \/
     (il = true /\ (k = SLive \/ k = SDisposed) /\
      exists v, st = (FiLoop, CDn 0 (DD v)) :: b) \/
     (il = true /\ k = SFinished /\ st = (FiAfterBreak, CDn 0 DT) :: b)).

Lemma base_nil : is_base []. Proof. now left. Qed.
Lemma base_hs : is_base [(FiDone, CDn 0 DH)]. Proof. now right. Qed.

Lemma base_no_data b : is_base b -> in_data_delivery 0 (map snd b) = false.
Proof. intros [-> | ->]; reflexivity. Qed.

Lemma shape_out k b : is_base b -> shape false k b.
Proof. intros Hb. exists b. auto. Qed.

Lemma shape_data k v b : is_base b -> k = SLive \/ k = SDisposed ->
  shape true k ((FiLoop, CDn 0 (DD v)) :: b).
Proof. intros Hb Hk. exists b. split; [exact Hb|]. right; left. eauto. Qed.

Lemma shape_term b : is_base b -> shape true SFinished ((FiAfterBreak, CDn 0 DT) :: b).
Proof. intros Hb. exists b. split; [exact Hb|]. right; right. auto. Qed.

Lemma shape_stop il st : shape il SLive st -> shape il SDisposed st.
Proof.
  intros (b & Hb & [H | [(Hil & _ & v & ->) | (_ & Hk & _)]]); [| |discriminate].
  - exists b. auto.
  - rewrite Hil. apply shape_data; auto.
Qed.

(** the trace part: the results of next() are the iterator's items in order, every item
    obtained is delivered, [None] comes last and is what finishes the sink *)
Record tinv (it : nat -> option val) (tr : list event) (pos : nat) (k : sks) : Prop := {
  t_nexts : nexts tr = map it (seq 0 pos);
  t_data : map Some (data_out 0 tr) = filter is_some (nexts tr);
  t_fin : In None (nexts tr) <-> k = SFinished;
  t_last : ~ In None (removelast (nexts tr));
}.

Section TraceInv.
  Variable it : nat -> option val.

  Lemma tinv_quiet tr evs pos k k' :
    tinv it tr pos k -> nexts evs = [] -> data_out 0 evs = [] ->
    (k = SFinished <-> k' = SFinished) -> tinv it (tr ++ evs) pos k'.
  Proof.
    intros [] Hn Ho Hk.
    constructor; rewrite ?nexts_app, ?data_out_app, ?Hn, ?Ho, ?app_nil_r; try assumption.
    now rewrite <- Hk.
  Qed.

  Lemma tinv_next tr evs pos k k' r :
    tinv it tr pos k -> k <> SFinished -> it pos = r -> nexts evs = [r] ->
    data_out 0 evs = match r with Some v => [v] | None => [] end ->
    (r = None <-> k' = SFinished) -> tinv it (tr ++ evs) (S pos) k'.
  Proof.
    intros [] Hk Hr Hn Ho Hk'.
    assert (Hnone : ~ In None (nexts tr)) by (intros H; now apply t_fin0 in H).
    constructor; rewrite nexts_app, ?data_out_app, Hn, ?Ho.
    - rewrite seq_S, map_app, t_nexts0. cbn. now rewrite Hr.
    - rewrite map_app, filter_app, t_data0. destruct r; reflexivity.
    - rewrite <- Hk', in_app_iff. cbn. split; [intros [H|[H|[]]]; [tauto | auto] | auto].
    - now rewrite removelast_last.
  Qed.
End TraceInv.

(** The counting part, in the regime of C14 and while the sink is live:

      ndata 0 + (1 if fi_got_pull) = npull 0     (a Pull is answered or pending in the flag)
      credit 0 + npull 0 = 1 + ndata 0           (one Pull per message received)

    Together: [credit 0 + (1 if fi_got_pull) = 1].  While the flag is set the sink has no
    credit, so it cannot send the second Pull that from_iter would coalesce with the
    first: two Pulls served by one item, hence [VUnanswered], see [coalescing_script]
    in Inv_from_iter_pull.v for what happens without [one_pull]. *)
Section FromIter.
  Variable it : nat -> option val.
  Variable p : mparams.
  Hypothesis Hns : nsinks p = 1.
  Hypothesis Hone : c14 p = true -> one_pull p = true.
  Notation o := (from_iter_op it).
  Notation sbase := (obase (fun _ => False) None).

  Definition flag (b : bool) : nat := if b then 1 else 0.

  Record Inv (c : cfg o) : Prop := {
    i_dead : dead c = false;
    i_base : sbase (ms c);
    i_shape : shape (fi_in_loop (cst c)) (sk (ms c) 0) (stack c);
    i_subd : subd (ms c) 0 = match sk (ms c) 0 with SNone => false | _ => true end;
    i_none : sk (ms c) 0 = SNone -> stack c = [] /\ fi_pos (cst c) = 0;
    i_compl : fi_completed (cst c) = match sk (ms c) 0 with SDisposed => true | _ => false end;
    i_rdone : fi_res_done (cst c) = match sk (ms c) 0 with SFinished => true | _ => false end;
    (* outside the loop no Pull is pending *)
    i_gp : sk (ms c) 0 = SLive -> fi_in_loop (cst c) = false -> fi_got_pull (cst c) = false;
    i_tr : tinv it (trace c) (fi_pos (cst c)) (sk (ms c) 0);
    i_lazy : length (nexts (trace c)) + (if fi_got_pull (cst c) then 1 else 0) <= npull (ms c) 0;
    (* nothing is counted before the greeting *)
    i_zero : c14 p = true -> sk (ms c) 0 = SNone -> cnt3 (ms c) = (0, 0, 0);
    i_cnt : c14 p = true -> sk (ms c) 0 = SLive ->
            ndata (ms c) 0 + flag (fi_got_pull (cst c)) = npull (ms c) 0 /\
            credit (ms c) 0 + npull (ms c) 0 = S (ndata (ms c) 0);
  }.

  Lemma i_us c : Inv c -> forall i, us (ms c) i = UNone.
  Proof. intros H. apply (no_upstream (i_base H)). Qed.

  Lemma i_sk_other c : Inv c -> forall s, s <> 0 -> sk (ms c) s = SNone.
  Proof. intros H [|s] Hs; [congruence | apply (i_base H)]. Qed.

  Lemma i_task c : Inv c -> forall s, task (ms c) s = false.
  Proof. intros H. apply (i_base H). Qed.

  Lemma i_data c : Inv c -> map Some (data_out 0 (trace c)) = filter is_some (nexts (trace c)).
  Proof. intros H. apply (i_tr H). Qed.

  Lemma inv0 : Inv (cfg0 o).
  Proof.
    constructor; try reflexivity; try discriminate.
    - apply pbase0.
    - apply shape_out, base_nil.
    - intros _. split; reflexivity.
    - constructor; unfold trace; cbn; try reflexivity; [split; [tauto | discriminate] | tauto].
  Qed.

  Lemma fi_loop_next s : fi_got_pull s = true -> fi_completed s = false ->
    fi_loop it s =
    let s' b := {| fi_pos := S (fi_pos s); fi_in_loop := fi_in_loop s; fi_got_pull := false;
                   fi_completed := fi_completed s; fi_res_done := b |} in
    match it (fi_pos s) with
    | Some v => (s' false, [ONext (Some v)], ACall (CDn 0 (DD v)) FiLoop)
    | None => (s' true, [ONext None], ACall (CDn 0 DT) FiAfterBreak)
    end.
  Proof. intros H1 H2. unfold fi_loop. rewrite H1, H2. cbn. now destruct (it (fi_pos s)). Qed.

  Lemma fi_loop_exit s : fi_got_pull s && negb (fi_completed s) = false ->
    fi_loop it s = ({| fi_pos := fi_pos s; fi_in_loop := false; fi_got_pull := fi_got_pull s;
                       fi_completed := fi_completed s; fi_res_done := fi_res_done s |}, [], ARet).
  Proof. intros H. unfold fi_loop. now rewrite H. Qed.

  Lemma fi_pull_run s : fi_completed s = false -> fi_in_loop s = false -> fi_res_done s = false ->
    fi_handle it (IUp 0 UP) s =
    fi_loop it {| fi_pos := fi_pos s; fi_in_loop := true; fi_got_pull := true;
                  fi_completed := fi_completed s; fi_res_done := fi_res_done s |}.
  Proof. intros H1 H2 H3. unfold fi_handle. now rewrite H1, H2, H3. Qed.

  Lemma fi_pull_flag s : fi_completed s = false -> fi_in_loop s = true ->
    fi_handle it (IUp 0 UP) s =
    ({| fi_pos := fi_pos s; fi_in_loop := fi_in_loop s; fi_got_pull := true;
        fi_completed := fi_completed s; fi_res_done := fi_res_done s |}, [], ARet).
  Proof. intros H1 H2. unfold fi_handle. now rewrite H1, H2. Qed.

  Lemma fi_stop s u : umsg_is_term u = true -> fi_completed s = false ->
    fi_handle it (IUp 0 u) s =
    ({| fi_pos := fi_pos s; fi_in_loop := fi_in_loop s; fi_got_pull := fi_got_pull s;
        fi_completed := true; fi_res_done := fi_res_done s |}, [], ARet).
  Proof. intros Hu H. unfold fi_handle. rewrite H. now destruct u. Qed.

  (** One iteration of the loop, entered by a Pull or on the return of a Data delivery
      (event [e0]).  [m1] is the monitor state after the environment's half of the step. *)
  Lemma loop_run (c c' : cfg o) m1 b e0 s1 s' os a :
    fi_loop it s1 = (s', os, a) ->
    cst c' = s' ->
    stack c' = match a with ACall cl k => (k, cl) :: b | _ => b end ->
    ms c' = ms_settle p o m1 os a ->
    dead c' = match a with APanic => true | _ => false end ->
    trace c' = trace c ++ e0 :: map EObs os ++ [act_event o a] ->
    Inv c -> sk (ms c) 0 = SLive -> is_base b ->
    sbase m1 -> subd m1 = subd (ms c) -> sk m1 = sk (ms c) ->
    cstack m1 = map snd b -> nexts [e0] = [] -> data_out 0 [e0] = [] ->
    fi_pos s1 = fi_pos (cst c) -> fi_in_loop s1 = true -> fi_got_pull s1 = true ->
    fi_completed s1 = false ->
    S (length (nexts (trace c))) <= npull m1 0 ->
    (c14 p = true -> ndata m1 0 + 1 = npull m1 0 /\ credit m1 0 = 0) ->
    Inv c'.
  Proof.
    intros Hl Ec Es Em Ed Ht HI Esk Hb B1 S1 K1 Hcs Hn0 Ho0 Hpos Hil Hgp Hcp Hlz Hcnt.
    assert (Hk1 : sk m1 0 = SLive) by (rewrite K1; exact Esk).
    assert (Hnn : not_nested p m1) by (intros _; rewrite Hcs; now apply base_no_data).
    assert (Hsd : subd m1 0 = true) by (rewrite S1, (i_subd HI), Esk; reflexivity).
    pose proof (i_tr HI) as HT. rewrite Esk in HT.
    rewrite (fi_loop_next _ Hgp Hcp), Hpos in Hl. cbv zeta in Hl.
    change (e0 :: map EObs os ++ [act_event o a]) with ([e0] ++ map EObs os ++ [act_event o a]) in Ht.
    destruct (it (fi_pos (cst c))) as [v|] eqn:Eit; injection Hl as <- <- <-;
      rewrite ms_settle_next in Em.
    - op_half (pcall_data Em B1 Hnn Hk1). { intros Hc. destruct (Hcnt Hc). lia. }
      cnts. constructor; rewrite ?Ec, ?Es, ?K2, ?K1, ?Esk;
        cbn [fi_pos fi_in_loop fi_got_pull fi_completed fi_res_done]; try discriminate; auto.
      + rewrite Hil. apply shape_data; auto.
      + now rewrite S2.
      + rewrite Ht. eapply tinv_next; [exact HT | discriminate | exact Eit | | |].
        * now rewrite nexts_app, Hn0.
        * now rewrite data_out_app, Ho0.
        * split; discriminate.
      + rewrite Ht, !nexts_app, Hn0, app_length. cbn. lia.
      + intros Hc _. destruct (Hcnt Hc). unfold flag. lia.
    - op_half (pcall_term Em B1 Hnn Hk1).
      cnts. constructor; rewrite ?Ec, ?Es, ?K2;
        cbn [fi_pos fi_in_loop fi_got_pull fi_completed fi_res_done]; try discriminate; auto.
      + rewrite Hil. now apply shape_term.
      + now rewrite S2.
      + rewrite Ht. eapply tinv_next; [exact HT | discriminate | exact Eit | | |].
        * now rewrite nexts_app, Hn0.
        * now rewrite data_out_app, Ho0.
        * split; reflexivity.
      + rewrite Ht, !nexts_app, Hn0, app_length. cbn. lia.
  Qed.

  (** An activation that returns at once ([m1], [e0] as above): if no call is pending
      this is a quiescent point, where a live sink must have had all its Pulls answered *)
  Lemma quiet_step (c c' : cfg o) m1 e0 :
    sbase m1 -> nexts [e0] = [] -> data_out 0 [e0] = [] ->
    ms c' = ms_settle p o m1 [] ARet ->
    trace c' = trace c ++ e0 :: map EObs [] ++ [act_event o ARet] ->
    (cstack m1 = [] -> c14 p = true -> sk m1 0 = SLive -> npull m1 0 = ndata m1 0) ->
    ms c' = m1 /\ nexts (trace c') = nexts (trace c) /\
    forall pos k k', tinv it (trace c) pos k -> (k = SFinished <-> k' = SFinished) ->
                     tinv it (trace c') pos k'.
  Proof.
    intros B1 Hn0 Ho0 Em Ht Hq. split; [exact (done_source Em B1 Hq)|].
    change (e0 :: map EObs [] ++ [act_event o ARet]) with ([e0] ++ [EDone]) in Ht.
    rewrite Ht. split.
    - now rewrite !nexts_app, Hn0, app_nil_r.
    - intros pos k k' HT Hk. apply tinv_quiet with (k := k); auto.
  Qed.

  Lemma inv_sub c s aux :
    Inv c -> enabled p g_std c (MIn (ISub s aux)) = true -> Inv (step p c (MIn (ISub s aux))).
  Proof.
    intros HI He. destruct (en_sub_std Hns He) as (-> & -> & Hst & Hsub).
    pose proof (i_subd HI) as Hsd. rewrite Hsub in Hsd.
    destruct (sk (ms c) 0) eqn:Esk; try discriminate.
    destruct (i_none HI Esk) as [_ Hpos]. pose proof (i_tr HI) as HT. rewrite Esk, Hpos in HT.
    pose proof (en_step_in_trace _ _ _ _ He eq_refl) as Ht.
    step_eqs (en_step_in _ _ _ _ He eq_refl). env_half (pin_sub Em1 (i_base HI)).
    op_half (pcall_greet Em B1); [congruence|].
    assert (Hz : c14 p = true -> cnt3 m1 = (0, 0, 0)).
    { intros Hc. rewrite C1. now apply (i_zero HI). }
    constructor; rewrite ?Ec, ?Es, ?K2; cbn [fi_pos fi_in_loop fi_got_pull fi_completed fi_res_done];
      try discriminate; auto.
    - rewrite Hst. apply shape_out, base_hs.
    - now rewrite S2.
    - rewrite Ht. apply tinv_quiet with (k := SNone); [exact HT | reflexivity | reflexivity |].
      split; discriminate.
    - rewrite Ht, nexts_app, (t_nexts HT). exact (Nat.le_0_l _).
    - intros Hc _. specialize (Hz Hc). cnts. unfold flag. lia.
  Qed.

  Lemma inv_up c s u :
    reach p g_std c -> Inv c -> enabled p g_std c (MIn (IUp s u)) = true ->
    Inv (step p c (MIn (IUp s u))).
  Proof.
    intros Hr HI He. destruct (en_up _ _ _ _ _ He) as (_ & Hsk & Hcr).
    pose proof (live_sink_0 (i_base HI) Hsk). subst s.
    pose proof (reach_cstack Hr) as Hcs.
    pose proof (i_compl HI) as Hcp. rewrite Hsk in Hcp.
    pose proof (i_rdone HI) as Hrd. rewrite Hsk in Hrd.
    pose proof (i_shape HI) as HS. rewrite Hsk in HS.
    pose proof (i_tr HI) as HT.
    destruct (umsg_is_term u) eqn:Hu.
    - (* Error, Terminate: completed *)
      pose proof (fi_stop _ _ Hu Hcp) as Hh.
      pose proof (en_step_in_trace _ _ _ _ He Hh) as Ht.
      step_eqs (en_step_in _ _ _ _ He Hh). env_half (pin_stop Em1 (i_base HI) Hu).
      destruct (@quiet_step _ _ _ (EIn (IUp 0 u)) B1 eq_refl eq_refl Em Ht) as (Em' & En & HT').
      { rewrite K1. discriminate. }
      rewrite <- Em' in *. cnts.
      constructor; rewrite ?Ec, ?Es, ?K1, ?En; cbn [fi_pos fi_in_loop fi_got_pull fi_completed fi_res_done];
        try discriminate; auto.
      + now apply shape_stop.
      + now rewrite S1, (i_subd HI), Hsk.
      + apply (HT' _ _ _ HT). rewrite Hsk. split; discriminate.
      + replace (npull (ms (step p c (MIn (IUp 0 u)))) 0) with (npull (ms c) 0) by congruence.
        apply (i_lazy HI).
    - destruct u; try discriminate.
      assert (Hc : c14 p = true -> credit (ms c) 0 = 1 /\ fi_got_pull (cst c) = false /\
                                   ndata (ms c) 0 = npull (ms c) 0).
      { intros Hc. destruct (i_cnt HI Hc Hsk) as [H1 H2]. pose proof (Hcr eq_refl (Hone Hc)).
        destruct (fi_got_pull (cst c)); unfold flag in H1; [lia | repeat split; lia]. }
      destruct HS as (b & Hb & [(Hil & Hst) | [(Hil & _ & v0 & Hst) | (_ & ? & _)]]);
        [| |discriminate].
      + (* no loop is running: run it *)
        pose proof (i_gp HI Hsk Hil) as Hgp. pose proof (i_lazy HI) as Hlz. rewrite Hgp in Hlz.
        pose proof (fi_pull_run _ Hcp Hil Hrd) as Hh.
        destruct (fi_loop it _) as [[s' os] a] eqn:Hl in Hh.
        pose proof (en_step_in_trace _ _ _ _ He Hh) as Ht.
        step_eqs (en_step_in _ _ _ _ He Hh). rewrite Hst in Es.
        assert (Hcs1 : cstack m1 = map snd b) by now rewrite Em1, mon_input_cstack, Hcs, Hst.
        env_half (pin_pull Em1 (i_base HI)). cnts.
        apply (@loop_run _ _ _ _ _ _ _ _ _ Hl Ec Es Em Ed Ht HI Hsk Hb B1 S1 K1 Hcs1);
          try reflexivity; auto; [lia|].
        intros Hc'. destruct (Hc Hc') as (? & ? & ?). lia.
      + (* inside the Data delivery of the running loop: only the flag *)
        pose proof (fi_pull_flag _ Hcp Hil) as Hh.
        pose proof (en_step_in_trace _ _ _ _ He Hh) as Ht.
        step_eqs (en_step_in _ _ _ _ He Hh).
        assert (Hcs1 : cstack m1 <> []) by (rewrite Em1, mon_input_cstack, Hcs, Hst; discriminate).
        env_half (pin_pull Em1 (i_base HI)).
        destruct (@quiet_step _ _ _ (EIn (IUp 0 UP)) B1 eq_refl eq_refl Em Ht) as (Em' & En & HT').
        { intros E. now apply Hcs1 in E. }
        rewrite <- Em' in *. cnts.
        constructor; rewrite ?Ec, ?Es, ?K1, ?En, ?Hsk;
          cbn [fi_pos fi_in_loop fi_got_pull fi_completed fi_res_done]; try discriminate; auto.
        * rewrite Hil, Hst. apply shape_data; auto.
        * now rewrite S1, (i_subd HI), Hsk.
        * intros _ E. rewrite Hil in E. discriminate.
        * apply (HT' _ _ _ HT). now rewrite Hsk.
        * pose proof (i_lazy HI). destruct (fi_got_pull (cst c)); lia.
        * intros Hc' _. destruct (Hc Hc') as (? & ? & ?). unfold flag. lia.
  Qed.

  Lemma inv_ret c :
    reach p g_std c -> Inv c -> enabled p g_std c MRet = true -> Inv (step p c MRet).
  Proof.
    intros Hr HI He. destruct (en_ret _ _ _ He) as (k & cl & rest & Hst0 & _).
    pose proof (reach_cstack Hr) as Hcs. pose proof (i_tr HI) as HT.
    assert (Hcs1 : cstack (mon_event p (ms c) ERet) = map snd rest).
    { cbn. now rewrite Hcs, Hst0. }
    destruct (i_shape HI) as (b & Hb & [(Hil & Hst) | [(Hil & Hk & v0 & Hst) | (Hil & Hk & Hst)]]);
      rewrite Hst in Hst0.
    - (* the subscribing activation returns from the Handshake delivery *)
      destruct Hb as [-> | ->]; [discriminate|]. injection Hst0 as <- <- <-.
      pose proof (en_step_ret_trace _ _ _ He Hst eq_refl) as Ht.
      step_eqs (en_step_ret _ _ _ He Hst eq_refl). env_half (pin_ret Em1 (i_base HI)).
      pose proof (cnt3_eq C1) as (Cc & Cp & Cd).
      destruct (@quiet_step _ _ _ ERet B1 eq_refl eq_refl Em Ht) as (Em' & En & HT').
      { rewrite K1, Cp, Cd. intros _ Hc Hl. destruct (i_cnt HI Hc Hl) as [H _].
        rewrite (i_gp HI Hl Hil) in H. unfold flag in H. lia. }
      rewrite <- Em' in *.
      constructor; rewrite ?Ec, ?Es, ?K1, ?S1, ?En, ?C1, ?Cc, ?Cp, ?Cd; try apply HI; auto.
      + rewrite Hil. apply shape_out, base_nil.
      + intros E. destruct (i_none HI E) as [E' _]. rewrite Hst in E'. discriminate.
      + now apply (HT' _ _ _ HT).
    - (* back at the while condition after a Data delivery *)
      injection Hst0 as <- <- <-.
      destruct (fi_got_pull (cst c) && negb (fi_completed (cst c))) eqn:Egc.
      + (* one more iteration *)
        apply andb_prop in Egc. destruct Egc as [Hgp Hcp]. apply negb_true_iff in Hcp.
        assert (Esk : sk (ms c) 0 = SLive).
        { destruct Hk as [Hk|Hk]; [exact Hk|]. rewrite (i_compl HI), Hk in Hcp. discriminate. }
        pose proof (i_lazy HI) as Hlz. rewrite Hgp in Hlz.
        destruct (fi_loop it (cst c)) as [[s' os] a] eqn:Hl.
        pose proof (en_step_ret_trace _ _ _ He Hst Hl) as Ht.
        step_eqs (en_step_ret _ _ _ He Hst Hl). rewrite <- Em1 in Hcs1.
        env_half (pin_ret Em1 (i_base HI)). cnts.
        apply (@loop_run _ _ _ _ _ _ _ _ _ Hl Ec Es Em Ed Ht HI Esk Hb B1 S1 K1 Hcs1);
          try reflexivity; auto; [lia|].
        intros Hc. destruct (i_cnt HI Hc Esk) as [Hn Hn']. rewrite Hgp in Hn. unfold flag in Hn. lia.
      + (* leave the loop *)
        pose proof (fi_loop_exit _ Egc) as Hh.
        pose proof (en_step_ret_trace _ _ _ He Hst Hh) as Ht.
        assert (Hgp : sk (ms c) 0 = SLive -> fi_got_pull (cst c) = false).
        { intros Hl. rewrite (i_compl HI), Hl, andb_true_r in Egc. exact Egc. }
        step_eqs (en_step_ret _ _ _ He Hst Hh). env_half (pin_ret Em1 (i_base HI)).
        pose proof (cnt3_eq C1) as (Cc & Cp & Cd).
        destruct (@quiet_step _ _ _ ERet B1 eq_refl eq_refl Em Ht) as (Em' & En & HT').
        { rewrite K1, Cp, Cd. intros _ Hc Hl. destruct (i_cnt HI Hc Hl) as [H _].
          rewrite (Hgp Hl) in H. unfold flag in H. lia. }
        rewrite <- Em' in *.
        constructor; rewrite ?Ec, ?Es, ?K1, ?S1, ?En, ?C1, ?Cc, ?Cp, ?Cd;
          cbn [fi_pos fi_in_loop fi_got_pull fi_completed fi_res_done]; try apply HI; auto.
        * now apply shape_out.
        * intros E. destruct Hk; congruence.
        * now apply (HT' _ _ _ HT).
    - (* after the Terminate delivery *)
      injection Hst0 as <- <- <-.
      pose proof (en_step_ret_trace _ _ _ He Hst eq_refl) as Ht.
      step_eqs (en_step_ret _ _ _ He Hst eq_refl). env_half (pin_ret Em1 (i_base HI)).
      pose proof (cnt3_eq C1) as (Cc & Cp & Cd).
      destruct (@quiet_step _ _ _ ERet B1 eq_refl eq_refl Em Ht) as (Em' & En & HT').
      { rewrite K1, Hk. discriminate. }
      rewrite <- Em' in *.
      constructor; rewrite ?Ec, ?Es, ?K1, ?S1, ?En, ?C1, ?Cc, ?Cp, ?Cd;
        cbn [fi_pos fi_in_loop fi_got_pull fi_completed fi_res_done]; try apply HI; auto.
      + now apply shape_out.
      + rewrite Hk. discriminate.
      + rewrite Hk. discriminate.
      + now apply (HT' _ _ _ HT).
  Qed.

  Theorem inv_reach_any c : reach p g_std c -> Inv c.
  Proof.
    apply reach_invariant; [exact inv0|]. intros c' m Hr HI He.
    destruct m as [[s aux|s u|i d|s]|].
    - now apply inv_sub.
    - now apply inv_up.
    - exfalso. pose proof (enabled_deliverable _ _ _ _ He) as Hdel.
      cbn in Hdel. now rewrite (i_us HI) in Hdel.
    - exfalso. destruct (en_tick _ _ _ _ He) as [_ Ht]. now rewrite (i_task HI) in Ht.
    - now apply inv_ret.
  Qed.

  (** once the sink has disposed ([fi_completed]), no move advances the
      iterator, and the flag stays set *)
  Lemma completed_step c m :
    Inv c -> fi_completed (cst c) = true -> enabled p g_std c m = true ->
    fi_completed (cst (step p c m)) = true /\ nexts (trace (step p c m)) = nexts (trace c).
  Proof.
    intros HI Hcp He.
    assert (Esk : sk (ms c) 0 <> SLive).
    { intros E. rewrite (i_compl HI), E in Hcp. discriminate. }
    destruct m as [[s aux|s u|i d|s]|].
    - exfalso. destruct (en_sub_std Hns He) as (-> & _ & _ & Hsub). rewrite (i_subd HI) in Hsub.
      destruct (sk (ms c) 0) eqn:E; try discriminate.
      rewrite (i_compl HI), E in Hcp. discriminate.
    - exfalso. destruct (en_up _ _ _ _ _ He) as (_ & Hsk & _).
      destruct s as [|s]; [auto | rewrite (i_sk_other HI) in Hsk by lia; discriminate].
    - exfalso. pose proof (enabled_deliverable _ _ _ _ He) as Hdel.
      cbn in Hdel. now rewrite (i_us HI) in Hdel.
    - exfalso. destruct (en_tick _ _ _ _ He) as [_ Ht]. now rewrite (i_task HI) in Ht.
    - destruct (en_ret _ _ _ He) as (k & cl & rest & Hst & _).
      destruct (resume o k (cst c)) as [[s' os] a] eqn:Hres.
      destruct (en_step_ret _ _ _ He Hst Hres) as (Ec & _).
      rewrite Ec, (en_step_ret_trace _ _ _ He Hst Hres), nexts_app.
      assert (E : fi_completed s' = true /\ os = [] /\ a = ARet).
      { destruct k; cbn in Hres.
        - now injection Hres as <- <- <-.
        - rewrite fi_loop_exit in Hres by (rewrite Hcp; apply andb_false_r).
          now injection Hres as <- <- <-.
        - now injection Hres as <- <- <-. }
      destruct E as (E1 & -> & ->). split; [exact E1 | apply app_nil_r].
  Qed.
End FromIter.

(** The regime of C15: one sink, the check [no_nest] on, the counts of C14 off *)
Section FromIterInv.
  Variable it : nat -> option val.
  Variable p : mparams.
  Hypothesis Hns : nsinks p = 1.
  Hypothesis Hc14 : c14 p = false.

  Lemma quiet m : ports m = [] -> (forall s, err_due m s = None) -> check_quiescent p m = [].
  Proof.
    intros H1 H2. apply quiescent_nil.
    - intros _ _ i Hi. rewrite H1 in Hi. destruct Hi.
    - exact H2.
    - rewrite Hc14. discriminate.
  Qed.

  Theorem inv_reach (c : cfg (from_iter_op it)) : reach p g_std c -> Inv p c.
  Proof. apply inv_reach_any; [exact Hns | rewrite Hc14; discriminate]. Qed.
End FromIterInv.

(** Regime: one sink, no resubscription, the C15
    monitor check [no_nest] on, C14 counts off, guard [g_std]. *)

(** no protocol violation (in particular no [VNested]: no delivery begins
    while a Data delivery to the sink is pending) and no panic *)
Theorem from_iter_safe (it : nat -> option val) p :
  nsinks p = 1 -> resub p = false -> no_nest p = true -> c14 p = false ->
  forall c : cfg (from_iter_op it), reach p g_std c -> viols (ms c) = [] /\ dead c = false.
Proof.
  intros H1 _ _ H4 c Hr. pose proof (inv_reach H1 H4 Hr) as HI.
  split; [apply (i_base HI) | apply (i_dead HI)].
Qed.
Print Assumptions from_iter_safe.

(** the structural reason: [fi_in_loop] is set iff the innermost frame is the
    one loop frame; nothing but the Handshake frame can be below it, so at
    most one Data delivery is pending and it is the innermost call *)
Theorem from_iter_loop_stack (it : nat -> option val) p :
  nsinks p = 1 -> resub p = false -> no_nest p = true -> c14 p = false ->
  forall c : cfg (from_iter_op it), reach p g_std c ->
    shape (fi_in_loop (cst c)) (sk (ms c) 0) (stack c) /\
    (forall cl rest, cstack (ms c) = cl :: rest -> in_data_delivery 0 rest = false).
Proof.
  intros H1 _ _ H4 c Hr. pose proof (i_shape (inv_reach H1 H4 Hr)) as HS. split; [exact HS|].
  intros cl rest E. rewrite (reach_cstack Hr) in E.
  destruct HS as (b & Hb & [(_ & Hst) | [(_ & _ & v0 & Hst) | (_ & _ & Hst)]]); rewrite Hst in E.
  - destruct Hb as [-> | ->]; cbn in E; inversion E; reflexivity.
  - cbn in E. inversion E. now apply base_no_data.
  - cbn in E. inversion E. now apply base_no_data.
Qed.
Print Assumptions from_iter_loop_stack.

(** (C15) the results of next() are the iterator's items in order, and every
    item obtained is delivered, in order, at once *)
Theorem from_iter_order (it : nat -> option val) p :
  nsinks p = 1 -> resub p = false -> no_nest p = true -> c14 p = false ->
  forall c : cfg (from_iter_op it), reach p g_std c ->
    nexts (trace c) = map it (seq 0 (fi_pos (cst c))) /\
    map Some (data_out 0 (trace c)) =
      filter (fun r => match r with Some _ => true | None => false end) (nexts (trace c)).
Proof.
  intros H1 _ _ H4 c Hr. pose proof (i_tr (inv_reach H1 H4 Hr)) as HT.
  split; [apply (t_nexts HT) | apply (t_data HT)].
Qed.
Print Assumptions from_iter_order.

(** (C15) the iterator is never advanced without a Pull *)
Theorem from_iter_lazy (it : nat -> option val) p :
  nsinks p = 1 -> resub p = false -> no_nest p = true -> c14 p = false ->
  forall c : cfg (from_iter_op it), reach p g_std c ->
    length (nexts (trace c)) <= npull (ms c) 0.
Proof.
  intros H1 _ _ H4 c Hr. pose proof (i_lazy (inv_reach H1 H4 Hr)). lia.
Qed.
Print Assumptions from_iter_lazy.

(** (C15) Terminate is sent exactly when next() returned None *)
Theorem from_iter_done (it : nat -> option val) p :
  nsinks p = 1 -> resub p = false -> no_nest p = true -> c14 p = false ->
  forall c : cfg (from_iter_op it), reach p g_std c ->
    (sk (ms c) 0 = SFinished <-> In None (nexts (trace c))).
Proof.
  intros H1 _ _ H4 c Hr. symmetry. apply (t_fin (i_tr (inv_reach H1 H4 Hr))).
Qed.
Print Assumptions from_iter_done.

Lemma filter_is_some_id (l : list (option val)) : ~ In None l -> filter is_some l = l.
Proof.
  induction l as [|[v|] l IH]; cbn; intros H; [reflexivity | | tauto].
  rewrite IH; tauto.
Qed.

Lemma none_last (l : list (option val)) :
  ~ In None (removelast l) ->
  (~ In None l /\ l = filter is_some l) \/ (In None l /\ l = filter is_some l ++ [None]).
Proof.
  destruct l as [|y l0].
  - intros _. left. cbn. tauto.
  - destruct (@exists_last _ (y :: l0)) as (l' & x & E); [discriminate|]. rewrite E.
    rewrite removelast_last. intros Hl. rewrite filter_app, (@filter_is_some_id l' Hl).
    destruct x as [v|]; cbn.
    + left. split; [|reflexivity]. intros HX. apply in_app_or in HX.
      destruct HX as [HX|[HX|[]]]; [tauto | discriminate].
    + right. split; [|now rewrite app_nil_r]. apply in_or_app. right. now left.
Qed.

(** the exact form: the iterator is not touched after its first None, so
    the results of next() are the delivered items, followed by None iff the
    sink was sent Terminate *)
Theorem from_iter_done_exact (it : nat -> option val) p :
  nsinks p = 1 -> resub p = false -> no_nest p = true -> c14 p = false ->
  forall c : cfg (from_iter_op it), reach p g_std c ->
    nexts (trace c) =
    map Some (data_out 0 (trace c)) ++
    match sk (ms c) 0 with SFinished => [None] | _ => [] end.
Proof.
  intros H1 _ _ H4 c Hr. destruct (i_tr (inv_reach H1 H4 Hr)) as [_ Hdata Hfin Hlast].
  rewrite Hdata.
  destruct (none_last _ Hlast) as [[Hn E] | [Hn E]].
  - rewrite <- E. destruct (sk (ms c) 0); try (now rewrite app_nil_r).
    exfalso. apply Hn. now apply Hfin.
  - apply Hfin in Hn. now rewrite Hn.
Qed.
Print Assumptions from_iter_done_exact.

(** once the sink has disposed ([fi_completed], i.e. [sk = SDisposed]) the
    iterator is never advanced again, whatever the environment does *)
Theorem from_iter_disposed_stops (it : nat -> option val) p :
  nsinks p = 1 -> resub p = false -> no_nest p = true -> c14 p = false ->
  forall c : cfg (from_iter_op it), reach p g_std c ->
    (fi_completed (cst c) = true <-> sk (ms c) 0 = SDisposed) /\
    (fi_completed (cst c) = true ->
     forall mvs, all_enabled p g_std c mvs = true ->
       nexts (trace (fold_left (@step p (from_iter_op it)) mvs c)) = nexts (trace c)).
Proof.
  intros H1 _ _ H4 c Hr. split.
  - rewrite (i_compl (inv_reach H1 H4 Hr)).
    destruct (sk (ms c) 0); split; intros; try discriminate; reflexivity.
  - intros Hcp mvs. revert c Hr Hcp.
    induction mvs as [|m mvs IH]; intros c Hr Hcp Hall; cbn in *; [reflexivity|].
    apply andb_prop in Hall. destruct Hall as [Hm Hall].
    destruct (completed_step H1 m (inv_reach H1 H4 Hr) Hcp Hm) as [Hcp' Hn].
    rewrite IH; [exact Hn | now apply reachS | exact Hcp' | exact Hall].
Qed.
Print Assumptions from_iter_disposed_stops.

(** Non-vacuity: a conformant script that exercises the trampoline.  The
    sink pulls from inside the Handshake delivery, pulls again from inside the
    first Data delivery (only the flag is set; the outer loop serves it after
    the delivery returned), and pulls a third time later: next() = None. *)
Definition ex_it (k : nat) : option val := if k <? 2 then Some (VN k) else None.
Definition ex_p : mparams :=
  {| nsinks := 1; late_ok := false; pullable := false; one_pull := false;
     resub := false; no_nest := true; c14 := false |}.
Definition ex_script : list move :=
  [MIn (ISub 0 0); MIn (IUp 0 UP); MIn (IUp 0 UP); MRet; MRet; MRet; MIn (IUp 0 UP); MRet].

Example from_iter_nonvacuous :
  all_enabled ex_p g_std (cfg0 (from_iter_op ex_it)) ex_script = true /\
  let c := run ex_p (from_iter_op ex_it) ex_script in
  data_out 0 (trace c) = [VN 0; VN 1] /\ nexts (trace c) = [Some (VN 0); Some (VN 1); None] /\
  sk (ms c) 0 = SFinished /\ npull (ms c) 0 = 3 /\ viols (ms c) = [] /\ stack c = [].
Proof. vm_compute. repeat split; reflexivity. Qed.
