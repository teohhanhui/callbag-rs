(** * TreePrograms: wirings given by a finite list of edges, and running a tree net.

    [wiring_of es] is the wiring whose edges are the triples (child, parent, port of the parent) of
    [es]; [edges_okb] is a boolean check of what Tree.v's theorem needs ([wiring_ok]): every child has
    a smaller index than its parent, no node has two parents, no port has two children. *)

From CB Require Import ProofLib Spec Chain Tree.
From CB Require Import MonitorSound Results Programs Sync_unary Sync_nary.
From CB Require Import Inv_relay Inv_take Inv_from_iter Inv_for_each
  Inv_interval Inv_merge Inv_concat.

Set Implicit Arguments.

Definition edge : Type := (nat * nat * nat)%type.   (* child, parent, port *)

Definition e_child (e : edge) : nat := fst (fst e).
Definition e_parent (e : edge) : nat := snd (fst e).
Definition e_port (e : edge) : nat := snd e.

Definition wiring_of (es : list edge) : wiring :=
  {| par := fun c => option_map (fun e => (e_parent e, e_port e))
                                (find (fun e => e_child e =? c) es);
     kid := fun P k => option_map e_child
                                  (find (fun e => (e_parent e =? P) && (e_port e =? k)) es) |}.

Fixpoint nodupb (A : Type) (eqb : A -> A -> bool) (l : list A) : bool :=
  match l with
  | [] => true
  | x :: l' => negb (existsb (eqb x) l') && nodupb eqb l'
  end.

Definition pp_eqb (a b : nat * nat) : bool := (fst a =? fst b) && (snd a =? snd b).

Definition edges_okb (es : list edge) (len : nat) : bool :=
  forallb (fun e => (e_child e <? e_parent e) && (e_parent e <? len)) es &&
  nodupb Nat.eqb (map e_child es) &&
  nodupb pp_eqb (map (fun e => (e_parent e, e_port e)) es).

Lemma nodupb_find A B (eqb : B -> B -> bool) (key : A -> B) (l : list A) x :
  (forall a b, eqb a b = true <-> a = b) ->
  nodupb eqb (map key l) = true -> In x l ->
  find (fun e => eqb (key e) (key x)) l = Some x.
Proof.
  intros Heq. induction l as [|y l IH]; intros Hnd Hin; [contradiction|].
  cbn in Hnd. apply andb_prop in Hnd. destruct Hnd as [Hy Hnd]. cbn [find].
  destruct Hin as [->|Hin].
  - assert (E : eqb (key x) (key x) = true) by now apply Heq. now rewrite E.
  - destruct (eqb (key y) (key x)) eqn:E.
    + exfalso. apply Heq in E. apply negb_true_iff in Hy.
      assert (Hex : existsb (eqb (key y)) (map key l) = true).
      { apply existsb_exists. exists (key x). split; [now apply in_map|]. apply Heq. exact E. }
      congruence.
    + now apply IH.
Qed.

Lemma find_in A (f : A -> bool) l x : find f l = Some x -> In x l /\ f x = true.
Proof. intros H. apply find_some in H. exact H. Qed.

Lemma pp_eqb_eq a b : pp_eqb a b = true <-> a = b.
Proof.
  destruct a as [a1 a2], b as [b1 b2]. unfold pp_eqb. cbn. rewrite andb_true_iff, !Nat.eqb_eq.
  split; [intros [-> ->]; reflexivity | intros E; inversion E; auto].
Qed.

Lemma wiring_of_edges es len :
  edges_okb es len = true ->
  forall c P k, (par (wiring_of es) c = Some (P, k) <-> In (c, P, k) es) /\
                (kid (wiring_of es) P k = Some c <-> In (c, P, k) es).
Proof.
  unfold edges_okb. intros H c P k. apply andb_prop in H. destruct H as [H H3].
  apply andb_prop in H. destruct H as [_ H2]. cbn. split; split.
  - destruct (find (fun e => e_child e =? c) es) as [[[c' P'] k']|] eqn:E; cbn; [|discriminate].
    intros Hs. inversion Hs; subst. destruct (find_in _ _ E) as [Hin Hc].
    cbn in Hc. apply Nat.eqb_eq in Hc. now subst.
  - intros Hin.
    pose proof (@nodupb_find edge nat Nat.eqb e_child es (c, P, k) Nat.eqb_eq H2 Hin) as Hf.
    cbn in Hf. rewrite Hf. reflexivity.
  - destruct (find (fun e => (e_parent e =? P) && (e_port e =? k)) es) as [[[c' P'] k']|] eqn:E;
      cbn; [|discriminate].
    intros Hs. inversion Hs; subst. destruct (find_in _ _ E) as [Hin Hc].
    cbn in Hc. apply andb_prop in Hc. destruct Hc as [Ha Hb].
    apply Nat.eqb_eq in Ha, Hb. now subst.
  - intros Hin.
    pose proof (@nodupb_find edge (nat * nat) pp_eqb (fun e => (e_parent e, e_port e)) es (c, P, k)
                  pp_eqb_eq H3 Hin) as Hf.
    cbn in Hf. unfold pp_eqb in Hf. cbn in Hf. rewrite Hf. reflexivity.
Qed.

Lemma edges_ok_sound es len : edges_okb es len = true -> wiring_ok (wiring_of es) len.
Proof.
  intros H. pose proof (wiring_of_edges es len H) as He. split.
  - intros c P k. destruct (He c P k) as [A B]. now rewrite A, B.
  - intros c P k Hp. apply (He c P k) in Hp.
    unfold edges_okb in H. apply andb_prop in H. destruct H as [H _].
    apply andb_prop in H. destruct H as [H1 _]. rewrite forallb_forall in H1. specialize (H1 _ Hp).
    cbn in H1. apply andb_prop in H1. destruct H1 as [Ha Hb].
    apply Nat.ltb_lt in Ha, Hb. split; assumption.
Qed.

(** ** Running a tree net *)

Fixpoint tsettle (w : wiring) (fuel : nat) (N : tnet) : tnet :=
  match fuel with
  | 0 => N
  | S f => match tpend N with PIdle => N | _ => tsettle w f (tnet_step w N NTau) end
  end.

Definition tnet_run (w : wiring) (N : tnet) (mvs : list nmove) : tnet := fold_left (tnet_step w) mvs N.

Fixpoint tnet_all_enabled (w : wiring) (N : tnet) (mvs : list nmove) : bool :=
  match mvs with
  | [] => true
  | mv :: mvs' => tnet_enabled w N mv && tnet_all_enabled w (tnet_step w N mv) mvs'
  end.

Lemma tnet_run_reach w N0 N mvs :
  tnet_reach w N0 N -> tnet_all_enabled w N mvs = true -> tnet_reach w N0 (tnet_run w N mvs).
Proof.
  revert N. induction mvs as [|mv mvs IH]; intros N Hr He; cbn in *; [exact Hr|].
  apply andb_prop in He. destruct He as [H1 H2]. apply IH; [now apply treachS | exact H2].
Qed.

(** ** Programs: trees of the crate's sources and operators *)

Inductive tnode : Type :=
| TSrc (it : nat -> option val)     (* from_iter *)
| TTick                             (* interval *)
| TStage (s : ustage)               (* map, filter, scan, take, skip *)
| TMerge (n : nat)                  (* merge! of n members *)
| TConcat (n : nat)                 (* concat! of n members *)
| TSink.                            (* for_each: only at a root *)

(** every node runs in the standard regime with upstreams that greet inside the subscribing call *)
Definition p_tree (nonest : bool) : mparams :=
  {| nsinks := 1; late_ok := false; pullable := false; one_pull := false; resub := false;
     no_nest := nonest; c14 := false |}.

Definition tsig (t : tnode) : sig3 :=
  match t with
  | TSrc it => (from_iter_op it, p_tree true, g_std)
  | TTick => (interval_op, p_tree false, g_std)
  | TStage s => (ustage_op s, p_tree false, g_std)
  | TMerge n => (merge_op n, p_tree false, g_std)
  | TConcat n => (concat_op n, p_tree false, g_std)
  | TSink => (for_each_op, p_tree false, g_std)
  end.

Definition tnode_ok (t : tnode) : Prop :=
  match t with
  | TStage s => ustage_ok s
  | TMerge n => 1 <= n
  | _ => True
  end.

Lemma reach_mono_guard p o (g1 g2 : mstate -> input -> bool) (c : cfg o) :
  (forall m i, g1 m i = true -> g2 m i = true) -> reach p g1 c -> reach p g2 c.
Proof.
  intros Hg. induction 1 as [|c m Hr IH He]; [constructor|].
  apply reachS; [exact IH|]. unfold enabled in *.
  destruct (dead c); [discriminate|]. cbn [negb andb] in *.
  destruct m as [inp|]; [|exact He].
  apply andb_prop in He. destruct He as [H1 H2]. rewrite (Hg _ _ H1). exact H2.
Qed.

Lemma tsig_safe t : tnode_ok t -> safe_sig (tsig t).
Proof.
  intros Hok. destruct t as [it| |s|n|n|]; cbn [tsig]; intros c Hr.
  - now apply (@from_iter_safe it (p_tree true)).
  - apply (@interval_safe (p_tree false)); try reflexivity.
    apply (reach_mono_guard (g1 := g_std)); [auto | exact Hr].
  - exact (@ustage_safe (p_tree false) eq_refl eq_refl eq_refl eq_refl s Hok c Hr).
  - now apply (@merge_safe_sync (p_tree false) eq_refl eq_refl eq_refl eq_refl eq_refl n Hok).
  - now apply (@concat_safe n (p_tree false)).
  - now apply (@for_each_safe (p_tree false)).
Qed.

Lemma tsig_regime t : tregime_ok (tsig t).
Proof. destruct t; cbn; repeat split; auto. Qed.

Lemma tsig_sync t : tnode_ok t -> t <> TSink -> greets_sync_sig (tsig t).
Proof.
  intros Hok Hns. destruct t as [it| |s|n|n|]; cbn [tsig].
  - now apply from_iter_greets_sync_sig.
  - intros c Hr. apply (@interval_greets_sync (p_tree false)); try reflexivity.
    apply (reach_mono_guard (g1 := g_std)); [auto | exact Hr].
  - destruct s as [f|cd|r seed|k|k]; cbn in *.
    + now apply map_greets_sync_sig.
    + now apply filter_greets_sync_sig.
    + now apply scan_greets_sync_sig.
    + now apply (@take_greets_sync_sig (p_tree false) eq_refl eq_refl eq_refl eq_refl eq_refl k Hok).
    + now apply skip_greets_sync_sig.
  - now apply merge_greets_sync_sig.
  - now apply concat_greets_sync_sig.
  - contradiction.
Qed.

Definition prog_net (ts : list tnode) : tnet := tnet0 (map mk0 (map tsig ts)).

Lemma prog_hyps (ts : list tnode) (es : list edge) :
  Forall tnode_ok ts ->
  edges_okb es (length ts) = true ->
  (forall e, In e es -> nth_error ts (e_child e) <> Some TSink) ->
  wiring_ok (wiring_of es) (length (map tsig ts)) /\
  (forall s, In s (map tsig ts) -> safe_sig s) /\
  (forall s, In s (map tsig ts) -> tregime_ok s) /\
  (forall c P k sc sp, par (wiring_of es) c = Some (P, k) ->
     nth_error (map tsig ts) c = Some sc -> nth_error (map tsig ts) P = Some sp ->
     late_ok (snd (fst sp)) = true \/ greets_sync_sig sc).
Proof.
  intros Hok Hes Hsink. rewrite Forall_forall in Hok.
  split; [rewrite map_length; now apply edges_ok_sound|]. split; [|split].
  - intros s Hs. apply in_map_iff in Hs. destruct Hs as (t & <- & Ht). now apply tsig_safe, Hok.
  - intros s Hs. apply in_map_iff in Hs. destruct Hs as (t & <- & _). apply tsig_regime.
  - intros c P k sc sp Hp Hc _. right. rewrite nth_error_map in Hc.
    destruct (nth_error ts c) as [t|] eqn:Et; [|discriminate]. cbn in Hc. inversion Hc; subst sc.
    apply tsig_sync; [exact (Hok _ (nth_error_In _ _ Et))|].
    intros ->. cbn in Hp.
    destruct (find (fun e => e_child e =? c) es) as [e|] eqn:Ef; [|discriminate].
    destruct (find_in _ _ Ef) as [Hin Hc']. apply Nat.eqb_eq in Hc'.
    apply (Hsink e Hin). now rewrite Hc'.
Qed.

(** C01-C04, C17 for every program: every tree of from_iter / interval leaves, map / filter / scan /
    take / skip / merge! / concat! nodes (and for_each at roots), wired child to parent port, in
    every reachable state, whatever the external peers do: every component is in a configuration
    reachable in its own conformant environment, has violated nothing, has not panicked, and its
    trace obeys the protocol. *)
Theorem program_tree_sound (ts : list tnode) (es : list edge) (N : tnet) :
  Forall tnode_ok ts ->
  edges_okb es (length ts) = true ->
  (forall e, In e es -> nth_error ts (e_child e) <> Some TSink) ->
  tnet_reach (wiring_of es) (prog_net ts) N ->
  forall i n, nth_error (tnodes N) i = Some n ->
    nth_error (map tsig ts) i = Some (nsig n) /\
    nreach n /\ viols (nms n) = [] /\ dead (ncfg n) = false /\ protocol_ok (ntrace n).
Proof.
  intros Hok Hes Hsink Hr i n Hn.
  destruct (prog_hyps es Hok Hes Hsink) as (Hw & Hsafe & Hreg & Hsync).
  destruct (tree_sound Hw Hsafe Hreg Hsync (nsig_map_mk0 _) (@ninit_map_mk0 _) Hr i Hn)
    as (Hsig & Hre & Hv & Hd).
  split; [exact Hsig|]. split; [exact Hre|]. split; [exact Hv|]. split; [exact Hd|].
  assert (Hrs : resub (npar n) = false).
  { pose proof (Hreg _ (nth_error_In _ _ Hsig)) as H. unfold tregime_ok, nsig in H. tauto. }
  unfold ntrace. eapply protocol_of_safe; [exact Hrs | exact Hre | exact Hv].
Qed.
Print Assumptions program_tree_sound.

(** ** Non-vacuity: concat!(take(1)(from_iter [1;2]), merge!(from_iter [3], map (x10) (from_iter [4])))
    under a scripted external sink *)

Definition itl (l : list nat) (k : nat) : option val := option_map VN (nth_error l k).

Definition ex_ts : list tnode :=
  [TSrc (itl [1; 2]); TStage (UTake 1); TSrc (itl [3]); TSrc (itl [4]);
   TStage (UMap (fun v => match v with VN x => VN (10 * x) | _ => v end)); TMerge 2; TConcat 2].
Definition ex_es : list edge := [(0, 1, 0); (3, 4, 0); (2, 5, 0); (4, 5, 1); (1, 6, 0); (5, 6, 1)].

(** the internal transfers an environment move causes, spelled out *)
Fixpoint taus_until_idle (w : wiring) (fuel : nat) (N : tnet) : list nmove :=
  match fuel with
  | 0 => []
  | S f => match tpend N with
           | PIdle => []
           | _ => NTau :: taus_until_idle w f (tnet_step w N NTau)
           end
  end.

Fixpoint expand_moves (w : wiring) (root fuel : nat) (N : tnet) (ms : list move) : list nmove :=
  match ms with
  | [] => []
  | m :: ms' =>
      if tnet_enabled w N (NEnv root m) then
        let N1 := tnet_step w N (NEnv root m) in
        let ts := taus_until_idle w fuel N1 in
        NEnv root m :: ts ++ expand_moves w root fuel (tnet_run w N1 ts) ms'
      else expand_moves w root fuel N ms'     (* a move the conformant sink may not make is dropped *)
  end.

Definition ex_sink_moves : list move :=
  [MIn (ISub 0 0); MIn (IUp 0 UP); MRet; MRet; MRet; MIn (IUp 0 UP); MRet; MRet; MRet; MRet; MRet;
   MIn (IUp 0 UP); MRet; MRet; MIn (IUp 0 UP); MRet; MRet; MRet].
Definition ex_nmoves : list nmove := expand_moves (wiring_of ex_es) 6 300 (prog_net ex_ts) ex_sink_moves.

Example ex_tree_runs :
  edges_okb ex_es (length ex_ts) = true /\
  tnet_all_enabled (wiring_of ex_es) (prog_net ex_ts) ex_nmoves = true /\
  let N := tnet_run (wiring_of ex_es) (prog_net ex_ts) ex_nmoves in
  tpend N = PIdle /\ tgst N = [] /\
  option_map (fun n => (data_out 0 (ntrace n), sk (nms n) 0)) (nth_error (tnodes N) 6)
  = Some ([VN 1; VN 3; VN 40], SFinished).
Proof. vm_compute. repeat split. Qed.

(** the protocol half alone, as the property files quote it *)
Theorem program_protocol (ts : list tnode) (es : list edge) (N : tnet) :
  Forall tnode_ok ts ->
  edges_okb es (length ts) = true ->
  (forall e, In e es -> nth_error ts (e_child e) <> Some TSink) ->
  tnet_reach (wiring_of es) (prog_net ts) N ->
  forall i n, nth_error (tnodes N) i = Some n -> protocol_ok (ntrace n) /\ dead (ncfg n) = false.
Proof.
  intros Hok Hes Hs Hr i n Hn.
  destruct (@program_tree_sound ts es N Hok Hes Hs Hr i n Hn) as (_ & _ & _ & Hd & Hp). split; assumption.
Qed.
Print Assumptions program_protocol.
