(** * Inv_threads_take_fine: C19 for take(max) fed by any number of threads, over all schedules,
      at the granularity of every shared-state access ([tkf_step] of ThreadsFine.v): the invariant of
      Inv_threads_take.v with [fine = true] *)

From CB Require Import Threads ThreadSpec ThreadsFine ThreadFacts Inv_threads_take.
From Coq Require Import List Arith Lia Bool.
Import ListNotations.

Set Implicit Arguments.

Inductive tkf_reach (max : nat) (qs : nat -> list val) : tk_state -> Prop :=
| tkfr0 : tkf_reach max qs (tk_init qs)
| tkfrS s t : tkf_reach max qs s -> tkf_reach max qs (tkf_step max s t).

Section TakeFineProof.
  Variable max : nat.
  Variable qs : nat -> list val.

  Lemma finv_reach s : tkf_reach max qs s -> inv max true s.
  Proof. induction 1; [apply inv_init | now apply (@inv_step max true)]. Qed.

  (** C19, safety *)
  Theorem take_fine_safe s :
    tkf_reach max qs s ->
    count is_begin_data (tks_tr s) <= max
    /\ count is_up_term (tks_tr s) <= 1
    /\ count is_begin_term (tks_tr s) <= 1.
  Proof. intros R. exact (inv_safe (finv_reach R)). Qed.

  Theorem take_fine_no_panic s :
    tkf_reach max qs s -> existsb is_panic (tks_tr s) = false.
  Proof. intros R. exact (s_nopanic (proj2 (finv_reach R))). Qed.

  (** the state between [end.swap(true)] and the rest: while a thread is before its cell load
      the end is claimed, the upstream is not stopped and nothing has been sent; otherwise the flag
      counts what has been sent *)
  Theorem take_fine_mid s t :
    tkf_reach max qs s -> pc s t = TkAtEndStore ->
    tks_end s = true /\ tks_stopped s = false
    /\ count is_up_term (tks_tr s) = 0 /\ count is_begin_term (tks_tr s) = 0
    /\ forall t0, pc s t0 = TkAtEndStore -> t0 = t.
  Proof.
    intros R H. destruct (finv_reach R) as [C S].
    pose proof (c_pc C t) as P. rewrite H in P. destruct P as [Ee Es].
    rewrite (s_up S), (s_bt S), Es. repeat split; try assumption.
    intros t0 H0. apply (c_hold C t); [rewrite H | rewrite H0]; reflexivity.
  Qed.

  Theorem take_fine_not_mid s :
    tkf_reach max qs s -> (forall t, pc s t <> TkAtEndStore) ->
    tks_stopped s = tks_end s
    /\ count is_up_term (tks_tr s) = b2n (tks_end s)
    /\ count is_begin_term (tks_tr s) = b2n (tks_end s).
  Proof.
    intros R H. destruct (finv_reach R) as [C S].
    assert (E : tks_stopped s = tks_end s).
    { destruct (tks_stopped s) eqn:Es; [symmetry; apply (c_se C eq_refl)|].
      destruct (tks_end s) eqn:Ee; [|reflexivity].
      destruct (c_mid C eq_refl eq_refl) as [t Ht]. destruct (H _ Ht). }
    rewrite (s_up S), (s_bt S), E. auto.
  Qed.

  (** C19, completion *)
  Theorem take_fine_complete s :
    1 <= max ->
    tkf_reach max qs s ->
    (forall t, tk_finished s t = true) ->
    max <= count is_begin_data (tks_tr s) ->
    count is_up_term (tks_tr s) = 1 /\ count is_begin_term (tks_tr s) = 1.
  Proof. intros Hpos R. exact (inv_complete Hpos (finv_reach R)). Qed.

  Corollary take_fine_check s :
    1 <= max ->
    tkf_reach max qs s ->
    (forall t, tk_finished s t = true) ->
    take_check max (rev (tks_tr s)) = [].
  Proof. intros Hpos R. exact (inv_check Hpos (finv_reach R)). Qed.

  Lemma tkf_run_full_reach n sch fuel s :
    tkf_reach max qs s -> tkf_reach max qs (run_full (tkf_step max) tk_finished n sch fuel s).
  Proof. apply run_full_inv. intros s' t. apply tkfrS. Qed.

  Corollary take_fine_run_safe n sch fuel :
    let s := run_full (tkf_step max) tk_finished n sch fuel (tk_init qs) in
    count is_begin_data (tks_tr s) <= max
    /\ count is_up_term (tks_tr s) <= 1
    /\ count is_begin_term (tks_tr s) <= 1.
  Proof. apply take_fine_safe, tkf_run_full_reach. constructor. Qed.

  (** threads beyond the [n] the driver runs have empty queues and never start *)
  Lemma tkf_empty_queue_finished s t :
    tkf_reach max qs s -> qs t = [] -> tk_finished s t = true.
  Proof.
    intros R Hq. induction R; [now apply init_finished | now apply (@tk_gstep_finished max true)].
  Qed.

  Theorem take_fine_driver_run n sch fuel :
    1 <= max ->
    (forall t, n <= t -> qs t = []) ->
    let s := run_full (tkf_step max) tk_finished n sch fuel (tk_init qs) in
    first_unfinished tk_finished n s = None ->
    take_check max (rev (tks_tr s)) = [].
  Proof.
    intros Hpos Hq s.
    assert (R : tkf_reach max qs s) by (apply tkf_run_full_reach; constructor).
    apply (inv_check_n Hpos (finv_reach R)). intros t Ht. apply (tkf_empty_queue_finished R). now apply Hq.
  Qed.

End TakeFineProof.

Print Assumptions take_fine_safe.
Print Assumptions take_fine_no_panic.
Print Assumptions take_fine_mid.
Print Assumptions take_fine_not_mid.
Print Assumptions take_fine_complete.
Print Assumptions take_fine_check.
Print Assumptions take_fine_run_safe.
Print Assumptions take_fine_driver_run.

(** ** non-vacuity: two threads, one item each, max = 1.  Thread 0 takes the ticket, delivers, claims the
    end ([end.swap(true)]) and is suspended before its cell load; thread 1 runs (its datum is dropped: take
    is full; the upstream has not been stopped yet); thread 0 stops the upstream and completes the sink. *)

Definition fine_qs (t : nat) : list val :=
  match t with 0 => [VN 1] | 1 => [VN 2] | _ => [] end.
Definition fine_sch : list nat := [0;0;0;1;0;0].

(** the state after the first three steps is the one of [take_fine_mid] *)
Example take_fine_example_mid :
  let s := run_sched (tkf_step 1) tk_finished [0;0;0] (tk_init fine_qs) in
  pc s 0 = TkAtEndStore /\ tks_end s = true /\ tks_stopped s = false
  /\ count is_up_term (tks_tr s) = 0 /\ count is_begin_term (tks_tr s) = 0
  /\ tkf_reach 1 fine_qs s.
Proof.
  repeat split; try (vm_compute; reflexivity).
  apply run_sched_inv; [intros s t; apply tkfrS | constructor].
Qed.

Example take_fine_example :
  exists sch,
    let s := run_full (tkf_step 1) tk_finished 2 sch 50
               (tk_init (fun t => match t with 0 => [VN 1] | 1 => [VN 2] | _ => [] end)) in
    first_unfinished tk_finished 2 s = None
    /\ count is_begin_data (tks_tr s) = 1 /\ count is_begin_term (tks_tr s) = 1.
Proof. exists fine_sch. vm_compute. repeat split; reflexivity. Qed.

Example take_fine_example_run :
  let s := run_full (tkf_step 1) tk_finished 2 fine_sch 0 (tk_init fine_qs) in
  rev (tks_tr s) =
    [(0, TBegin (DD (VN 1))); (0, TEnd); (0, TUp 0 UT); (0, TBegin DT); (0, TEnd)]
  /\ tk_finished s 0 = true /\ tk_finished s 1 = true
  /\ take_check 1 (rev (tks_tr s)) = [].
Proof. vm_compute. repeat split; reflexivity. Qed.

Print Assumptions take_fine_example_mid.
Print Assumptions take_fine_example.
Print Assumptions take_fine_example_run.
