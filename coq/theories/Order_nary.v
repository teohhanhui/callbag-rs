(** * Order_nary: the list functions of concat! and merge!

    [concat_order] (Inv_concat.v) and [merge_order] (Inv_merge.v) say that the
    sink receives every member datum in ARRIVAL order:
    [data_out 0 (trace c) = all_in (trace c)].  This file relates the arrival
    order to the members' own sequences [data_in k (trace c)]:

    - concat!: arrival order is member order, the output is the concatenation
      of the members' sequences ([concat_sequential], [concat_list_function]);
    - merge!: the output is an interleaving of the members' sequences
      ([merge_interleaves]), for every value of [late_ok].

    [interleave] consumes the output from the left, as a trace is read.  The
    pure trace lemma [all_in_interleave] is an induction on the trace, under
    the side condition [ports_lt n tr] (every data input of the trace comes
    from a port below [n]), which holds of reachable configurations by
    the merge invariant. *)
From CB Require Import ProofLib Spec CountFacts Inv_concat Inv_merge.

Set Implicit Arguments.

(** the two files define the same projection under the same name *)
Lemma all_in_same tr : Inv_merge.all_in tr = Inv_concat.all_in tr.
Proof.
  induction tr as [|e tr IH]; cbn; [reflexivity|].
  destruct e as [[s a|s u|j [|v|e|]|s]|c| | |ob|]; cbn; try exact IH. now rewrite IH.
Qed.

Lemma flat_map_ext_seq A (f g : nat -> list A) a m :
  (forall k, a <= k < a + m -> f k = g k) -> flat_map f (seq a m) = flat_map g (seq a m).
Proof.
  revert a. induction m as [|m IH]; intros a H; cbn; [reflexivity|].
  rewrite (H a) by lia. f_equal. apply IH. intros k Hk. apply H. lia.
Qed.

Lemma flat_map_nil_seq A (f : nat -> list A) a m :
  (forall k, a <= k < a + m -> f k = []) -> flat_map f (seq a m) = [].
Proof.
  revert a. induction m as [|m IH]; intros a H; cbn; [reflexivity|].
  rewrite (H a) by lia. apply IH. intros k Hk. apply H. lia.
Qed.

(** appending one element to the sequence of the LAST non-empty member appends
    it to the concatenation *)
Lemma flat_map_snoc A (f f' : nat -> list A) j x m :
  j < m ->
  (forall k, j < k -> f k = []) ->
  (forall k, k <> j -> f' k = f k) ->
  f' j = f j ++ [x] ->
  flat_map f' (seq 0 m) = flat_map f (seq 0 m) ++ [x].
Proof.
  intros Hj Hnil Hne Hjx.
  assert (Hseq : seq 0 m = seq 0 j ++ j :: seq (S j) (m - S j)).
  { replace m with (j + S (m - S j)) at 1 by lia. rewrite seq_app. reflexivity. }
  rewrite Hseq, !flat_map_app. cbn [flat_map].
  rewrite (@flat_map_ext_seq _ f' f 0 j) by (intros; apply Hne; lia).
  rewrite (@flat_map_nil_seq _ f' (S j) (m - S j)) by (intros; rewrite Hne by lia; apply Hnil; lia).
  rewrite (@flat_map_nil_seq _ f (S j) (m - S j)) by (intros; apply Hnil; lia).
  rewrite Hjx, !app_nil_r. now rewrite app_assoc.
Qed.

Lemma data_in_act o i (a : act (Fr o)) : data_in i [act_event o a] = [].
Proof. destruct a; reflexivity. Qed.

Lemma all_in_act_cc o (a : act (Fr o)) : Inv_concat.all_in [act_event o a] = [].
Proof. destruct a; reflexivity. Qed.

Section ConcatSeq.
  Variable n : nat.
  Variable p : mparams.
  Hypothesis Hns : nsinks p = 1.
  Hypothesis Hresub : resub p = false.
  Hypothesis Hnonest : no_nest p = false.
  Hypothesis Hc14 : c14 p = false.
  Hypothesis Hlate : late_ok p = false.
  Local Notation o := (concat_op n).

  (** nothing has arrived from a member above the cursor (never subscribed) nor
      from a port that is not a member, and what has arrived is the
      concatenation of the members' sequences *)
  Record SInv (c : cfg o) : Prop := {
    s_above : forall j, cc_i (cst c) < j -> data_in j (trace c) = [];
    s_big : forall j, n <= j -> data_in j (trace c) = [];
    s_cat : Inv_concat.all_in (trace c) = flat_map (fun k => data_in k (trace c)) (seq 0 n);
  }.

  Lemma sinv0 : SInv (cfg0 o).
  Proof.
    constructor; cbn; try reflexivity.
    symmetry. apply flat_map_nil_seq. reflexivity.
  Qed.

  (** a step that brings no datum and does not move the cursor backwards *)
  Lemma sinv_keep (c : cfg o) tr' i' evs :
    SInv c -> tr' = trace c ++ evs -> cc_i (cst c) <= i' ->
    Inv_concat.all_in evs = [] -> (forall j, data_in j evs = []) ->
    (forall j, i' < j -> data_in j tr' = []) /\
    (forall j, n <= j -> data_in j tr' = []) /\
    Inv_concat.all_in tr' = flat_map (fun k => data_in k tr') (seq 0 n).
  Proof.
    intros [Ha Hb Hc] -> Hle Hall Hdat.
    assert (Hsame : forall j, data_in j (trace c ++ evs) = data_in j (trace c)).
    { intros j. now rewrite data_in_app, Hdat, app_nil_r. }
    split; [|split].
    - intros j Hj. rewrite Hsame. apply Ha. lia.
    - intros j Hj. rewrite Hsame. now apply Hb.
    - rewrite Inv_concat.all_in_app, Hall, app_nil_r, Hc.
      apply flat_map_ext_seq. intros k _. now rewrite Hsame.
  Qed.

  Lemma sinv_step (c : cfg o) m :
    Inv_concat.Inv c -> SInv c -> enabled p g_std c m = true -> SInv (step p c m).
  Proof.
    intros HI HS He. pose proof (st_cst (en_step He)) as Hc. pose proof (stepped_trace (en_step He)) as Ht.
    destruct (result c m) as [[s' os] a] eqn:Hh. cbn [fst snd] in Hc, Ht.
    destruct m as [inp|]; cbn [result] in Hh.
    - destruct (Inv_concat.handle_shape _ _ Hh) as (-> & Hi & _ & _). cbn in Ht.
      assert (Hkeep : forall i', cc_i (cst c) <= i' -> cc_i s' = i' ->
                Inv_concat.all_in [EIn inp] = [] -> (forall j, data_in j [EIn inp] = []) ->
                SInv (step p c (MIn inp))).
      { intros i' Hle Hi' Hall Hdat.
        destruct (@sinv_keep c (trace (step p c (MIn inp))) i' [EIn inp; act_event o a]
                    HS Ht Hle) as (H1 & H2 & H3).
        - change [EIn inp; act_event o a] with ([EIn inp] ++ [act_event o a]).
          now rewrite Inv_concat.all_in_app, Hall, all_in_act_cc.
        - intros j. change [EIn inp; act_event o a] with ([EIn inp] ++ [act_event o a]).
          now rewrite data_in_app, Hdat, data_in_act.
        - constructor; [rewrite Hc, Hi'; exact H1 | exact H2 | exact H3]. }
      destruct inp as [s aux|s u|j d|s].
      + (* the sink subscribes: the state was the initial one *)
        destruct (@Inv_concat.sub_enabled_init n p Hns c s aux HI He) as (-> & E0 & _).
        assert (E1 : cc_i (cst c) = 0) by exact (f_equal cc_i E0).
        apply (Hkeep 0); [lia | exact Hi | reflexivity | reflexivity].
      + apply (Hkeep (cc_i (cst c))); [lia | destruct s; exact Hi | reflexivity | reflexivity].
      + destruct d as [|v|e|].
        * apply (Hkeep (cc_i (cst c))); [lia | exact Hi | reflexivity | reflexivity].
        * (* a datum: it comes from the current member *)
          destruct (en_member _ _ _ _ _ He) as [_ Eus].
          destruct (Inv_concat.live_current j HI Eus) as (-> & _ & Hlt & _).
          destruct HS as [Ha Hb Hcat].
          assert (Hd : forall k, data_in k (trace (step p c (MIn (IDn (cc_i (cst c)) (DD v))))) =
                                 data_in k (trace c) ++
                                 (if Nat.eqb k (cc_i (cst c)) then [v] else [])).
          { intros k. rewrite Ht, data_in_app. f_equal.
            change [EIn (IDn (cc_i (cst c)) (DD v)); act_event o a]
              with ([EIn (IDn (cc_i (cst c)) (DD v))] ++ [act_event o a]).
            rewrite data_in_app, data_in_act, app_nil_r. cbn.
            destruct (Nat.eqb k (cc_i (cst c))); reflexivity. }
          constructor.
          -- intros j Hj. rewrite Hc, Hi in Hj. rewrite Hd, Ha by exact Hj.
             destruct (Nat.eqb_spec j (cc_i (cst c))); [lia | reflexivity].
          -- intros j Hj. rewrite Hd, Hb by exact Hj.
             destruct (Nat.eqb_spec j (cc_i (cst c))); [lia | reflexivity].
          -- rewrite Ht at 1. rewrite Inv_concat.all_in_app.
             change (Inv_concat.all_in [EIn (IDn (cc_i (cst c)) (DD v)); act_event o a])
               with (v :: Inv_concat.all_in [act_event o a]).
             rewrite all_in_act_cc, Hcat. symmetry.
             apply flat_map_snoc with (j := cc_i (cst c)).
             ++ exact Hlt.
             ++ exact Ha.
             ++ intros k Hk. rewrite Hd. destruct (Nat.eqb_spec k (cc_i (cst c))); [contradiction|].
                apply app_nil_r.
             ++ rewrite Hd, Nat.eqb_refl. reflexivity.
        * apply (Hkeep (cc_i (cst c))); [lia | exact Hi | reflexivity | reflexivity].
        * (* the current member terminates: the cursor moves up *)
          apply (Hkeep (S (cc_i (cst c)))); [lia | exact Hi | reflexivity | reflexivity].
      + apply (Hkeep (cc_i (cst c))); [lia | exact Hi | reflexivity | reflexivity].
    - destruct (enabled_ret_stack _ _ _ He) as (k & cl & rest & Hst). rewrite Hst in Hh.
      destruct (Inv_concat.resume_shape _ _ Hh) as (-> & -> & _ & _). cbn in Ht.
      destruct (@sinv_keep c (trace (step p c MRet)) (cc_i (cst c)) [ERet; act_event o a]
                  HS Ht (le_n _)) as (H1 & H2 & H3).
      + change [ERet; act_event o a] with ([ERet] ++ [act_event o a]).
        now rewrite Inv_concat.all_in_app, all_in_act_cc.
      + intros j. change [ERet; act_event o a] with ([ERet] ++ [act_event o a]).
        now rewrite data_in_app, data_in_act.
      + constructor; [rewrite Hc; exact H1 | exact H2 | exact H3].
  Qed.

  Lemma sinv_reach (c : cfg o) : reach p g_std c -> SInv c.
  Proof.
    induction 1 as [|c m Hr IH He]; [apply sinv0|].
    apply sinv_step; [exact (Inv_concat.inv_reach Hns Hresub Hnonest Hc14 Hlate Hr) | exact IH | exact He].
  Qed.

End ConcatSeq.

(** C09, the list function, in arrival terms: the arrival order of the member
    data is member 0's sequence, then member 1's, ... *)
Theorem concat_sequential n p :
  nsinks p = 1 -> resub p = false -> no_nest p = false -> c14 p = false -> late_ok p = false ->
  forall c : cfg (concat_op n), reach p g_std c ->
    Inv_concat.all_in (trace c) = flat_map (fun k => data_in k (trace c)) (seq 0 n).
Proof.
  intros H1 H2 H3 H4 H5 c Hr. exact (s_cat (sinv_reach H1 H2 H3 H4 H5 Hr)).
Qed.
Print Assumptions concat_sequential.

(** C09, the list function: what the sink has received is the concatenation,
    in member order, of what each member has sent *)
Corollary concat_list_function n p :
  nsinks p = 1 -> resub p = false -> no_nest p = false -> c14 p = false -> late_ok p = false ->
  forall c : cfg (concat_op n), reach p g_std c ->
    data_out 0 (trace c) = flat_map (fun k => data_in k (trace c)) (seq 0 n).
Proof.
  intros H1 H2 H3 H4 H5 c Hr.
  rewrite <- (concat_sequential H1 H2 H3 H4 H5 Hr).
  exact (proj1 (concat_order H1 H2 H3 H4 H5 Hr)).
Qed.
Print Assumptions concat_list_function.

(** by-products of the same invariant: a member above the cursor, and a port
    that is not a member, has sent nothing *)
Theorem concat_silent_above n p :
  nsinks p = 1 -> resub p = false -> no_nest p = false -> c14 p = false -> late_ok p = false ->
  forall c : cfg (concat_op n), reach p g_std c ->
    forall j, cc_i (cst c) < j \/ n <= j -> data_in j (trace c) = [].
Proof.
  intros H1 H2 H3 H4 H5 c Hr j [Hj|Hj].
  - exact (s_above (sinv_reach H1 H2 H3 H4 H5 Hr) Hj).
  - exact (s_big (sinv_reach H1 H2 H3 H4 H5 Hr) Hj).
Qed.
Print Assumptions concat_silent_above.

Fixpoint replace_nth (A : Type) (k : nat) (x : A) (l : list A) {struct l} : list A :=
  match l, k with
  | [], _ => []
  | _ :: l', 0 => x :: l'
  | y :: l', S k' => y :: replace_nth k' x l'
  end.

(** [interleave ls out]: [out] is obtained by repeatedly taking the head of one
    of the lists [ls], until all are empty *)
Inductive interleave (A : Type) : list (list A) -> list A -> Prop :=
| il_nil ls : Forall (fun l => l = []) ls -> interleave ls []
| il_cons ls k x l out : nth_error ls k = Some (x :: l) ->
    interleave (replace_nth k l ls) out -> interleave ls (x :: out).

Lemma nth_error_map_seq A (f : nat -> A) a m k :
  k < m -> nth_error (map f (seq a m)) k = Some (f (a + k)).
Proof.
  revert a k. induction m as [|m IH]; intros a k Hk; [lia|].
  destruct k as [|k]; cbn.
  - now rewrite Nat.add_0_r.
  - rewrite IH by lia. f_equal. f_equal. lia.
Qed.

Lemma replace_nth_map_seq A (f g : nat -> A) a m k :
  (forall i, i <> a + k -> f i = g i) ->
  replace_nth k (g (a + k)) (map f (seq a m)) = map g (seq a m).
Proof.
  revert a k. induction m as [|m IH]; intros a k H; [reflexivity|].
  destruct k as [|k]; cbn.
  - rewrite Nat.add_0_r. f_equal. apply map_ext_in. intros i Hi. apply in_seq in Hi.
    apply H. lia.
  - rewrite (H a) by lia. f_equal.
    replace (a + S k) with (S a + k) by lia. apply IH. intros i Hi. apply H. lia.
Qed.

(** every data input of the trace comes from a port below [n] *)
Definition port_lt (n : nat) (e : event) : Prop :=
  match e with EIn (IDn j (DD _)) => j < n | _ => True end.
Definition ports_lt (n : nat) (tr : list event) : Prop := Forall (port_lt n) tr.

(** the pure trace fact: the arrival sequence of a trace is an interleaving of
    the per-port sequences *)
Lemma all_in_interleave n tr :
  ports_lt n tr ->
  interleave (map (fun k => data_in k tr) (seq 0 n)) (Inv_merge.all_in tr).
Proof.
  induction tr as [|e tr IH]; intros Hp.
  - apply il_nil. apply Forall_forall. intros l Hl. apply in_map_iff in Hl.
    now destruct Hl as (k & <- & _).
  - inversion Hp as [|e' tr' He Htr]; subst. specialize (IH Htr).
    assert (Hskip : (forall k, data_in k (e :: tr) = data_in k tr) ->
                    Inv_merge.all_in (e :: tr) = Inv_merge.all_in tr ->
                    interleave (map (fun k => data_in k (e :: tr)) (seq 0 n))
                               (Inv_merge.all_in (e :: tr))).
    { intros H1 H2. rewrite H2. rewrite (map_ext _ (fun k => data_in k tr) H1). exact IH. }
    destruct e as [[s a|s u|j [|v|e|]|s]|c| | |ob|];
      try (apply Hskip; [intros k|]; reflexivity).
    cbn in He.
    change (Inv_merge.all_in (EIn (IDn j (DD v)) :: tr)) with (v :: Inv_merge.all_in tr).
    apply il_cons with (k := j) (l := data_in j tr).
    + rewrite nth_error_map_seq by exact He. cbn. now rewrite Nat.eqb_refl.
    + pose proof (@replace_nth_map_seq _ (fun k => data_in k (EIn (IDn j (DD v)) :: tr))
                    (fun k => data_in k tr) 0 n j) as Hrep.
      change (0 + j) with j in Hrep. rewrite Hrep; [exact IH|].
      intros i Hi. cbn. destruct (Nat.eqb_spec i j); [contradiction | reflexivity].
Qed.

Lemma ports_lt_act n o (a : act (Fr o)) : port_lt n (act_event o a).
Proof. destruct a; exact I. Qed.

Section MergeIl.
  Variable n : nat.
  Hypothesis Hn : 1 <= n.
  Variable p : mparams.
  Hypothesis Hns : nsinks p = 1.
  Hypothesis Hresub : resub p = false.
  Hypothesis Hnonest : no_nest p = false.
  Hypothesis Hc14 : c14 p = false.
  Local Notation o := (merge_op n).

  (** only the [n] members ever send data: a sender is live, and the ports
      [>= n] are never subscribed *)
  Lemma merge_ports_lt (c : cfg o) : reach p g_std c -> ports_lt n (trace c).
  Proof.
    revert c. apply (@reach_invariant p o g_std (fun c => ports_lt n (trace c))); [constructor|].
    intros c mv Hr IH He. destruct (mg_step_trace He) as (a & -> & _).
    apply Forall_app. split; [exact IH|].
    constructor; [|constructor; [apply ports_lt_act | constructor]].
    destruct mv as [[t aux|t u|i [|v|e|]|t]|]; try exact I.
    exact (datum_member p (Inv_merge.inv_reach Hn Hns Hresub Hnonest Hc14 Hr) He).
  Qed.

End MergeIl.

(** C08, the list function: what the sink has received is an interleaving of
    what each member has sent.  Regime of [merge_safe]; [late_ok p] is
    arbitrary (the invariant of Inv_merge.v does not use it), so the theorem
    covers late greeters ([late_ok p = true]) as well as the strict environment
    ([late_ok p = false]). *)
Theorem merge_interleaves n p :
  nsinks p = 1 -> resub p = false -> no_nest p = false -> c14 p = false -> 1 <= n ->
  forall c : cfg (merge_op n), reach p g_std c ->
    interleave (map (fun k => data_in k (trace c)) (seq 0 n)) (data_out 0 (trace c)).
Proof.
  intros H1 H2 H3 H4 Hn c Hr.
  rewrite (Inv_merge.order Hn H1 H2 H3 H4 Hr).
  apply all_in_interleave. exact (merge_ports_lt Hn H1 H2 H3 H4 Hr).
Qed.
Print Assumptions merge_interleaves.

(** the same in arrival terms *)
Theorem merge_arrival_interleaves n p :
  nsinks p = 1 -> resub p = false -> no_nest p = false -> c14 p = false -> 1 <= n ->
  forall c : cfg (merge_op n), reach p g_std c ->
    interleave (map (fun k => data_in k (trace c)) (seq 0 n)) (Inv_merge.all_in (trace c)).
Proof.
  intros H1 H2 H3 H4 Hn c Hr.
  apply all_in_interleave. exact (merge_ports_lt Hn H1 H2 H3 H4 Hr).
Qed.
Print Assumptions merge_arrival_interleaves.

(** concat! of three members: member 0 sends 1, 2 and terminates, member 1 is
    subscribed inside that Terminate, greets and terminates at once (it
    contributes the empty sequence), member 2 is subscribed inside THAT
    Terminate, sends 3 and terminates; the sink is completed. *)
Definition concat3_script : list move :=
  [MIn (ISub 0 0); MIn (IDn 0 DH); MRet; MRet;
   MIn (IDn 0 (DD (VN 1))); MRet; MIn (IDn 0 (DD (VN 2))); MRet;
   MIn (IDn 0 DT); MIn (IDn 1 DH); MIn (IDn 1 DT); MIn (IDn 2 DH);
   MIn (IDn 2 (DD (VN 3))); MRet; MIn (IDn 2 DT); MRet; MRet; MRet].

Example concat3_reach : reach p_std g_std (run p_std (concat_op 3) concat3_script).
Proof. apply reach_run. vm_compute. reflexivity. Qed.

Example concat3_values :
  let c := run p_std (concat_op 3) concat3_script in
  map (fun k => data_in k (trace c)) (seq 0 3) = [[VN 1; VN 2]; []; [VN 3]] /\
  data_out 0 (trace c) = [VN 1; VN 2; VN 3] /\ stack c = [] /\ sk (ms c) 0 = SFinished.
Proof. vm_compute. repeat split. Qed.

(** the theorem at this configuration (not by computation) *)
Example concat3_by_theorem :
  let c := run p_std (concat_op 3) concat3_script in
  data_out 0 (trace c) = flat_map (fun k => data_in k (trace c)) (seq 0 3).
Proof.
  apply (@concat_list_function 3 p_std); try reflexivity. exact concat3_reach.
Qed.

(** merge! of two members, with a nested delivery: after 1 (member 0),
    2 (member 1), 3 (member 0), member 1 sends 4; inside the delivery of 4 the
    sink pulls, the Pull is broadcast, and inside the Pull member 0 answers
    with 5.  The output 1 2 3 4 5 interleaves [1;3;5] and [2;4]. *)
Definition merge2_script : list move :=
  [MIn (ISub 0 0); MIn (IDn 0 DH); MRet; MRet; MIn (IDn 1 DH); MRet;
   MIn (IDn 0 (DD (VN 1))); MRet; MIn (IDn 1 (DD (VN 2))); MRet;
   MIn (IDn 0 (DD (VN 3))); MRet;
   MIn (IDn 1 (DD (VN 4))); MIn (IUp 0 UP); MIn (IDn 0 (DD (VN 5))); MRet; MRet; MRet; MRet].

Example merge2_reach : reach p_merge g_std (run p_merge (merge_op 2) merge2_script).
Proof. apply reach_run. vm_compute. reflexivity. Qed.

(** the same script is conformant in the strict environment as well (both
    members greet inside their subscribing call) *)
Example merge2_reach_strict : reach p_std g_std (run p_std (merge_op 2) merge2_script).
Proof. apply reach_run. vm_compute. reflexivity. Qed.

Example merge2_values :
  let c := run p_merge (merge_op 2) merge2_script in
  map (fun k => data_in k (trace c)) (seq 0 2) = [[VN 1; VN 3; VN 5]; [VN 2; VN 4]] /\
  data_out 0 (trace c) = [VN 1; VN 2; VN 3; VN 4; VN 5] /\ stack c = [] /\ sk (ms c) 0 = SLive.
Proof. vm_compute. repeat split. Qed.

Example merge2_by_theorem :
  interleave [[VN 1; VN 3; VN 5]; [VN 2; VN 4]] [VN 1; VN 2; VN 3; VN 4; VN 5].
Proof.
  pose proof (@merge_interleaves 2 p_merge eq_refl eq_refl eq_refl eq_refl (le_S _ _ (le_n 1))
                _ merge2_reach) as H.
  vm_compute in H. exact H.
Qed.

Example merge2_by_theorem_strict :
  let c := run p_std (merge_op 2) merge2_script in
  interleave (map (fun k => data_in k (trace c)) (seq 0 2)) (data_out 0 (trace c)).
Proof.
  apply (@merge_interleaves 2 p_std); try reflexivity; [repeat constructor | exact merge2_reach_strict].
Qed.

(** [interleave] discriminates: it keeps each member's own order *)
Example interleave_yes :
  interleave [[VN 1; VN 3; VN 5]; [VN 2; VN 4]] [VN 1; VN 3; VN 2; VN 5; VN 4].
Proof.
  apply il_cons with (k := 0) (l := [VN 3; VN 5]); [reflexivity|]. cbn.
  apply il_cons with (k := 0) (l := [VN 5]); [reflexivity|]. cbn.
  apply il_cons with (k := 1) (l := [VN 4]); [reflexivity|]. cbn.
  apply il_cons with (k := 0) (l := []); [reflexivity|]. cbn.
  apply il_cons with (k := 1) (l := []); [reflexivity|]. cbn.
  apply il_nil. repeat constructor.
Qed.

Example interleave_not :
  ~ interleave [[VN 1; VN 3; VN 5]; [VN 2; VN 4]] [VN 3; VN 1; VN 2; VN 4; VN 5].
Proof.
  intros H. inversion H as [|ls k x l out Hnth Hrest]; subst.
  destruct k as [|[|k]]; cbn in Hnth; try discriminate. destruct k; discriminate.
Qed.
