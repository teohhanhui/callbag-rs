(** * Ports: what the protocol monitor sees of an operator with one sink.

    Everything the monitor checks of such an operator is a fact about the monitor state
    alone.  [pbase] collects the part that holds whatever the operator does with its ports;
    the lemmas say, for each input the environment may perform ([pin_*]) and each call the
    operator may answer with ([pcall_*]), what happens to [pbase], to the sink, to the
    upstreams' status [us] and to the demand counters.  The invariants of the relays, take,
    for_each, from_iter, interval, concat and flatten are assembled from them.

    Every lemma speaks of a variable state [m] and of a state [m'] given by an equation, and
    an invariant proof takes a step in two halves (the input, then the call), so that no goal
    ever contains a computed monitor state: checking those again at [Qed] is what is dear. *)
From CB Require Export ProofLib Spec.

Set Implicit Arguments.
Unset Strict Implicit.

Definition cnt3 (m : mstate) : nat * nat * nat := (credit m 0, npull m 0, ndata m 0).

Lemma cnt3_eq m a b c : cnt3 m = (a, b, c) -> credit m 0 = a /\ npull m 0 = b /\ ndata m 0 = c.
Proof. unfold cnt3. intros E. inversion E. auto. Qed.

(** a delivery to the sink begins: not inside a Data delivery to it, if that is checked *)
Definition not_nested (p : mparams) (m : mstate) : Prop :=
  no_nest p = true -> in_data_delivery 0 (cstack m) = false.

Lemma nest_off p : no_nest p = false -> forall m, not_nested p m.
Proof. intros H m E. rewrite H in E. discriminate. Qed.

(** where the counts of C14 are off, nothing is asked of the regime *)
Lemma no_c14 p : c14 p = false -> c14 p = true -> pullable p = true /\ one_pull p = true.
Proof. congruence. Qed.

Section Ports.
  Variable p : mparams.
  (** the upstream ports the operator may subscribe *)
  Variable used : nat -> Prop.
  (** the nursery's side, constant but for interval: the tasks asleep, the subscriptions refused *)
  Variable tk : nat -> bool.
  Variable rf : nat -> option nat.

  (** [d] is the Error sink 0 is owed: [None] except between an upstream's Error and the
      operator's passing it on *)
  Record pbase (d : option nat) (m : mstate) : Prop := {
    pb_viols : viols m = [];
    pb_due : err_due m 0 = d;
    pb_sent : forall e, d = Some e -> existsb (Nat.eqb e) (errs_in m) = true;
    pb_due_other : forall s, err_due m (S s) = None;
    pb_sk_other : forall s, sk m (S s) = SNone;
    pb_known : forall i, us m i <> UNone -> In i (ports m);
    pb_used : forall i, In i (ports m) -> used i;
    pb_subd : subd m 0 = false -> forall i, us m i = UNone;
    pb_task : forall s, task m s = tk s;
    pb_refused : forall s, refused m s = rf s;
  }.

  Lemma known_used d m i : pbase d m -> us m i <> UNone -> used i.
  Proof. intros B H. apply (pb_used B), (pb_known B), H. Qed.

  Lemma known_subd d m i : pbase d m -> us m i <> UNone -> subd m 0 = true.
  Proof. intros B H. destruct (subd m 0) eqn:E; [reflexivity | now rewrite (pb_subd B E) in H]. Qed.

  Lemma live_sink_0 d m s : pbase d m -> sk m s = SLive -> s = 0.
  Proof. intros B H. destruct s; [reflexivity | now rewrite (pb_sk_other B) in H]. Qed.

  Lemma known_upd (f : nat -> uss) (P : nat -> Prop) i u :
    (forall j, f j <> UNone -> P j) -> f i <> UNone -> forall j, upd f i u j <> UNone -> P j.
  Proof. intros H Hi j. unfold upd. destruct (Nat.eqb_spec j i); [subst; auto | apply H]. Qed.

  Lemma pin_sub d m m' : m' = mon_input p m (ISub 0 0) -> pbase d m ->
    pbase d m' /\ subd m' 0 = true /\ sk m' = sk m /\ us m' = us m /\ owed m' = owed m /\
    cnt3 m' = cnt3 m.
  Proof. intros -> []. cbn. repeat split; auto. discriminate. Qed.

  Lemma pin_pull d m m' : m' = mon_input p m (IUp 0 UP) -> pbase d m ->
    pbase d m' /\ subd m' = subd m /\ sk m' = sk m /\ us m' = us m /\ owed m' = owed m /\
    cnt3 m' = (pred (credit m 0), S (npull m 0), ndata m 0).
  Proof. intros -> []. cbn. repeat split; auto. Qed.

  Lemma pin_stop d m m' u : m' = mon_input p m (IUp 0 u) -> pbase d m -> umsg_is_term u = true ->
    pbase None m' /\ subd m' = subd m /\ sk m' 0 = SDisposed /\ us m' = us m /\
    owed m' = owed m /\ cnt3 m' = cnt3 m.
  Proof.
    intros -> [] Hu. destruct u; try discriminate; cbn; (repeat split; auto); discriminate.
  Qed.

  Lemma pin_greet d m m' i : m' = mon_input p m (IDn i DH) -> pbase d m -> us m i <> UNone ->
    pbase d m' /\ subd m' = subd m /\ sk m' = sk m /\ us m' = upd (us m) i ULive /\
    owed m' = owed m /\ cnt3 m' = cnt3 m.
  Proof.
    intros -> B Hu. pose proof (known_subd B Hu) as Hs. destruct B. cbn. repeat split; auto; cbn.
    - now apply known_upd.
    - congruence.
  Qed.

  Lemma pin_data d m m' i v : m' = mon_input p m (IDn i (DD v)) -> pbase d m ->
    pbase d m' /\ subd m' = subd m /\ sk m' = sk m /\ us m' = us m /\
    owed m' = upd (owed m) i (pred (owed m i)) /\ cnt3 m' = cnt3 m.
  Proof. intros -> []. cbn. repeat split; auto. Qed.

  Lemma pin_term d m m' i : m' = mon_input p m (IDn i DT) -> pbase d m -> us m i <> UNone ->
    pbase d m' /\ subd m' = subd m /\ sk m' = sk m /\ us m' = upd (us m) i UEnded /\
    owed m' = upd (owed m) i (pred (owed m i)) /\ cnt3 m' = cnt3 m.
  Proof.
    intros -> B Hu. pose proof (known_subd B Hu) as Hs. destruct B. cbn. repeat split; auto; cbn.
    - now apply known_upd.
    - congruence.
  Qed.

  (** an upstream's Error is owed to the sink, if it is live, until the operator passes it on *)
  Lemma pin_error d m m' i e k : m' = mon_input p m (IDn i (DE e)) -> pbase d m ->
    nsinks p = 1 -> sk m 0 = k -> us m i <> UNone ->
    pbase (match k with SLive => Some e | _ => d end) m' /\ subd m' = subd m /\ sk m' = sk m /\
    us m' = upd (us m) i UEnded /\ owed m' = upd (owed m) i (pred (owed m i)) /\ cnt3 m' = cnt3 m.
  Proof.
    intros -> B Hns Hk Hu. pose proof (known_subd B Hu) as Hs. destruct B. cbn -[due_on_error].
    assert (E0 : due_on_error p m e 0 = match k with SLive => Some e | _ => d end).
    { unfold due_on_error. rewrite Hns, Hk, pb_due0. now destruct k. }
    repeat split; auto; cbn -[due_on_error].
    - intros e' E. rewrite Nat.eqb_sym. destruct (Nat.eqb_spec e e'); [reflexivity|].
      apply pb_sent0. destruct k; congruence.
    - intros s. unfold due_on_error. rewrite Hns. apply pb_due_other0.
    - now apply known_upd.
    - congruence.
  Qed.

  Lemma pin_ret d m m' : m' = mon_event p m ERet -> pbase d m ->
    pbase d m' /\ subd m' = subd m /\ sk m' = sk m /\ us m' = us m /\ owed m' = owed m /\
    cnt3 m' = cnt3 m.
  Proof. intros -> []. cbn. repeat split; auto. Qed.

  Variable o : op.
  Variable k : Fr o.
  Notation settle m cl := (ms_settle p o m [] (ACall cl k)).

  Ltac fields := rewrite ms_settle_call, ?add_viols_eq; cbn -[Nat.ltb Nat.leb].

  Lemma pcall_sub d m m' i : m' = settle m (CSub i) -> pbase d m -> used i ->
    us m i = UNone -> sk_over (sk m 0) = false -> subd m 0 = true ->
    pbase d m' /\ subd m' = subd m /\ sk m' = sk m /\ us m' = upd (us m) i USubd /\
    owed m' = owed m /\ cnt3 m' = cnt3 m.
  Proof.
    intros -> [] Hi Hu Ho Hs. fields. rewrite Hu, Ho, andb_false_r. cbn.
    repeat split; auto; cbn.
    - intros j. unfold upd. destruct (Nat.eqb_spec j i); auto.
    - intros j [<-|H]; auto.
    - congruence.
  Qed.

  Lemma pcall_pull d m m' i : m' = settle m (CUp i UP) -> pbase d m -> us m i = ULive ->
    (c14 p = true -> owed m i = 0) ->
    pbase d m' /\ subd m' = subd m /\ sk m' = sk m /\ us m' = us m /\
    owed m' = upd (owed m) i (S (owed m i)) /\ cnt3 m' = cnt3 m.
  Proof.
    intros -> [] Hu Ho. fields. rewrite Hu.
    assert (E : c14 p && (0 <? owed m i) = false).
    { destruct (c14 p); [rewrite Ho by reflexivity|]; reflexivity. }
    rewrite E. cbn. repeat split; auto.
  Qed.

  Lemma pcall_stop d m m' i u : m' = settle m (CUp i u) -> pbase d m -> umsg_is_term u = true ->
    us m i = ULive ->
    pbase d m' /\ subd m' = subd m /\ sk m' = sk m /\ us m' = upd (us m) i UStopped /\
    owed m' = owed m /\ cnt3 m' = cnt3 m.
  Proof.
    intros -> B Ht Hu. assert (Hk : us m i <> UNone) by congruence.
    pose proof (known_subd B Hk) as Hs. destruct B.
    destruct u; try discriminate; fields; rewrite Hu; cbn; (repeat split; auto); cbn;
      try congruence; now apply known_upd.
  Qed.

  Lemma pcall_greet d m m' : m' = settle m (CDn 0 DH) -> pbase d m -> sk m 0 = SNone ->
    pbase d m' /\ subd m' = subd m /\ sk m' 0 = SLive /\ us m' = us m /\ owed m' = owed m /\
    cnt3 m' = (S (credit m 0), npull m 0, ndata m 0).
  Proof. intros -> [] Hk. fields. rewrite Hk. cbn. repeat split; auto. Qed.

  Lemma nested_check m : not_nested p m -> no_nest p && in_data_delivery 0 (cstack m) = false.
  Proof. unfold not_nested. destruct (no_nest p); cbn; auto. Qed.

  Lemma pcall_data d m m' v : m' = settle m (CDn 0 (DD v)) -> pbase d m -> not_nested p m ->
    sk m 0 = SLive -> (c14 p = true -> ndata m 0 < npull m 0) ->
    pbase d m' /\ subd m' = subd m /\ sk m' = sk m /\ us m' = us m /\ owed m' = owed m /\
    cnt3 m' = (S (credit m 0), npull m 0, S (ndata m 0)).
  Proof.
    intros -> [] Hn Hk Hc. fields. rewrite Hk, (nested_check Hn).
    assert (E : c14 p && (npull m 0 <=? ndata m 0) = false).
    { destruct (c14 p); [|reflexivity]. cbn. apply Nat.leb_gt. auto. }
    rewrite E. cbn. repeat split; auto.
  Qed.

  Lemma pcall_term m m' : m' = settle m (CDn 0 DT) -> pbase None m -> not_nested p m ->
    sk m 0 = SLive ->
    pbase None m' /\ subd m' = subd m /\ sk m' 0 = SFinished /\ us m' = us m /\
    owed m' = owed m /\ cnt3 m' = cnt3 m.
  Proof.
    intros -> [] Hn Hk. fields. rewrite Hk, (nested_check Hn), pb_due0. cbn.
    repeat split; auto.
  Qed.

  Lemma pcall_error m m' e : m' = settle m (CDn 0 (DE e)) -> pbase (Some e) m ->
    not_nested p m -> sk m 0 = SLive ->
    pbase None m' /\ subd m' = subd m /\ sk m' 0 = SFinished /\ us m' = us m /\
    owed m' = owed m /\ cnt3 m' = cnt3 m.
  Proof.
    intros -> [] Hn Hk. fields.
    rewrite Hk, (nested_check Hn), (pb_sent0 e eq_refl), pb_due0. cbn. rewrite Nat.eqb_refl. cbn.
    repeat split; auto. discriminate.
  Qed.

  (** the activation ends; if no call is pending the monitor looks at all the ports *)
  Lemma pcall_done m m' : m' = ms_settle p o m [] ARet -> pbase None m ->
    (cstack m = [] -> sk_over (sk m 0) = true -> forall i, us m i <> ULive) ->
    (cstack m = [] -> c14 p = true -> sk m 0 = SLive ->
     (forall i, In i (ports m) -> owed m i = 0) -> npull m 0 = ndata m 0) ->
    m' = m.
  Proof.
    intros -> B H1 H2. rewrite ms_settle_ret. destruct (cstack m); [|reflexivity].
    rewrite quiescent_nil; [reflexivity | | |].
    - intros _ Ho i _. specialize (H1 eq_refl Ho i). now destruct (us m i).
    - intros [|s]; apply B.
    - intros Hc Hl Hall. now apply H2.
  Qed.
End Ports.

(** with one sink and no refusing nursery, the only subscription is [ISub 0 0], at top level, once *)
Lemma en_sub_std p o (c : cfg o) s aux :
  nsinks p = 1 -> enabled p g_std c (MIn (ISub s aux)) = true ->
  s = 0 /\ aux = 0 /\ stack c = [] /\ subd (ms c) 0 = false.
Proof.
  intros Hns He. destruct (en_sub _ _ _ _ _ He) as (Hst & Hs & Hsub). rewrite Hns in Hs.
  apply Nat.lt_1_r in Hs. subst s. pose proof (en_guard _ _ _ _ He) as Hg.
  destruct aux; [auto | discriminate].
Qed.

(** the operators proper have nothing to do with the nursery *)
Notation obase used := (pbase used (fun _ => false) (fun _ => None)).

Lemma pbase0 used : obase used None ms0.
Proof. constructor; cbn; auto; try discriminate; tauto. Qed.

(** A step in two halves, with the names the invariant proofs use.  [step_eqs E]: [E] (from
    [en_step_in] or [en_step_ret]) gives the components [Ec Es Em Ed] of the new configuration;
    the monitor state after the input becomes a variable [m1], with [Em1 : m1 = ..].
    [env_half L] names what the [pin_*] lemma [L] (about [Em1]) says of [m1]: [B1] the base,
    [S1 K1 U1 O1 C1] what became of [subd sk us owed cnt3]; [Em1] is forgotten.
    [op_half L] does the same for the [pcall_*] lemma [L] (about [Em]) and the new
    configuration's state.  [done_half L] is for an activation that returns ([L] is
    [pcall_done]): the new state is [m1], and is put for it everywhere.
    Side conditions that [L] is not given are left to prove. *)
Tactic Notation "step_eqs" constr(E) :=
  destruct E as (Ec & Es & Em & Ed);
  match type of Em with _ = ms_settle _ _ ?m _ _ => remember m as m1 eqn:Em1 in Em end.
Tactic Notation "env_half" constr(L) :=
  destruct L as (B1 & S1 & K1 & U1 & O1 & C1);
  [.. | match goal with H : _ = mon_input _ _ _ |- _ => clear H
                      | H : _ = mon_event _ _ ERet |- _ => clear H end].
Tactic Notation "op_half" constr(L) := destruct L as (B2 & S2 & K2 & U2 & O2 & C2).
Tactic Notation "done_half" uconstr(L) :=
  match goal with E : _ = ms_settle _ _ ?m [] _ |- _ =>
    eapply L in E; [subst m | eassumption | ..] end.

(** what is known of the sink, the upstreams and what they owe, put into the goal *)
Ltac rw_ports :=
  repeat match goal with
         | H : subd _ = _ |- _ => rewrite H
         | H : subd _ _ = _ |- _ => rewrite H
         | H : sk _ = _ |- _ => rewrite H
         | H : sk _ _ = _ |- _ => rewrite H
         | H : us _ = _ |- _ => rewrite H
         | H : us _ _ = _ |- _ => rewrite H
         | H : owed _ = _ |- _ => rewrite H
         end; rewrite ?upd_same.

(** the three counters of every monitor state at hand, one equation each *)
Ltac cnts :=
  repeat match goal with
         | H : cnt3 _ = _ |- _ => apply cnt3_eq in H; destruct H as (? & ? & ?)
         end.
