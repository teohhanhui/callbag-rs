(** * PipeCorrect: the lazy pull interpreter of [Pipe] computes the list
      function of the pipeline (finite inputs).

    Method: a representation invariant [Rep stages_rev ss pos rest N] - "from
    this state the chain still has exactly the list [rest] to deliver, the
    input iterator has been advanced at most [length xs + 1] times, and [N]
    units of fuel are enough for every demand from now on".  One demand
    ([pull]) delivers the head of [rest] and re-establishes the invariant for
    the tail ([pull_ok]); [drain] follows by induction on [rest]; the initial
    state represents [sem p xs] ([Rep_init]). *)

From Coq Require Import List Arith Bool Lia PeanoNat.
From CB Require Import Pipe.
Import ListNotations.

(** ** The explicit fuel bound

    [fuel_bound p xs = 1 + sum over the proper prefixes q of p of
    (length (sem q xs) + 1)]: a demand on stage number i recurses at most
    once per remaining item of its upstream (re-requests of filter / skip /
    flat-map) plus once, and the upstream's own need is added (fuel is a
    recursion DEPTH, so the needs add up, they do not multiply). *)
Fixpoint fuel_bound (p : list stage) (l : list nat) : nat :=
  match p with
  | [] => 1
  | s :: p' => S (length l) + fuel_bound p' (sem1 s l)
  end.

Lemma sem_app : forall p q l, sem (p ++ q) l = sem q (sem p l).
Proof. intros. unfold sem. apply fold_left_app. Qed.

Lemma fuel_bound_app : forall p s l,
  fuel_bound (p ++ [s]) l = fuel_bound p l + length (sem p l) + 1.
Proof.
  induction p as [|a p IH]; intros s l.
  - simpl. lia.
  - simpl app. simpl fuel_bound. rewrite IH. unfold sem. simpl fold_left. lia.
Qed.

Lemma skipn_cons_inv : forall pos (l : list nat) x r,
  skipn pos l = x :: r ->
  nth_error l pos = Some x /\ skipn (S pos) l = r /\ S pos <= length l.
Proof.
  induction pos as [|pos IH]; intros l x r H; destruct l as [|a l]; try discriminate.
  - simpl in H. inversion H; subst. simpl. repeat split. lia.
  - change (skipn pos l = x :: r) in H. apply IH in H. destruct H as (H1 & H2 & H3).
    change (nth_error l pos = Some x /\ skipn (S pos) l = r /\ S (S pos) <= S (length l)).
    repeat split; auto. lia.
Qed.

Lemma skipn_nil_inv : forall pos (l : list nat), skipn pos l = [] -> length l <= pos.
Proof.
  intros pos l H. pose proof (skipn_length pos l) as HL. rewrite H in HL. simpl in HL. lia.
Qed.

Section Correct.
  Variable xs : list nat.
  Local Notation it := (iter_nat xs None).

  (** what a live stage still has to deliver, given what its upstream has *)
  Definition srel (s : stage) (st : sst) (ru rest : list nat) : Prop :=
    match s, st with
    | StMap a b, _ => rest = map (affn a b) ru
    | StFilter m r, _ => rest = filter (condn m r) ru
    | StScan k _, SsAcc acc => rest = scanl k acc ru
    | StTake n, SsCount c => rest = firstn (n - c) ru
    | StSkip n, SsCount c => rest = skipn (n - c) ru
    | StAppend _, SsPhase false ys => rest = ru ++ ys
    | StPrepend _, SsPhase false ys => rest = ys ++ ru
    | StPrepend _, SsPhase true _ => rest = ru
    | StFlatMap m, SsInner cur => rest = cur ++ flat_map (inner m) ru
    | _, _ => False
    end.

  (** the states in which a stage never asks its upstream again (the upstream
      may have been observed at its end: nothing is claimed about it) *)
  Definition sdead (s : stage) (st : sst) (rest : list nat) : Prop :=
    match s, st with
    | StAppend _, SsPhase true ys => rest = ys
    | _, _ => False
    end.

  Fixpoint Rep (stages_rev : list stage) (ss : list sst) (pos : nat) (rest : list nat) (N : nat)
    {struct stages_rev} : Prop :=
    match stages_rev with
    | [] => pos <= length xs /\ rest = skipn pos xs /\ 1 <= N
    | s :: up =>
        match ss with
        | [] => False
        | st :: ss_up =>
            (exists ru Nu, Rep up ss_up pos ru Nu /\ Nu + length ru + 1 <= N /\ srel s st ru rest)
            \/ (sdead s st rest /\ pos <= S (length xs) /\ 1 <= N)
        end
    end.

  Lemma Rep_N_pos : forall stages ss pos rest N, Rep stages ss pos rest N -> 1 <= N.
  Proof.
    intros stages ss pos rest N H. destruct stages as [|s up]; simpl in H.
    - lia.
    - destruct ss as [|st ss_up]; [contradiction|].
      destruct H as [(ru & Nu & _ & H & _) | (_ & _ & H)]; lia.
  Qed.

  Lemma Rep_mono : forall stages ss pos rest N N',
    Rep stages ss pos rest N -> N <= N' -> Rep stages ss pos rest N'.
  Proof.
    intros stages ss pos rest N N' H HN. destruct stages as [|s up]; simpl in *.
    - intuition lia.
    - destruct ss as [|st ss_up]; [contradiction|].
      destruct H as [(ru & Nu & H1 & H2 & H3) | (H1 & H2 & H3)].
      + left. exists ru, Nu. repeat split; auto. lia.
      + right. repeat split; auto. lia.
  Qed.

  Lemma Rep_pos : forall stages ss pos rest N,
    Rep stages ss pos rest N -> pos <= S (length xs).
  Proof.
    induction stages as [|s up IH]; intros ss pos rest N H; simpl in H.
    - lia.
    - destruct ss as [|st ss_up]; [contradiction|].
      destruct H as [(ru & Nu & H1 & _) | (_ & H & _)]; eauto.
  Qed.

  (** the outcome of one demand from a state representing [rest] *)
  Definition Post (stages : list stage) (rest : list nat) (N : nat)
             (res : option nat * list sst * nat) : Prop :=
    match res with
    | (r, ss', pos') =>
        match rest with
        | [] => r = None /\ pos' <= S (length xs)
        | x :: rest' => r = Some x /\ Rep stages ss' pos' rest' N
        end
    end.

  Lemma Post_mono : forall stages rest N N' res,
    Post stages rest N res -> N <= N' -> Post stages rest N' res.
  Proof.
    intros stages rest N N' [[r ss'] pos'] H HN. unfold Post in *.
    destruct rest; auto. destruct H; split; auto. eapply Rep_mono; eauto.
  Qed.

  (** constructors of [Rep] for a non-empty chain *)
  Lemma Rep_live : forall s up st ss_up pos rest N ru Nu,
    Rep up ss_up pos ru Nu -> Nu + length ru + 1 <= N -> srel s st ru rest ->
    Rep (s :: up) (st :: ss_up) pos rest N.
  Proof. intros. simpl. left. exists ru, Nu. auto. Qed.

  Lemma Rep_dead : forall s up st ss_up pos rest N,
    sdead s st rest -> pos <= S (length xs) -> 1 <= N ->
    Rep (s :: up) (st :: ss_up) pos rest N.
  Proof. intros. simpl. right. auto. Qed.

  Lemma pull_ok : forall fuel stages ss pos rest N,
    Rep stages ss pos rest N -> N <= fuel ->
    Post stages rest N (pull it fuel stages ss pos).
  Proof.
    induction fuel as [|f IH]; intros stages ss pos rest N HR HN.
    { apply Rep_N_pos in HR. lia. }
    destruct stages as [|s up].
    - (* the input iterator *)
      simpl in HR. destruct HR as (Hp & Hr & H1). simpl. unfold iter_nat.
      destruct rest as [|x rest'].
      + symmetry in Hr. apply skipn_nil_inv in Hr.
        assert (E : nth_error xs pos = None) by (apply nth_error_None; lia).
        rewrite E. split; auto. lia.
      + symmetry in Hr. apply skipn_cons_inv in Hr. destruct Hr as (E & Hs & Hl).
        rewrite E. split; [reflexivity|]. simpl. repeat split; auto; lia.
    - destruct ss as [|st ss_up]; [simpl in HR; contradiction|].
      simpl in HR.
      destruct HR as [(ru & Nu & HU & HNu & Hrel) | (Hd & Hp & H1)].
      + (* live stage *)
        assert (HIH := IH up ss_up pos ru Nu HU ltac:(lia)).
        assert (HposU := Rep_pos _ _ _ _ _ HU).
        destruct s as [a b|m r0|k seed|n|n|zs|zs|m].
        * (* map *)
          simpl in Hrel; subst rest. simpl pull.
          destruct (pull it f up ss_up pos) as [[r ss'] pos'].
          destruct ru as [|x ru']; simpl in HIH, HNu; destruct HIH as [-> HIH].
          -- simpl. auto.
          -- split; [reflexivity|]. eapply Rep_live; eauto; [lia|reflexivity].
        * (* filter *)
          simpl in Hrel; subst rest. simpl pull.
          destruct (pull it f up ss_up pos) as [[r ss'] pos'].
          destruct ru as [|x ru']; simpl in HIH, HNu; destruct HIH as [-> HIH].
          -- simpl. auto.
          -- simpl filter. destruct (condn m r0 x).
             ++ split; [reflexivity|]. eapply Rep_live; eauto; [lia|reflexivity].
             ++ eapply Post_mono; [apply IH with (N := N - 1)|lia]; [|lia].
                eapply Rep_live; eauto; [lia|reflexivity].
        * (* scan *)
          destruct st as [|acc|c|[|] ys|cur]; simpl in Hrel; try contradiction; subst rest.
          simpl pull.
          destruct (pull it f up ss_up pos) as [[r ss'] pos'].
          destruct ru as [|x ru']; simpl in HIH, HNu; destruct HIH as [-> HIH].
          -- simpl. auto.
          -- simpl scanl. split; [reflexivity|]. eapply Rep_live; eauto; [lia|reflexivity].
        * (* take *)
          destruct st as [|acc|c|[|] ys|cur]; simpl in Hrel; try contradiction; subst rest.
          simpl pull. destruct (n <=? c) eqn:E.
          -- apply Nat.leb_le in E. replace (n - c) with 0 by lia. simpl. auto.
          -- apply Nat.leb_gt in E.
             destruct (pull it f up ss_up pos) as [[r ss'] pos'].
             destruct ru as [|x ru']; simpl in HIH, HNu; destruct HIH as [-> HIH].
             ++ rewrite firstn_nil. simpl. auto.
             ++ replace (n - c) with (S (n - S c)) by lia. simpl firstn.
                split; [reflexivity|]. eapply Rep_live; eauto; [lia|reflexivity].
        * (* skip *)
          destruct st as [|acc|c|[|] ys|cur]; simpl in Hrel; try contradiction; subst rest.
          simpl pull.
          destruct (pull it f up ss_up pos) as [[r ss'] pos'].
          destruct ru as [|x ru']; simpl in HIH, HNu; destruct HIH as [-> HIH].
          -- rewrite skipn_nil. simpl. auto.
          -- destruct (c <? n) eqn:E.
             ++ apply Nat.ltb_lt in E. replace (n - c) with (S (n - S c)) by lia.
                change (skipn (S (n - S c)) (x :: ru')) with (skipn (n - S c) ru').
                eapply Post_mono; [apply IH with (N := N - 1)|lia]; [|lia].
                eapply Rep_live; eauto; [lia|reflexivity].
             ++ apply Nat.ltb_ge in E. replace (n - c) with 0 by lia. simpl skipn.
                split; [reflexivity|]. eapply Rep_live; eauto; [lia|].
                simpl. replace (n - c) with 0 by lia. reflexivity.
        * (* append, first member *)
          destruct st as [|acc|c|[|] ys|cur]; simpl in Hrel; try contradiction; subst rest.
          simpl pull.
          destruct (pull it f up ss_up pos) as [[r ss'] pos'].
          destruct ru as [|x ru']; simpl in HIH, HNu; destruct HIH as [-> HIH]; simpl app.
          -- destruct ys as [|y ys'].
             ++ simpl. auto.
             ++ split; [reflexivity|]. apply Rep_dead; [reflexivity|assumption|lia].
          -- split; [reflexivity|]. eapply Rep_live; eauto; [lia|reflexivity].
        * (* prepend *)
          destruct st as [|acc|c|[|] ys|cur]; simpl in Hrel; try contradiction; subst rest.
          -- (* second member *)
             simpl pull.
             destruct (pull it f up ss_up pos) as [[r ss'] pos'].
             destruct ru as [|x ru']; simpl in HIH, HNu; destruct HIH as [-> HIH].
             ++ simpl. auto.
             ++ split; [reflexivity|]. eapply Rep_live; eauto; [lia|reflexivity].
          -- (* first member *)
             simpl pull. destruct ys as [|y ys']; simpl app.
             ++ destruct (pull it f up ss_up pos) as [[r ss'] pos'].
                destruct ru as [|x ru']; simpl in HIH, HNu; destruct HIH as [-> HIH].
                ** simpl. auto.
                ** split; [reflexivity|]. eapply Rep_live; eauto; [lia|reflexivity].
             ++ split; [reflexivity|]. eapply Rep_live; [exact HU|lia|reflexivity].
        * (* flat-map *)
          destruct st as [|acc|c|[|] ys|cur]; simpl in Hrel; try contradiction; subst rest.
          simpl pull. destruct cur as [|y cur']; simpl app.
          -- destruct (pull it f up ss_up pos) as [[r ss'] pos'].
             destruct ru as [|x ru']; simpl in HIH, HNu; destruct HIH as [-> HIH].
             ++ simpl. auto.
             ++ simpl flat_map.
                eapply Post_mono; [apply IH with (N := N - 1)|lia]; [|lia].
                eapply Rep_live; eauto; [lia|reflexivity].
          -- split; [reflexivity|]. eapply Rep_live; [exact HU|lia|reflexivity].
      + (* append, second member: the upstream is never asked again *)
        destruct s as [a b|m r0|k seed|n|n|zs|zs|m];
          destruct st as [|acc|c|[|] ys|cur]; simpl in Hd; try contradiction; subst rest.
        simpl pull. destruct ys as [|y ys'].
        * simpl. auto.
        * split; [reflexivity|]. apply Rep_dead; [reflexivity|assumption|lia].
  Qed.

  (** ** for_each: all the demands *)
  Lemma drain_ok : forall rest demands fuel stages ss pos N,
    Rep stages ss pos rest N -> N <= fuel -> length rest < demands ->
    exists pos', drain it demands fuel stages ss pos = (rest, pos', true)
                 /\ pos' <= S (length xs).
  Proof.
    induction rest as [|x rest IH]; intros demands fuel stages ss pos N HR HN HD;
      (destruct demands as [|d]; [simpl in HD; lia|]);
      pose proof (pull_ok fuel stages ss pos _ N HR HN) as HP;
      simpl drain; destruct (pull it fuel stages ss pos) as [[r ss'] pos'];
      simpl in HP; destruct HP as [-> HP].
    - eauto.
    - simpl in HD.
      destruct (IH d fuel stages ss' pos' N HP HN ltac:(lia)) as (p' & -> & Hp').
      eauto.
  Qed.

  (** ** The initial state represents the list function of the pipeline *)
  Lemma Rep_init : forall p,
    Rep (rev p) (rev (map init_sst p)) 0 (sem p xs) (fuel_bound p xs).
  Proof.
    induction p as [|s p IH] using rev_ind.
    - simpl. repeat split; lia.
    - rewrite map_app, !rev_app_distr, sem_app, fuel_bound_app. simpl rev. simpl app.
      eapply Rep_live; [exact IH|lia|].
      destruct s; simpl; try reflexivity.
      + rewrite Nat.sub_0_r. reflexivity.
      + rewrite Nat.sub_0_r. reflexivity.
  Qed.

End Correct.

(** ** The theorem: explicit bounds [D = S (length (sem p xs))] demands and
       [F = fuel_bound p xs] fuel *)
Theorem run_pipe_correct_explicit : forall p xs demands fuel,
  S (length (sem p xs)) <= demands -> fuel_bound p xs <= fuel ->
  exists pos, run_pipe p xs None demands fuel = (sem p xs, pos, true) /\ pos <= S (length xs).
Proof.
  intros p xs demands fuel HD HF. unfold run_pipe.
  eapply drain_ok; [apply Rep_init|exact HF|lia].
Qed.
Print Assumptions run_pipe_correct_explicit.

Theorem run_pipe_correct : forall p xs, exists D F, forall demands fuel, D <= demands -> F <= fuel ->
  exists pos, run_pipe p xs None demands fuel = (sem p xs, pos, true) /\ pos <= S (length xs).
Proof.
  intros p xs. exists (S (length (sem p xs))), (fuel_bound p xs).
  intros. apply run_pipe_correct_explicit; assumption.
Qed.
Print Assumptions run_pipe_correct.

(** * Unbounded inputs

    [pull] reads the input iterator only at the positions it advances over,
    so two iterators that agree below the final position give the same run.
    With [run_pipe_correct_explicit] on a finite prefix of the input this
    gives the behaviour over an unbounded input whenever the run never
    observes the end of that prefix - in particular for pipelines cut by a
    [take] that sits on the source behind stages that ask their upstream at
    most once per demand. *)

Ltac destruct_matches :=
  repeat match goal with
         | |- context [match ?x with _ => _ end] =>
             lazymatch x with
             | pull _ _ _ _ _ => fail
             | _ => destruct x
             end
         end.

Ltac dstage s st :=
  destruct s as [?a ?b|?m ?r0|?k ?seed|?n|?n|?zs|?zs|?m];
  destruct st as [|?acc|?c|[|] ?ys|?cur].

Lemma pull_mono : forall it fuel stages ss pos, pos <= snd (pull it fuel stages ss pos).
Proof.
  intros it. induction fuel as [|f IH]; intros stages ss pos; [simpl; lia|].
  destruct stages as [|s up]; [simpl; lia|].
  destruct ss as [|st ss]; [simpl; lia|].
  pose proof (IH up ss pos) as H1.
  dstage s st; simpl pull; try (simpl; lia).
  all: destruct (pull it f up ss pos) as [[r ss'] pos']; simpl in H1.
  all: destruct_matches; simpl snd; try lia.
  all: match goal with
       | |- _ <= snd (pull ?i ?f0 ?stg ?s0 ?p) => pose proof (IH stg s0 p); lia
       end.
Qed.

Lemma drain_mono : forall it n fuel stages ss pos,
  pos <= snd (fst (drain it n fuel stages ss pos)).
Proof.
  intros it. induction n as [|n IH]; intros fuel stages ss pos; [simpl; lia|].
  simpl drain. pose proof (pull_mono it fuel stages ss pos) as H1.
  destruct (pull it fuel stages ss pos) as [[r ss'] pos']; simpl in H1.
  destruct r as [x|]; [|simpl; lia].
  pose proof (IH fuel stages ss' pos') as H2.
  destruct (drain it n fuel stages ss' pos') as [[l p] d]. simpl in *. lia.
Qed.

Lemma pull_agree : forall it1 it2 B, (forall k, k < B -> it1 k = it2 k) ->
  forall fuel stages ss pos, snd (pull it1 fuel stages ss pos) <= B ->
  pull it2 fuel stages ss pos = pull it1 fuel stages ss pos.
Proof.
  intros it1 it2 B HA. induction fuel as [|f IH]; intros stages ss pos Hle; [reflexivity|].
  destruct stages as [|s up].
  { simpl in *. rewrite HA by lia. reflexivity. }
  destruct ss as [|st ss]; [reflexivity|].
  pose proof (IH up ss pos) as H1.
  dstage s st; simpl pull in *; try reflexivity.
  all: destruct_matches; try reflexivity.
  all: destruct (pull it1 f up ss pos) as [[r ss'] pos']; simpl in H1.
  all: assert (Hp : pos' <= B)
    by (clear H1;
        repeat match type of Hle with
               | context [match ?x with _ => _ end] => destruct x
               end;
        simpl in Hle; try lia;
        match type of Hle with
        | snd (pull ?i ?f0 ?stg ?s0 ?p) <= _ => pose proof (pull_mono i f0 stg s0 p); lia
        end).
  all: rewrite (H1 Hp); cbv beta iota.
  all: destruct_matches; try reflexivity.
  all: apply IH; exact Hle.
Qed.

Lemma drain_agree : forall it1 it2 B, (forall k, k < B -> it1 k = it2 k) ->
  forall n fuel stages ss pos, snd (fst (drain it1 n fuel stages ss pos)) <= B ->
  drain it2 n fuel stages ss pos = drain it1 n fuel stages ss pos.
Proof.
  intros it1 it2 B HA. induction n as [|n IH]; intros fuel stages ss pos Hle; [reflexivity|].
  simpl drain in *.
  pose proof (pull_agree it1 it2 B HA fuel stages ss pos) as H1.
  destruct (pull it1 fuel stages ss pos) as [[r ss'] pos']; simpl in H1.
  assert (Hp : pos' <= B).
  { destruct r as [x|]; [|simpl in Hle; lia].
    pose proof (drain_mono it1 n fuel stages ss' pos') as Hm.
    destruct (drain it1 n fuel stages ss' pos') as [[l p] d]. simpl in *. lia. }
  rewrite (H1 Hp). destruct r as [x|]; [|reflexivity].
  rewrite IH; [reflexivity|].
  destruct (drain it1 n fuel stages ss' pos') as [[l p] d]. simpl in *. exact Hle.
Qed.

(** the unbounded iterator [xs, base, base+1, ..] and its finite prefix
    [xs ++ seq base k] agree on the first [length xs + k] positions *)
Lemma iter_nat_prefix : forall xs base k j, j < length xs + k ->
  iter_nat (xs ++ seq base k) None j = iter_nat xs (Some base) j.
Proof.
  intros xs base k j Hj. unfold iter_nat.
  destruct (Nat.lt_ge_cases j (length xs)) as [Hlt|Hge].
  - rewrite nth_error_app1 by assumption.
    destruct (nth_error xs j) eqn:E; [reflexivity|].
    apply nth_error_None in E. lia.
  - rewrite nth_error_app2 by assumption.
    assert (E : nth_error xs j = None) by (apply nth_error_None; assumption).
    rewrite E.
    rewrite (nth_error_nth' (seq base k) 0) by (rewrite seq_length; lia).
    rewrite seq_nth by lia. reflexivity.
Qed.

(** prefix determinacy: a run over a finite prefix that never observes the
    end of the prefix is also the run over the unbounded input *)
Theorem run_pipe_prefix_agree : forall p xs base k demands fuel,
  snd (fst (run_pipe p (xs ++ seq base k) None demands fuel)) <= length xs + k ->
  run_pipe p xs (Some base) demands fuel = run_pipe p (xs ++ seq base k) None demands fuel.
Proof.
  intros p xs base k demands fuel H. unfold run_pipe in *.
  apply drain_agree with (B := length xs + k); [|exact H].
  intros j Hj. apply iter_nat_prefix. exact Hj.
Qed.
Print Assumptions run_pipe_prefix_agree.

(** ** Stages that ask their upstream at most once per demand *)
Definition oneshot (s : stage) : bool :=
  match s with
  | StMap _ _ | StScan _ _ | StTake _ | StAppend _ | StPrepend _ => true
  | StFilter _ _ | StSkip _ | StFlatMap _ => false
  end.

Lemma pull_le1 : forall it fuel stages ss pos, forallb oneshot stages = true ->
  snd (pull it fuel stages ss pos) <= S pos.
Proof.
  intros it. induction fuel as [|f IH]; intros stages ss pos Ho; [simpl; lia|].
  destruct stages as [|s up]; [simpl; lia|].
  destruct ss as [|st ss]; [simpl; lia|].
  simpl in Ho. apply andb_true_iff in Ho. destruct Ho as [Hs Ho].
  pose proof (IH up ss pos Ho) as H1.
  dstage s st; try discriminate Hs; simpl pull; try (simpl; lia).
  all: destruct (pull it f up ss pos) as [[r ss'] pos']; simpl in H1.
  all: destruct_matches; simpl snd; lia.
Qed.

(** ** Framing: what the outer stages do to an inner part of the chain is a
       sequence of demands on it *)
Definition frame_post (k : nat) (I : list sst -> nat -> Prop)
           (res : option nat * list sst * nat) : Prop :=
  match res with
  | (_, ss', pos') => exists so' si', ss' = so' ++ si' /\ length so' = k /\ I si' pos'
  end.

Lemma pull_frame : forall it inner (I : list sst -> nat -> Prop),
  (forall fuel ss pos, I ss pos ->
     I (snd (fst (pull it fuel inner ss pos))) (snd (pull it fuel inner ss pos))) ->
  forall fuel outer so si pos, length so = length outer -> I si pos ->
    frame_post (length outer) I (pull it fuel (outer ++ inner) (so ++ si) pos).
Proof.
  intros it inner I HI. induction fuel as [|f IH]; intros outer so si pos Hl Hi.
  { simpl. exists so, si. auto. }
  destruct outer as [|s outer].
  { destruct so; [|discriminate Hl]. simpl app.
    specialize (HI (S f) si pos Hi).
    destruct (pull it (S f) inner si pos) as [[r ss'] pos']. simpl in *.
    exists [], ss'. auto. }
  destruct so as [|st so]; [discriminate Hl|]. simpl in Hl. injection Hl as Hl.
  pose proof (IH outer so si pos Hl Hi) as H1.
  simpl app.
  assert (Hsame : frame_post (length (s :: outer)) I (None, st :: so ++ si, pos)).
  { exists (st :: so), si. simpl. auto. }
  dstage s st; simpl pull; try exact Hsame.
  all: destruct (pull it f (outer ++ inner) (so ++ si) pos) as [[r ss'] pos'];
       simpl in H1; destruct H1 as (so1 & si1 & -> & Hl1 & Hi1).
  all: destruct_matches.
  all: try solve [ exact Hsame
                 | eexists (_ :: _), _; split; [reflexivity|]; simpl; split; [congruence|eassumption]
                 | apply (IH (_ :: outer) (_ :: so1) si1 pos'); [simpl; congruence|assumption] ].
Qed.

Lemma drain_frame : forall it inner (I : list sst -> nat -> Prop),
  (forall fuel ss pos, I ss pos ->
     I (snd (fst (pull it fuel inner ss pos))) (snd (pull it fuel inner ss pos))) ->
  forall n fuel outer so si pos, length so = length outer -> I si pos ->
    exists si', I si' (snd (fst (drain it n fuel (outer ++ inner) (so ++ si) pos))).
Proof.
  intros it inner I HI. induction n as [|n IH]; intros fuel outer so si pos Hl Hi.
  { simpl. eauto. }
  simpl drain.
  pose proof (pull_frame it inner I HI fuel outer so si pos Hl Hi) as H1.
  destruct (pull it fuel (outer ++ inner) (so ++ si) pos) as [[r ss'] pos'].
  simpl in H1. destruct H1 as (so1 & si1 & -> & Hl1 & Hi1).
  destruct r as [x|]; [|simpl; eauto].
  destruct (IH fuel outer so1 si1 pos' ltac:(congruence) Hi1) as (si2 & H2).
  destruct (drain it n fuel (outer ++ inner) (so1 ++ si1) pos') as [[l p] d].
  simpl in *. eauto.
Qed.

(** ** A [take n] behind one-shot stages: the input is advanced at most [n]
       times, whatever the iterator, the later stages, the demands, the fuel *)
Definition take_inv (n : nat) (ss : list sst) (pos : nat) : Prop :=
  pos <= n /\ exists c ssu, ss = SsCount c :: ssu /\ (c < n -> pos <= c).

Lemma take_inv_pull : forall it n up, forallb oneshot up = true ->
  forall fuel ss pos, take_inv n ss pos ->
    take_inv n (snd (fst (pull it fuel (StTake n :: up) ss pos)))
               (snd (pull it fuel (StTake n :: up) ss pos)).
Proof.
  intros it n up Ho fuel ss pos (Hn & c & ssu & -> & Hc).
  destruct fuel as [|f]; simpl pull.
  { simpl. split; eauto. }
  destruct (n <=? c) eqn:E.
  { simpl. split; eauto. }
  apply Nat.leb_gt in E.
  pose proof (pull_le1 it f up ssu pos Ho) as H1.
  destruct (pull it f up ssu pos) as [[r ss'] pos']. simpl in H1.
  destruct r as [x|]; simpl.
  - split; [lia|]. exists (S c), ss'. split; [reflexivity|]. lia.
  - split; [lia|]. exists n, ss'. split; [reflexivity|]. lia.
Qed.

Theorem run_pipe_take_bound : forall p1 n p2 xs inf demands fuel,
  forallb oneshot p1 = true ->
  snd (fst (run_pipe (p1 ++ StTake n :: p2) xs inf demands fuel)) <= n.
Proof.
  intros p1 n p2 xs inf demands fuel Ho. unfold run_pipe.
  rewrite map_app. simpl map. rewrite !rev_app_distr. simpl rev. rewrite <- !app_assoc.
  simpl app.
  destruct (drain_frame (iter_nat xs inf) (StTake n :: rev p1) (take_inv n)) with
    (n := demands) (fuel := fuel) (outer := rev p2) (so := rev (map init_sst p2))
    (si := SsCount 0 :: rev (map init_sst p1)) (pos := 0) as (si' & Hn & _).
  - apply take_inv_pull. rewrite forallb_forall in *. intros s Hs. apply Ho.
    apply in_rev. exact Hs.
  - rewrite !rev_length, map_length. reflexivity.
  - split; [lia|]. eexists _, _. split; [reflexivity|]. lia.
  - exact Hn.
Qed.
Print Assumptions run_pipe_take_bound.

(** ** The unbounded-input corollary for pipelines cut by such a [take] *)
Theorem run_pipe_take_unbounded : forall p1 n p2 xs base k demands fuel,
  forallb oneshot p1 = true -> n <= length xs + k ->
  let p := p1 ++ StTake n :: p2 in
  let xs' := xs ++ seq base k in
  S (length (sem p xs')) <= demands -> fuel_bound p xs' <= fuel ->
  exists pos, run_pipe p xs (Some base) demands fuel = (sem p xs', pos, true) /\ pos <= n.
Proof.
  intros p1 n p2 xs base k demands fuel Ho Hk p xs' HD HF.
  pose proof (run_pipe_take_bound p1 n p2 xs' None demands fuel Ho) as Hb.
  fold p in Hb.
  rewrite run_pipe_prefix_agree with (k := k); fold xs'; [|lia].
  destruct (run_pipe_correct_explicit p xs' demands fuel HD HF) as (pos & E & _).
  rewrite E in *. simpl in Hb. eauto.
Qed.
Print Assumptions run_pipe_take_unbounded.
