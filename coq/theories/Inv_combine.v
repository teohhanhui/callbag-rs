(** * Inv_combine: the invariant of combine, for every arity n >= 1 *)
From CB Require Import ProofLib Spec MonitorFacts CountFacts.

Set Implicit Arguments.

(** the four kinds of violation combine is known to commit (known findings) *)
Definition known_combine (v : vkind) : Prop :=
  match v with
  | VErrLost _ | VPullAfterEnd _ | VStopAfterEnd _ | VPullAfterStop _ => True
  | _ => False
  end.

Lemma cb_tuple_some vals k :
  (forall j, j < k -> vals j <> None) -> exists l, cb_tuple vals k = Some l.
Proof.
  induction k as [|k IH]; cbn; intros H; [now exists []|].
  destruct IH as (l & ->); [intros; apply H; lia|].
  destruct (vals k) as [v|] eqn:E; [|exfalso; apply (H k); [lia|exact E]].
  now exists (l ++ [v]).
Qed.

Lemma cb_tuple_spec vals k l :
  cb_tuple vals k = Some l -> length l = k /\ forall j, j < k -> nth_error l j = vals j.
Proof.
  revert l. induction k as [|k IH]; cbn; intros l H.
  - inversion H; subst. split; [reflexivity|]. intros; lia.
  - destruct (cb_tuple vals k) as [l0|] eqn:E0; [|discriminate].
    destruct (vals k) as [v|] eqn:Ev; [|discriminate].
    inversion H; subst. destruct (IH l0 eq_refl) as [Hlen Hnth].
    split; [rewrite app_length; cbn; lia|].
    intros j Hj. destruct (Nat.eq_dec j k) as [->|Hne].
    + rewrite nth_error_app2 by lia. rewrite Hlen, Nat.sub_diag. cbn. now rewrite Ev.
    + rewrite nth_error_app1 by lia. apply Hnth. lia.
Qed.

(** the most recent payload member [j] sent, over a trace given latest first
    ([rtrace c], of which [trace c] is the reversal) *)
Fixpoint latest (j : nat) (rtr : list event) : option val :=
  match rtr with
  | [] => None
  | EIn (IDn i (DD v)) :: r => if Nat.eqb i j then Some v else latest j r
  | _ :: r => latest j r
  end.

Definition nodata (e : event) : Prop :=
  match e with EIn (IDn _ (DD _)) => False | _ => True end.

Lemma latest_skip j e r : nodata e -> latest j (e :: r) = latest j r.
Proof. destruct e as [[s a|s u|i [|v|x|]|s]|c| | |ob|]; try reflexivity. intros []. Qed.

Definition greetedb (u : uss) : bool :=
  match u with UNone | USubd => false | _ => true end.
Definition endedb (u : uss) : bool :=
  match u with UEnded => true | _ => false end.
Definition is_some A (x : option A) : bool :=
  match x with Some _ => true | None => false end.
Definition endedf (U : nat -> uss) (k : nat) : bool := endedb (U k).
Definition hasval (vals : nat -> option val) (k : nat) : bool := is_some (vals k).

(** a member's status changes, neither from nor to [UNone] *)
Lemma unone_upd (U : nat -> uss) ns i x :
  (forall k, U k = UNone <-> ns <= k) -> U i <> UNone -> x <> UNone ->
  forall k, upd U i x k = UNone <-> ns <= k.
Proof.
  intros H Hi Hx k. unfold upd. destruct (Nat.eqb_spec k i); subst; [|apply H].
  split; [intros E; now destruct Hx|]. intros L. now apply H in L.
Qed.

Lemma notstopped_upd {U : nat -> uss} i {x} :
  (forall k, U k <> UStopped) -> x <> UStopped -> forall k, upd U i x k <> UStopped.
Proof. intros H Hx k. unfold upd. destruct (Nat.eqb k i); auto. Qed.

Section CombineInv.
  Variable n : nat.
  Hypothesis Hn : 1 <= n.
  Variable p : mparams.
  Hypothesis Hns : nsinks p = 1.
  Hypothesis Hresub : resub p = false.
  Hypothesis Hnonest : no_nest p = false.
  Hypothesis Hc14 : c14 p = false.
  Let o := combine_op n.
  Notation gc := g_std.

  (** frames that may sit on the stack outside a stop broadcast; with no call pending,
      either no member is subscribed yet or all are: the subscription sequence, at the
      bottom, is one activation *)
  Fixpoint stk_ok (ns : nat) (g : bool) (st : list (cb_fr * call)) : Prop :=
    match st with
    | [] => ns = 0 \/ n <= ns
    | (CbDone, _) :: r => stk_ok ns g r
    | (CbSub j, _) :: r => j = ns /\ r = []
    | (CbBcast u _, _) :: r => u = UP /\ g = true /\ stk_ok ns g r
    end.

  Lemma stk_ok_g ns st : stk_ok ns false st -> stk_ok ns true st.
  Proof.
    induction st as [|[[|j|u j] cl] r IH]; cbn; auto.
    intros (_ & H & _). discriminate.
  Qed.

  Lemma stk_ok_tl {ns g k cl r} :
    (forall j, k = CbSub j -> n <= j) -> stk_ok ns g ((k, cl) :: r) -> stk_ok ns g r.
  Proof.
    intros Hj. destruct k as [|j|u j]; cbn; auto.
    - intros [<- ->]. right. now apply Hj.
    - tauto.
  Qed.

  (** the sink has been greeted *)
  Definition grt (m : mstate) : bool :=
    match sk m 0 with SNone => false | _ => true end.
  (** members subscribed so far *)
  Definition nsub (m : mstate) : nat := length (ports m).

  (** before, during and after the one stop broadcast the sink can cause *)
  Inductive phase (m : mstate) (st : list (cb_fr * call)) : Prop :=
  | PhRun :
      sk m 0 <> SDisposed -> stk_ok (nsub m) (grt m) st ->
      (forall k, us m k <> UStopped) -> phase m st
  | PhStopping u j r :
      sk m 0 = SDisposed -> st = (CbBcast u (S j), CUp j u) :: r ->
      umsg_is_term u = true -> j < n -> stk_ok (nsub m) true r ->
      (forall k, k < n -> (k <= j -> us m k = UStopped) /\ (j < k -> us m k <> UStopped)) ->
      phase m st
  | PhStopped :
      sk m 0 = SDisposed -> stk_ok (nsub m) true st ->
      (forall k, k < n -> us m k = UStopped) -> phase m st.

  (** the members: the first [nsub] are subscribed; the cells of the talkbacks mirror who
      has greeted; the two countdowns count who has not greeted and who has not ended *)
  Record Memb (s : cb_st) (m : mstate) : Prop := {
    m_sk_other : forall t, t <> 0 -> sk m t = SNone;
    m_nsub : nsub m <= n;
    m_ports : forall i, In i (ports m) -> i < nsub m;
    m_unone : forall k, us m k = UNone <-> nsub m <= k;
    m_tbs : forall k, k < n -> cb_tbs s k = greetedb (us m k);
    m_nstart : cb_nstart s + count (cb_tbs s) n = n;
    m_skn : sk m 0 = SNone <-> cb_nstart s <> 0;
    m_nend : sk m 0 <> SDisposed -> cb_nend s + count (endedf (us m)) n = n;
    m_nend0 : sk m 0 <> SDisposed -> (cb_nend s = 0 <-> sk m 0 = SFinished);
  }.

  (** a call of a sink is a call of sink 0, and the message is the greeting, the tuple of
      the current values, or the Terminate that finishes the sink *)
  Definition last_ok (s : cb_st) (m : mstate) (a : event) : Prop :=
    match a with
    | ECall (CDn t d) =>
        t = 0 /\
        match d with
        | DH => True
        | DD x => exists l, x = VT l /\ cb_tuple (cb_vals s) n = Some l
        | DE _ => False
        | DT => sk m 0 = SFinished
        end
    | _ => True
    end.

  (** C10: the cells of the values against the trace [rt], latest event first *)
  Record Data (s : cb_st) (rt : list event) (m : mstate) : Prop := {
    d_vals : forall k, k < n -> cb_vals s k <> None -> cb_tbs s k = true;
    d_ndata : cb_ndata s + count (hasval (cb_vals s)) n = n;
    d_latest : forall j, cb_vals s j = latest j rt;
    d_last : match rt with a :: _ => last_ok s m a | [] => True end;
    d_mdata : 0 < ndata m 0 -> cb_ndata s = 0;
  }.

  Record Inv (c : cfg o) : Prop := {
    i_dead : dead c = false;
    i_viols : Forall known_combine (viols (ms c));
    i_task : forall t, task (ms c) t = false;
    i_memb : Memb (cst c) (ms c);
    i_data : Data (cst c) (rtrace c) (ms c);
    i_phase : phase (ms c) (stack c);
  }.

  Lemma inv0 : Inv (cfg0 o).
  Proof.
    constructor; cbn; auto.
    - constructor; cbn; auto; try (intros; lia); rewrite ?count_zero by reflexivity; try lia.
      + intros k. split; [lia|reflexivity].
      + split; [lia|reflexivity].
      + split; [lia|discriminate].
    - constructor; cbn; auto; try (intros; lia); try discriminate.
      rewrite count_zero by reflexivity. lia.
    - apply PhRun; cbn; auto; discriminate.
  Qed.

  Lemma M_same {s s' m m'} :
    Memb s m -> cb_nstart s' = cb_nstart s -> cb_nend s' = cb_nend s -> cb_tbs s' = cb_tbs s ->
    sk m' = sk m -> us m' = us m -> ports m' = ports m -> Memb s' m'.
  Proof.
    intros [] E1 E2 E3 E4 E5 E6.
    constructor; unfold nsub in *; rewrite ?E1, ?E2, ?E3, ?E4, ?E5, ?E6; auto.
  Qed.

  Lemma D_same {s rt m m'} :
    Data s rt m -> sk m' 0 = sk m 0 -> ndata m' 0 = ndata m 0 -> Data s rt m'.
  Proof.
    intros [] E1 E2. constructor; rewrite ?E2; auto.
    destruct rt as [|[i|[j|j u|t [|x|e|]]| | |ob|] r]; cbn in *; rewrite ?E1; auto.
  Qed.

  Lemma phase_same {m m' st} :
    phase m st -> sk m' 0 = sk m 0 -> us m' = us m -> ports m' = ports m -> phase m' st.
  Proof.
    intros H E1 E2 E3.
    destruct H as [H1 H2 H3|u j r H1 H2 H3 H4 H5 H6|H1 H2 H3];
      [apply PhRun|apply PhStopping with u j r|apply PhStopped];
      unfold nsub, grt in *; rewrite ?E1, ?E2, ?E3; auto.
  Qed.

  Lemma memb_lt {s m k} : Memb s m -> us m k <> UNone -> k < n.
  Proof.
    intros HM H. pose proof (m_nsub HM). destruct (le_lt_dec (nsub m) k) as [L|L]; [|lia].
    now apply (m_unone HM) in L.
  Qed.

  Lemma memb_greeted {s m} :
    Memb s m -> sk m 0 <> SNone -> cb_nstart s = 0 /\ forall k, k < n -> cb_tbs s k = true.
  Proof.
    intros HM H.
    assert (E : cb_nstart s = 0)
      by (destruct (cb_nstart s) eqn:E; [reflexivity|]; exfalso; apply H, (m_skn HM); lia).
    split; [exact E|]. apply count_full. pose proof (m_nstart HM). lia.
  Qed.

  Lemma memb_greeted_us {s m} :
    Memb s m -> sk m 0 <> SNone -> forall k, k < n -> greetedb (us m k) = true.
  Proof. intros HM H k Hk. rewrite <- (m_tbs HM Hk). now apply (memb_greeted HM). Qed.

  Lemma memb_skn_of {s m k} : Memb s m -> k < n -> cb_tbs s k = false -> sk m 0 = SNone.
  Proof.
    intros HM Hk H. apply (m_skn HM). pose proof (m_nstart HM).
    pose proof (count_lt (cb_tbs s) Hk H). lia.
  Qed.

  Lemma memb_ended {s m} : Memb s m -> sk m 0 = SFinished -> forall k, k < n -> us m k = UEnded.
  Proof.
    intros HM Hf k Hk. assert (Hnd : sk m 0 <> SDisposed) by congruence.
    pose proof (m_nend HM Hnd). apply (m_nend0 HM Hnd) in Hf.
    assert (E : endedf (us m) k = true) by (apply (@count_full (endedf (us m)) n); [lia|exact Hk]).
    unfold endedf in E. destruct (us m k); try discriminate; reflexivity.
  Qed.

  Lemma vals_full {vals nd} :
    nd + count (hasval vals) n = n -> nd = 0 -> forall j, j < n -> vals j <> None.
  Proof.
    intros H -> j Hj E. pose proof (count_full (hasval vals) H Hj) as F.
    unfold hasval in F. rewrite E in F. discriminate.
  Qed.

  Lemma ended_upd (U : nat -> uss) i x :
    endedb x = endedb (U i) -> count (endedf (upd U i x)) n = count (endedf U) n.
  Proof.
    intros E. apply count_ext. intros k _. unfold endedf, upd.
    destruct (Nat.eqb_spec k i); subst; auto.
  Qed.

  (** member [j] is told to stop: all members have greeted *)
  Lemma M_stop {s m m' j} :
    Memb s m -> sk m 0 <> SNone -> j < n ->
    sk m' 0 = SDisposed -> (forall t, t <> 0 -> sk m' t = sk m t) ->
    us m' = upd (us m) j UStopped -> ports m' = ports m -> Memb s m'.
  Proof.
    intros HM Hg Hj Esk Esk' Eus Ep. destruct (memb_greeted HM Hg) as [Hns0 Htb].
    pose proof (memb_greeted_us HM Hg Hj) as Hgj.
    destruct HM as [A1 A2 A3 A4 A5 A6 A7 A8 A9].
    constructor; unfold nsub in *; rewrite ?Eus, ?Ep; auto; try congruence.
    - intros t Ht. rewrite Esk' by exact Ht. auto.
    - apply unone_upd; auto; [|discriminate]. intros E. rewrite E in Hgj. discriminate.
    - intros k Hk. unfold upd. destruct (Nat.eqb_spec k j); subst; auto.
    - rewrite Esk, Hns0. split; [discriminate|lia].
  Qed.

  (** the next member is subscribed *)
  Lemma M_subscribe {s m m'} :
    Memb s m -> nsub m < n -> sk m' = sk m ->
    us m' = upd (us m) (nsub m) USubd -> ports m' = nsub m :: ports m -> Memb s m'.
  Proof.
    intros HM Hj Esk Eus Ep.
    assert (Hus : us m (nsub m) = UNone) by (now apply (m_unone HM)).
    assert (Htb : cb_tbs s (nsub m) = false) by (rewrite (m_tbs HM Hj), Hus; reflexivity).
    destruct HM as [A1 A2 A3 A4 A5 A6 A7 A8 A9].
    constructor; rewrite ?Esk, ?Eus; unfold nsub in *; rewrite ?Ep; cbn [length]; auto.
    - intros i [<-|Hi]; [lia|]. apply A3 in Hi. lia.
    - intros k. unfold upd. destruct (Nat.eqb_spec k (length (ports m))); subst.
      + split; [discriminate|lia].
      + rewrite A4. lia.
    - intros k Hk. unfold upd. destruct (Nat.eqb_spec k (length (ports m))); subst; auto.
    - rewrite ended_upd by now rewrite Hus. exact A8.
  Qed.

  Definition greet (s : cb_st) (i : nat) : cb_st :=
    {| cb_nstart := pred (cb_nstart s); cb_ndata := cb_ndata s; cb_nend := cb_nend s;
       cb_vals := cb_vals s; cb_tbs := upd (cb_tbs s) i true |}.

  (** a member greets; the last one to do so has the sink greeted *)
  Lemma M_greet {s m m' i} :
    Memb s m -> us m i = USubd -> us m' = upd (us m) i ULive -> ports m' = ports m ->
    (pred (cb_nstart s) <> 0 /\ sk m' = sk m \/
     pred (cb_nstart s) = 0 /\ sk m' = upd (sk m) 0 SLive) ->
    Memb (greet s i) m'.
  Proof.
    intros HM Hus Eus Ep Hsk.
    assert (Hi : i < n) by (apply (memb_lt HM); congruence).
    assert (Htb : cb_tbs s i = false) by (rewrite (m_tbs HM Hi), Hus; reflexivity).
    pose proof (memb_skn_of HM Hi Htb) as Hsk0.
    assert (Hcnt : count (upd (cb_tbs s) i true) n = S (count (cb_tbs s) n)).
    { apply count_flip with (k := i); auto using upd_same. intros. now apply upd_other. }
    assert (Hnd : sk m 0 <> SDisposed) by congruence.
    destruct HM as [A1 A2 A3 A4 A5 A6 A7 A8 A9]. pose proof (proj1 A7 Hsk0).
    constructor; unfold nsub in *; rewrite ?Eus, ?Ep; cbn [greet cb_nstart cb_nend cb_tbs]; auto.
    - intros t Ht. destruct Hsk as [[_ ->]|[_ ->]]; [|rewrite upd_other by exact Ht]; auto.
    - apply unone_upd; auto; congruence.
    - intros k Hk. unfold upd. destruct (Nat.eqb_spec k i); subst; auto.
    - lia.
    - destruct Hsk as [[H1 ->]|[H1 ->]]; [rewrite Hsk0; tauto|rewrite upd_same].
      split; [discriminate|tauto].
    - intros _. rewrite ended_upd by now rewrite Hus. auto.
    - intros _. pose proof (A9 Hnd) as H1. rewrite Hsk0 in H1.
      destruct Hsk as [[_ ->]|[_ ->]]; [rewrite Hsk0|rewrite upd_same];
        (split; [intros E; apply H1 in E|]; discriminate).
  Qed.

  Definition endm (s : cb_st) : cb_st :=
    {| cb_nstart := cb_nstart s; cb_ndata := cb_ndata s; cb_nend := pred (cb_nend s);
       cb_vals := cb_vals s; cb_tbs := cb_tbs s |}.

  Lemma ended_flip (U : nat -> uss) {i} :
    i < n -> U i = ULive -> count (endedf (upd U i UEnded)) n = S (count (endedf U) n).
  Proof.
    intros Hi Hus. apply count_flip with (k := i); unfold endedf; rewrite ?upd_same, ?Hus; auto.
    intros. now rewrite upd_other.
  Qed.

  (** the last member to end finds every member greeted: the sink is live *)
  Lemma last_end_live {s m i} :
    Memb s m -> us m i = ULive -> sk m 0 <> SDisposed -> pred (cb_nend s) = 0 -> sk m 0 = SLive.
  Proof.
    intros HM Hus Hnd Hz.
    assert (Hi : i < n) by (apply (memb_lt HM); congruence).
    pose proof (m_nend HM Hnd) as H1. pose proof (ended_flip (us m) Hi Hus) as H2.
    pose proof (count_le (endedf (upd (us m) i UEnded)) n) as H3.
    assert (Hnn : sk m 0 <> SNone).
    { intros E. apply (m_skn HM) in E. apply E. pose proof (m_nstart HM) as H0.
      rewrite count_all in H0; [lia|]. intros k Hk. rewrite (m_tbs HM Hk).
      assert (F : endedf (upd (us m) i UEnded) k = true) by (apply (@count_full (endedf (upd (us m) i UEnded)) n); [lia|exact Hk]).
      unfold endedf, upd in F. destruct (Nat.eqb_spec k i); subst; [now rewrite Hus|].
      destruct (us m k); try discriminate; reflexivity. }
    assert (Hnf : sk m 0 <> SFinished).
    { intros E. rewrite (memb_ended HM E Hi) in Hus. discriminate. }
    destruct (sk m 0); congruence.
  Qed.

  (** a live member ends; with the last one to do so the sink is finished *)
  Lemma M_end {s m m' i} :
    Memb s m -> us m i = ULive -> sk m 0 <> SDisposed ->
    us m' = upd (us m) i UEnded -> ports m' = ports m ->
    (pred (cb_nend s) <> 0 /\ sk m' = sk m \/
     pred (cb_nend s) = 0 /\ sk m' = upd (sk m) 0 SFinished) ->
    Memb (endm s) m'.
  Proof.
    intros HM Hus Hnd Eus Ep Hsk.
    assert (Hi : i < n) by (apply (memb_lt HM); congruence).
    assert (Hnf : sk m 0 <> SFinished).
    { intros E. rewrite (memb_ended HM E Hi) in Hus. discriminate. }
    assert (Hlive : pred (cb_nend s) = 0 -> sk m 0 = SLive) by now apply (last_end_live HM Hus).
    pose proof (ended_flip (us m) Hi Hus) as Hcnt.
    pose proof (count_le (endedf (upd (us m) i UEnded)) n).
    destruct HM as [A1 A2 A3 A4 A5 A6 A7 A8 A9]. pose proof (A9 Hnd) as H1. pose proof (A8 Hnd).
    constructor; unfold nsub in *; rewrite ?Eus, ?Ep; cbn [endm cb_nstart cb_nend cb_tbs]; auto.
    - intros t Ht. destruct Hsk as [[_ ->]|[_ ->]]; [|rewrite upd_other by exact Ht]; auto.
    - apply unone_upd; auto; congruence.
    - intros k Hk. unfold upd. destruct (Nat.eqb_spec k i); subst; auto.
      rewrite A5, Hus by exact Hk. reflexivity.
    - destruct Hsk as [[_ ->]|[Hz ->]]; [exact A7|]. rewrite upd_same.
      split; [discriminate|]. intros H2. apply A7 in H2. rewrite (Hlive Hz) in H2. discriminate.
    - intros _. lia.
    - intros _. destruct Hsk as [[H2 ->]|[H2 ->]]; [tauto|]. rewrite upd_same. tauto.
  Qed.

  Lemma D_keep {s s' rt m m' a e} :
    Data s rt m -> cb_vals s' = cb_vals s -> cb_ndata s' = cb_ndata s ->
    (forall k, k < n -> cb_tbs s k = true -> cb_tbs s' k = true) -> ndata m' 0 = ndata m 0 ->
    nodata e -> nodata a -> last_ok s' m' a -> Data s' (a :: e :: rt) m'.
  Proof.
    intros [] E1 E2 Ht E3 He Ha Hl. constructor; rewrite ?E1, ?E2, ?E3; auto.
    intros j. now rewrite !latest_skip.
  Qed.

  (** the datum [v] of member [i] goes into its cell *)
  Definition store (s : cb_st) (i : nat) (v : val) : cb_st :=
    {| cb_nstart := cb_nstart s;
       cb_ndata := match cb_vals s i with None => pred (cb_ndata s) | Some _ => cb_ndata s end;
       cb_nend := cb_nend s; cb_vals := upd (cb_vals s) i (Some v); cb_tbs := cb_tbs s |}.

  Lemma store_count {s rt m i} v :
    Data s rt m -> i < n ->
    cb_ndata (store s i v) + count (hasval (cb_vals (store s i v))) n = n.
  Proof.
    intros HD Hi. pose proof (d_ndata HD) as H0. cbn [store cb_ndata cb_vals].
    destruct (cb_vals s i) eqn:Ev.
    - erewrite count_ext; [exact H0|]. intros k _. unfold hasval, upd.
      destruct (Nat.eqb_spec k i); subst; [now rewrite Ev|reflexivity].
    - assert (Hf : hasval (cb_vals s) i = false) by (unfold hasval; now rewrite Ev).
      rewrite (@count_flip (hasval (cb_vals s)) (hasval (upd (cb_vals s) i (Some v))) n i); auto.
      + pose proof (count_lt (hasval (cb_vals s)) Hi Hf). lia.
      + unfold hasval. now rewrite upd_same.
      + intros. unfold hasval. now rewrite upd_other.
  Qed.

  Lemma D_data {s rt m m' i} v {a} :
    Data s rt m -> i < n -> cb_tbs s i = true -> nodata a -> last_ok (store s i v) m' a ->
    (0 < ndata m' 0 -> cb_ndata (store s i v) = 0) ->
    Data (store s i v) (a :: EIn (IDn i (DD v)) :: rt) m'.
  Proof.
    intros HD Hi Htb Ha Hl Hmd. constructor; auto.
    - intros k Hk. cbn. unfold upd. destruct (Nat.eqb_spec k i); subst; [auto|apply (d_vals HD Hk)].
    - exact (store_count v HD Hi).
    - intros j. rewrite (latest_skip _ _ _ Ha). cbn. unfold upd. rewrite Nat.eqb_sym.
      destruct (Nat.eqb i j); [reflexivity|apply (d_latest HD)].
  Qed.

  Definition qviols (m : mstate) : list vkind :=
    match cstack m with [] => check_quiescent p m | _ => [] end.

  Lemma qviols_known m :
    (sk_over (sk m 0) = true -> forall i, In i (ports m) -> us_live (us m i) = false) ->
    Forall known_combine (qviols m).
  Proof.
    intros H. unfold qviols. destruct (cstack m); [|constructor].
    unfold check_quiescent. rewrite Hresub, Hc14. cbn. rewrite app_nil_r.
    apply Forall_app. split.
    - destruct (sk_over (sk m 0)); [|constructor].
      rewrite filter_nil; [constructor|]. now apply H.
    - apply Forall_forall. intros x Hx. apply in_map_iff in Hx.
      destruct Hx as [s [<- _]]. exact I.
  Qed.

  (** violations of a broadcast call are among the known ones *)
  Lemma cup_known m j u :
    greetedb (us m j) = true -> (umsg_is_term u = true -> us m j <> UStopped) ->
    Forall known_combine (check_call p m (CUp j u)).
  Proof.
    intros Hg Hs. unfold check_call. rewrite Hc14.
    destruct (us m j), u; cbn in *; try discriminate; repeat constructor;
      exfalso; now apply Hs.
  Qed.

  Lemma fin_call {c mv st s' cl k} :
    Inv c -> stepped p c mv st (s', [], ACall cl k) ->
    let m' := mon_call_upd (mon_move p (ms c) mv) cl in
    Forall known_combine (check_call p (mon_move p (ms c) mv) cl) ->
    Memb s' m' -> Data s' (ECall cl :: move_event mv :: rtrace c) m' -> phase m' ((k, cl) :: st) ->
    Inv (step p c mv).
  Proof.
    intros HI [Hc Hs Hm Hd Hr] m' Hv HM HD HP. cbn [fst snd map rev app act_event] in *.
    rewrite ms_settle_call, add_viols_eq in Hm.
    constructor; rewrite ?Hc, ?Hs, ?Hm, ?Hr.
    - exact Hd.
    - cbn. rewrite mon_call_upd_viols, mon_move_viols. apply Forall_app. split; [exact Hv|apply HI].
    - intros t. cbn. rewrite mon_call_upd_task, mon_move_task. apply HI.
    - apply (M_same HM); reflexivity.
    - apply (D_same HD); reflexivity.
    - apply (phase_same HP); reflexivity.
  Qed.

  Lemma fin_ret {c mv st s'} :
    Inv c -> stepped p c mv st (s', [], ARet) ->
    let m1 := mon_move p (ms c) mv in
    (sk_over (sk m1 0) = true -> forall i, In i (ports m1) -> us_live (us m1 i) = false) ->
    Memb s' m1 -> Data s' (EDone :: move_event mv :: rtrace c) m1 -> phase m1 st ->
    Inv (step p c mv).
  Proof.
    intros HI [Hc Hs Hm Hd Hr] m1 Ho HM HD HP. cbn [fst snd map rev app act_event] in *.
    assert (E : ms (step p c mv) = m1 <| viols := qviols m1 ++ viols m1 |>).
    { rewrite Hm, ms_settle_ret. fold m1. unfold qviols.
      destruct (cstack m1); [apply add_viols_eq|destruct m1; reflexivity]. }
    constructor; rewrite ?Hc, ?Hs, ?E, ?Hr.
    - exact Hd.
    - cbn. apply Forall_app. split; [now apply qviols_known|].
      unfold m1. rewrite mon_move_viols. apply HI.
    - intros t. cbn. unfold m1. rewrite mon_move_task. apply HI.
    - apply (M_same HM); reflexivity.
    - apply (D_same HD); reflexivity.
    - apply (phase_same HP); reflexivity.
  Qed.

  Lemma ltb0 : (0 <? n) = true.
  Proof. apply Nat.ltb_lt. lia. Qed.

  Lemma h_greet s {i} : i < n ->
    cb_handle n (IDn i DH) s =
    if Nat.eqb (pred (cb_nstart s)) 0 then (greet s i, [], ACall (CDn 0 DH) CbDone)
    else (greet s i, [], ARet).
  Proof. intros Hi. unfold cb_handle. now rewrite (proj2 (Nat.ltb_lt i n) Hi). Qed.

  Lemma h_data s {i} v : i < n ->
    cb_handle n (IDn i (DD v)) s =
    if Nat.eqb (cb_ndata (store s i v)) 0 then
      match cb_tuple (cb_vals (store s i v)) n with
      | Some l => (store s i v, [], ACall (CDn 0 (DD (VT l))) CbDone)
      | None => (store s i v, [], APanic)
      end
    else (store s i v, [], ARet).
  Proof. intros Hi. unfold cb_handle. now rewrite (proj2 (Nat.ltb_lt i n) Hi). Qed.

  Lemma h_end s {i d} : i < n -> dmsg_is_term d = true ->
    cb_handle n (IDn i d) s =
    if Nat.eqb (pred (cb_nend s)) 0 then (endm s, [], ACall (CDn 0 DT) CbDone)
    else (endm s, [], ARet).
  Proof.
    intros Hi Hd. unfold cb_handle. rewrite (proj2 (Nat.ltb_lt i n) Hi).
    destruct d; try discriminate; reflexivity.
  Qed.

  Lemma inv_sub c s aux : reach p gc c -> enabled p gc c (MIn (ISub s aux)) = true ->
                          Inv (step p c (MIn (ISub s aux))).
  Proof.
    intros Hr He. destruct (en_sub _ _ _ _ _ He) as (_ & Hs & Hsub). rewrite Hns in Hs.
    assert (s = 0) by lia. subst s.
    pose proof (en_guard _ _ _ _ He) as Hg. destruct aux; [|discriminate Hg].
    pose proof (reach_unsubscribed Hns Hr Hsub). subst c.
    assert (Hh : handle o (ISub 0 0) (st0 o) = (st0 o, [], ACall (CSub 0) (CbSub 1))).
    { cbn. unfold cb_sub. now rewrite ltb0. }
    apply (fin_call inv0 (stepped_in He Hh)).
    - cbn. rewrite Hresub. constructor.
    - apply (M_subscribe (i_memb inv0)); try reflexivity. cbn. lia.
    - apply (D_keep (i_data inv0)); try reflexivity; auto; exact I.
    - apply PhRun; cbn; auto; try discriminate.
      intros k. unfold upd. destruct (Nat.eqb k 0); discriminate.
  Qed.

  Lemma inv_up c s u : Inv c -> enabled p gc c (MIn (IUp s u)) = true ->
                       Inv (step p c (MIn (IUp s u))).
  Proof.
    intros HI He. destruct (en_up _ _ _ _ _ He) as (_ & Hsk & _). pose proof (i_memb HI) as HM.
    destruct s as [|s]; [|rewrite (m_sk_other HM) in Hsk by lia; discriminate].
    destruct (i_phase HI) as [Hnd Hok Hnst|u' j r Hd' _ _ _ _ _|Hd' _ _]; try congruence.
    assert (Hg : sk (ms c) 0 <> SNone) by congruence.
    destruct (memb_greeted HM Hg) as [_ Htb]. pose proof (memb_greeted_us HM Hg) as Hgu.
    assert (Hh : handle o (IUp 0 u) (cst c) = (cst c, [], ACall (CUp 0 u) (CbBcast u 1))).
    { cbn. unfold cb_bcast. rewrite ltb0, Htb by lia. reflexivity. }
    assert (Hgrt : grt (ms c) = true) by (unfold grt; now rewrite Hsk).
    apply (fin_call HI (stepped_in He Hh)); cbn [mon_move];
      destruct (in_up p (ms c) u) as (E1 & E2 & E3 & E4 & _);
      set (m1 := mon_input p (ms c) (IUp 0 u)) in *; clearbody m1;
      (destruct (umsg_is_term u) eqn:Hu;
       [rewrite ?(call_stop_upd m1 0 u Hu)|destruct u; try discriminate]).
    - apply cup_known; rewrite E1; auto.
    - apply cup_known; rewrite E1; auto; discriminate.
    - apply (M_stop (j := 0) HM Hg); cbn; rewrite ?E1, ?E2, ?E4; auto.
      intros t Ht. now apply upd_other.
    - apply (M_same HM); cbn; auto.
    - apply (D_keep (i_data HI)); cbn; rewrite ?E3; auto; exact I.
    - apply (D_keep (i_data HI)); cbn; rewrite ?E3; auto; exact I.
    - apply PhStopping with u 0 (stack c); unfold nsub; cbn; rewrite ?E1, ?E2, ?E4; auto.
      + now rewrite <- Hgrt.
      + intros k Hk. unfold upd. destruct (Nat.eqb_spec k 0); subst; [split; [reflexivity|lia]|].
        split; [lia|]. intros _. apply Hnst.
    - apply PhRun; unfold nsub, grt in *; cbn; rewrite ?E1, ?E2, ?E4; auto.
  Qed.

  (** what is known whenever a member may act *)
  Lemma dn_prelude {c i d} :
    Inv c -> enabled p gc c (MIn (IDn i d)) = true ->
    i < n /\ sk (ms c) 0 <> SDisposed /\ stk_ok (nsub (ms c)) (grt (ms c)) (stack c) /\
    (forall k, us (ms c) k <> UStopped) /\
    us (ms c) i = match d with DH => USubd | _ => ULive end.
  Proof.
    intros HI He. destruct (en_member _ _ _ _ _ He) as [Htop Hus].
    assert (Hi : i < n) by (apply (memb_lt (i_memb HI)); rewrite Hus; destruct d; discriminate).
    assert (Hns' : us (ms c) i <> UStopped) by (rewrite Hus; destruct d; discriminate).
    split; [exact Hi|].
    destruct (i_phase HI) as [Hnd Hok Hnst|u j r Hd' Hs' Hu Hj Hok Hk|Hd' Hok Hk].
    - auto.
    - exfalso. unfold top_peer_is in Htop. rewrite Hs' in Htop. cbn in Htop.
      apply Nat.eqb_eq in Htop. subst j. apply Hns'. apply (Hk i Hi). lia.
    - exfalso. now apply Hns', Hk.
  Qed.

  Lemma inv_dn_greet c i : Inv c -> enabled p gc c (MIn (IDn i DH)) = true ->
                           Inv (step p c (MIn (IDn i DH))).
  Proof.
    intros HI He. destruct (dn_prelude HI He) as (Hi & Hnd & Hok & Hnst & Hus).
    pose proof (i_memb HI) as HM.
    assert (Htb : cb_tbs (cst c) i = false) by (rewrite (m_tbs HM Hi), Hus; reflexivity).
    pose proof (memb_skn_of HM Hi Htb) as Hsk.
    assert (Hgrt : grt (ms c) = false) by (unfold grt; now rewrite Hsk).
    pose proof (stepped_in He (h_greet (cst c) Hi)) as Hst.
    assert (HD : forall m' a, ndata m' 0 = ndata (ms c) 0 -> nodata a ->
                              last_ok (greet (cst c) i) m' a ->
                              Data (greet (cst c) i) (a :: EIn (IDn i DH) :: rtrace c) m').
    { intros m' a E Ha Hl. apply (D_keep (i_data HI)); auto; try exact I.
      intros k _ H. cbn. unfold upd. destruct (Nat.eqb k i); auto. }
    pose proof (notstopped_upd i (x := ULive) Hnst ltac:(discriminate)) as Hnst'.
    destruct (Nat.eqb_spec (pred (cb_nstart (cst c))) 0) as [Hz|Hz].
    - (* the last member greets: the sink is greeted *)
      apply (fin_call HI Hst); cbn [mon_move]; rewrite ?call_greet_upd by exact Hsk.
      + cbn. rewrite Hsk. constructor.
      + apply (M_greet HM Hus); try reflexivity. right. split; [exact Hz|reflexivity].
      + apply HD; [reflexivity|exact I|split; [reflexivity|exact I]].
      + apply PhRun; cbn; auto; [discriminate|]. rewrite Hgrt in Hok. now apply stk_ok_g.
    - apply (fin_ret HI Hst); cbn [mon_move].
      + cbn. rewrite Hsk. discriminate.
      + apply (M_greet HM Hus); try reflexivity. left. split; [exact Hz|reflexivity].
      + apply HD; [reflexivity|exact I|exact I].
      + apply PhRun; auto.
  Qed.

  Lemma inv_dn_data c i v : Inv c -> enabled p gc c (MIn (IDn i (DD v))) = true ->
                            Inv (step p c (MIn (IDn i (DD v)))).
  Proof.
    intros HI He. destruct (dn_prelude HI He) as (Hi & Hnd & Hok & Hnst & Hus).
    pose proof (i_memb HI) as HM. pose proof (i_data HI) as HD.
    assert (Htb : cb_tbs (cst c) i = true) by (rewrite (m_tbs HM Hi), Hus; reflexivity).
    assert (Hnf : sk (ms c) 0 <> SFinished).
    { intros E. rewrite (memb_ended HM E Hi) in Hus. discriminate. }
    pose proof (stepped_in He (h_data (cst c) v Hi)) as Hst.
    set (s' := store (cst c) i v) in *.
    assert (HM' : forall m', sk m' = sk (ms c) -> us m' = us (ms c) -> ports m' = ports (ms c) ->
                             Memb s' m') by (intros; now apply (M_same HM)).
    destruct (Nat.eqb_spec (cb_ndata s') 0) as [Hz|Hz].
    - destruct (@cb_tuple_some (cb_vals s') n) as (l & Hl);
        [exact (vals_full (store_count v HD Hi) Hz)|]. rewrite Hl in Hst.
      assert (Hsk : sk (ms c) 0 = SLive).
      { assert (Hnn : sk (ms c) 0 <> SNone).
        { intros H. apply (m_skn HM) in H. apply H. pose proof (m_nstart HM) as H0.
          rewrite count_all in H0; [lia|]. intros k Hk.
          destruct (Nat.eq_dec k i) as [->|Hne]; [exact Htb|]. apply (d_vals HD Hk).
          pose proof (vals_full (store_count v HD Hi) Hz Hk) as H1. cbn in H1.
          now rewrite upd_other in H1. }
        destruct (sk (ms c) 0); congruence. }
      apply (fin_call HI Hst); cbn [mon_move].
      + cbn. rewrite Hsk, Hnonest, Hc14. constructor.
      + apply HM'; reflexivity.
      + apply (D_data v HD Hi Htb); [exact I|split; [reflexivity|eauto]|auto].
      + apply PhRun; unfold nsub, grt in *; cbn; auto.
    - apply (fin_ret HI Hst); cbn [mon_move].
      + cbn. destruct (sk (ms c) 0); try discriminate; congruence.
      + apply HM'; reflexivity.
      + apply (D_data v HD Hi Htb); [exact I|exact I|]. cbn. intros H.
        apply (d_mdata HD) in H. unfold s' in Hz. cbn in Hz. rewrite H in Hz.
        destruct (cb_vals (cst c) i); contradiction.
      + apply PhRun; auto.
  Qed.

  Lemma inv_dn_end c i d :
    dmsg_is_term d = true -> Inv c -> enabled p gc c (MIn (IDn i d)) = true ->
    Inv (step p c (MIn (IDn i d))).
  Proof.
    intros Hterm HI He. destruct (dn_prelude HI He) as (Hi & Hnd & Hok & Hnst & Hus).
    assert (Hus' : us (ms c) i = ULive) by (destruct d; try discriminate; exact Hus).
    clear Hus. pose proof (i_memb HI) as HM.
    pose proof (stepped_in He (h_end (cst c) Hi Hterm)) as Hst.
    assert (HD : forall m' a, ndata m' 0 = ndata (ms c) 0 -> nodata a ->
                              last_ok (endm (cst c)) m' a ->
                              Data (endm (cst c)) (a :: EIn (IDn i d) :: rtrace c) m').
    { intros m' a E Ha Hl. apply (D_keep (i_data HI)); auto. destruct d; try discriminate; exact I. }
    pose proof (notstopped_upd i (x := UEnded) Hnst ltac:(discriminate)) as Hnst'.
    destruct (Nat.eqb_spec (pred (cb_nend (cst c))) 0) as [Hz|Hz];
      [pose proof (last_end_live HM Hus' Hnd Hz) as Hsk; apply (fin_call HI Hst)
      |apply (fin_ret HI Hst)];
      cbn [mon_move]; destruct (in_end p (ms c) i d Hterm) as (M1 & M2 & M3 & M4);
      set (m1 := mon_input p (ms c) (IDn i d)) in *; clearbody m1;
      rewrite ?call_term_upd by (now rewrite M1).
    - (* the last member ends: the sink is told *)
      cbn. rewrite M1, Hsk, Hnonest. cbn. destruct (err_due m1 0); repeat constructor.
    - apply (M_end HM Hus' Hnd); cbn; rewrite ?M1, ?M2, ?M3; auto.
    - apply HD; cbn; [now rewrite M4|exact I|]. split; reflexivity.
    - apply PhRun; unfold nsub, grt in *; cbn; rewrite ?M1, ?M2, ?M3, ?upd_same; auto;
        [discriminate|]. rewrite Hsk in Hok. exact Hok.
    - rewrite M1. destruct (sk (ms c) 0) eqn:E; try discriminate; try congruence.
      intros _. exfalso. rewrite (memb_ended HM E Hi) in Hus'. discriminate.
    - apply (M_end HM Hus' Hnd); auto.
    - apply HD; [now rewrite M4|exact I|exact I].
    - apply PhRun; unfold nsub, grt in *; rewrite ?M1, ?M2, ?M3; auto.
  Qed.

  (** when the output is over and no stop broadcast is under way, no member is live *)
  Lemma over_ok {s m st} :
    Memb s m -> phase m st ->
    (forall u j r, st = (CbBcast u (S j), CUp j u) :: r -> umsg_is_term u = true -> n <= S j) ->
    sk_over (sk m 0) = true -> forall i, In i (ports m) -> us_live (us m i) = false.
  Proof.
    intros HM HP Hst Hov i Hi.
    assert (Hin : i < n) by (pose proof (m_ports HM i Hi); pose proof (m_nsub HM); lia).
    destruct HP as [Hnd Hok Hns'|u j r Hd Hs Hu Hj Hok Hk|Hd Hok Hk].
    - assert (Hf : sk m 0 = SFinished) by (destruct (sk m 0); try discriminate; congruence).
      now rewrite (memb_ended HM Hf Hin).
    - specialize (Hst u j r Hs Hu). destruct (Hk i Hin) as [H1 _]. rewrite H1 by lia. reflexivity.
    - now rewrite Hk.
  Qed.

  Lemma inv_ret c : Inv c -> enabled p gc c MRet = true -> Inv (step p c MRet).
  Proof.
    intros HI He. destruct (en_ret _ _ _ He) as (k & cl & rest & Hst & _).
    pose proof (i_memb HI) as HM. pose proof (i_phase HI) as HP. rewrite Hst in HP.
    pose proof (fun r => stepped_ret (r := r) He Hst) as Hstep.
    remember (mon_event p (ms c) ERet) as m1 eqn:Em1.
    assert (HM1 : Memb (cst c) m1) by (rewrite Em1; apply (M_same HM); reflexivity).
    assert (HP1 : phase m1 ((k, cl) :: rest)) by (rewrite Em1; apply (phase_same HP); reflexivity).
    assert (End : ndata m1 0 = ndata (ms c) 0) by now rewrite Em1.
    assert (HD1 : forall a m', ndata m' 0 = ndata (ms c) 0 -> nodata a -> last_ok (cst c) m' a ->
                               Data (cst c) (a :: ERet :: rtrace c) m')
      by (intros a m' E Ha Hl; apply (D_keep (i_data HI)); auto; exact I).
    assert (Hdone : resume o k (cst c) = (cst c, [], ARet) ->
                    (forall u j, k = CbBcast u (S j) -> umsg_is_term u = true -> n <= S j) ->
                    (forall j, k = CbSub j -> n <= j) -> Inv (step p c MRet)).
    { (* a resumed activation that has nothing left to do *)
      intros Hh Hlastj Hsubj. apply (fin_ret HI (Hstep _ Hh)); cbn [mon_move]; rewrite <- ?Em1; auto;
        [|exact (HD1 EDone m1 End I I)|].
      - apply (over_ok HM1 HP1). intros u j r E Hu. injection E as -> _ _. now apply (Hlastj u j).
      - destruct HP1 as [Hnd Hok Hnst|u j r Hd' Hs' Hu Hj Hok Hk|Hd' Hok Hk].
        + apply PhRun; auto. exact (stk_ok_tl Hsubj Hok).
        + injection Hs' as -> _ ->. pose proof (Hlastj u j eq_refl Hu).
          apply PhStopped; auto. intros k' Hk'. apply Hk; lia.
        + apply PhStopped; auto. exact (stk_ok_tl Hsubj Hok). }
    destruct k as [|j|u j]; [apply Hdone; [reflexivity|discriminate..]| |];
      (destruct (j <? n) eqn:Hlt;
       [apply Nat.ltb_lt in Hlt
       |apply Nat.ltb_ge in Hlt;
        apply Hdone; [cbn; unfold cb_sub, cb_bcast; now rewrite (proj2 (Nat.ltb_ge j n) Hlt)|..];
        intros; try discriminate; congruence]).
    - (* the subscription sequence moves on to member [j] *)
      assert (Hh : resume o (CbSub j) (cst c) = (cst c, [], ACall (CSub j) (CbSub (S j)))).
      { cbn. unfold cb_sub. now rewrite (proj2 (Nat.ltb_lt j n) Hlt). }
      assert (Hjr : j = nsub m1 /\ rest = [] /\ forall k, us m1 k <> UStopped).
      { destruct HP1 as [Hnd Hok Hnst|u j' r Hd' Hs' _ _ _ _|Hd' Hok Hk].
        - cbn in Hok. tauto.
        - discriminate.
        - exfalso. cbn in Hok. destruct Hok as [-> _].
          assert (Hus : us m1 (nsub m1) = UNone) by now apply (m_unone HM1).
          rewrite Hk in Hus by exact Hlt. discriminate. }
      destruct Hjr as (-> & -> & Hnst).
      assert (Hus : us m1 (nsub m1) = UNone) by now apply (m_unone HM1).
      assert (Htb : cb_tbs (cst c) (nsub m1) = false) by (rewrite (m_tbs HM1 Hlt), Hus; reflexivity).
      pose proof (memb_skn_of HM1 Hlt Htb) as Hsk.
      apply (fin_call HI (Hstep _ Hh)); cbn [mon_move]; rewrite <- ?Em1.
      + unfold check_call. rewrite Hus, Hresub, Hsk. constructor.
      + apply (M_subscribe HM1 Hlt); reflexivity.
      + apply HD1; [exact End|exact I|exact I].
      + apply PhRun; cbn; [rewrite Hsk; discriminate|auto|].
        apply notstopped_upd; [exact Hnst|discriminate].
    - (* a broadcast moves on to member [j] *)
      assert (Hg : sk m1 0 <> SNone).
      { destruct HP1 as [Hnd Hok Hnst|u' j' r Hd' _ _ _ _ _|Hd' _ _]; try congruence.
        cbn in Hok. destruct Hok as (_ & Hg & _). unfold grt in Hg.
        destruct (sk m1 0); congruence. }
      destruct (memb_greeted HM1 Hg) as [_ Htb]. pose proof (memb_greeted_us HM1 Hg Hlt) as Hgu.
      assert (Hh : resume o (CbBcast u j) (cst c) =
                   (cst c, [], ACall (CUp j u) (CbBcast u (S j)))).
      { cbn. unfold cb_bcast. now rewrite (proj2 (Nat.ltb_lt j n) Hlt), Htb. }
      assert (Hgrt : grt m1 = true) by (unfold grt; destruct (sk m1 0); congruence).
      apply (fin_call HI (Hstep _ Hh)); cbn [mon_move]; rewrite <- ?Em1;
        destruct HP1 as [Hnd Hok Hnst|u' j' r Hd' Hs' Hu Hj' Hok Hk|Hd' Hok Hk];
        try (cbn in Hok; destruct Hok as (-> & _ & Hok));
        try (injection Hs' as <- -> _ <-; rewrite ?(call_stop_upd m1 (S j') u Hu)).
      1-3: apply cup_known; auto; try discriminate. 1: intros _; apply (Hk (S j') Hlt); lia.
      1,3: apply (M_same HM1); reflexivity.
      1: apply (M_stop (j := S j') HM1 Hg Hlt); auto.
      1-3: apply HD1; try exact I; cbn; try exact End.
      + apply PhRun; cbn; auto.
      + apply PhStopping with u (S j') rest; cbn; auto.
        intros k Hk'. destruct (Hk k Hk') as [H1 H2]. unfold upd.
        destruct (Nat.eqb_spec k (S j')); subst; [split; [reflexivity|lia]|].
        split; intros; [apply H1|apply H2]; lia.
      + apply PhStopped; cbn; auto.
  Qed.

  Lemma inv_step c m : reach p gc c -> Inv c -> enabled p gc c m = true -> Inv (step p c m).
  Proof.
    intros Hr HI He. destruct m as [[s aux|s u|i [|v|e|]|s]|].
    - now apply inv_sub.
    - now apply inv_up.
    - now apply inv_dn_greet.
    - now apply inv_dn_data.
    - now apply inv_dn_end.
    - now apply inv_dn_end.
    - destruct (en_tick _ _ _ _ He) as [_ Ht]. now rewrite (i_task HI) in Ht.
    - now apply inv_ret.
  Qed.

  Theorem inv_reach c : reach p gc c -> Inv c.
  Proof. apply reach_invariant; [exact inv0 | exact inv_step]. Qed.

  Lemma rtrace_last (c : cfg o) {tr e} : trace c = tr ++ [e] -> rtrace c = e :: rev tr.
  Proof.
    unfold trace. intros H. apply (f_equal (@rev event)) in H.
    rewrite rev_involutive, rev_app_distr in H. exact H.
  Qed.

  Lemma last_call {c : cfg o} {tr t d} :
    Inv c -> trace c = tr ++ [ECall (CDn t d)] -> last_ok (cst c) (ms c) (ECall (CDn t d)).
  Proof. intros HI Htr. pose proof (d_last (i_data HI)) as H. now rewrite (rtrace_last _ Htr) in H. Qed.
End CombineInv.

(** C01-C05, C17: no panic, and the only protocol violations are the four known kinds *)
Theorem combine_safe n p :
  1 <= n -> nsinks p = 1 -> resub p = false -> no_nest p = false -> c14 p = false ->
  late_ok p = false ->
  forall c : cfg (combine_op n), reach p g_std c ->
  dead c = false /\ Forall known_combine (viols (ms c)).
Proof.
  intros H1 H2 H3 H4 H5 _ c Hr. pose proof (inv_reach H1 H2 H3 H4 H5 Hr) as HI.
  split; apply HI.
Qed.
Print Assumptions combine_safe.

(** C10: the cells hold each member's most recent payload; every call of a sink is a call
    of sink 0; every Data is the tuple, of length [n], of the members' most recent payloads;
    no Error is ever delivered; nothing is delivered before every member has produced *)
Theorem combine_tuples n p :
  1 <= n -> nsinks p = 1 -> resub p = false -> no_nest p = false -> c14 p = false ->
  late_ok p = false ->
  forall c : cfg (combine_op n), reach p g_std c ->
  (forall j, cb_vals (cst c) j = latest j (rev (trace c))) /\
  (forall tr s d, trace c = tr ++ [ECall (CDn s d)] ->
     s = 0 /\
     match d with
     | DD x => exists l, x = VT l /\ length l = n /\
                 forall j, j < n -> nth_error l j = cb_vals (cst c) j /\
                                    nth_error l j = latest j (rev (trace c)) /\
                                    nth_error l j <> None
     | DE _ => False
     | _ => True
     end) /\
  (0 < ndata (ms c) 0 -> forall j, j < n -> cb_vals (cst c) j <> None).
Proof.
  intros H1 H2 H3 H4 H5 _ c Hr. pose proof (inv_reach H1 H2 H3 H4 H5 Hr) as HI.
  pose proof (i_data HI) as HD.
  assert (Hrev : rev (trace c) = rtrace c) by (unfold trace; apply rev_involutive).
  rewrite Hrev. split; [apply (d_latest HD)|]. split.
  - intros tr s d Htr. destruct (last_call HI Htr) as [Hs Hd]. split; [exact Hs|].
    destruct d as [|x|e|]; auto.
    destruct Hd as (l & -> & Hl). exists l. split; [reflexivity|].
    destruct (cb_tuple_spec _ _ Hl) as [Hlen Hnth]. split; [exact Hlen|].
    intros j Hj. rewrite (Hnth j Hj). split; [reflexivity|]. split; [apply (d_latest HD)|].
    rewrite <- (Hnth j Hj). apply nth_error_Some. lia.
  - intros H. exact (vals_full (d_ndata HD) (d_mdata HD H)).
Qed.
Print Assumptions combine_tuples.

(** C10: while the sink is live some member is live; the sink is finished (by Terminate)
    only when every member has ended *)
Theorem combine_completes n p :
  1 <= n -> nsinks p = 1 -> resub p = false -> no_nest p = false -> c14 p = false ->
  late_ok p = false ->
  forall c : cfg (combine_op n), reach p g_std c ->
  (sk (ms c) 0 = SLive -> exists j, j < n /\ us (ms c) j = ULive) /\
  (sk (ms c) 0 = SFinished -> forall j, j < n -> us (ms c) j = UEnded) /\
  (forall tr s, trace c = tr ++ [ECall (CDn s DT)] ->
     s = 0 /\ sk (ms c) 0 = SFinished /\ forall j, j < n -> us (ms c) j = UEnded).
Proof.
  intros H1 H2 H3 H4 H5 _ c Hr. pose proof (inv_reach H1 H2 H3 H4 H5 Hr) as HI.
  pose proof (i_memb HI) as HM. pose proof (memb_ended H1 p H2 HM) as Hfin.
  split; [|split; [exact Hfin|]].
  - intros Hl. assert (Hnd : sk (ms c) 0 <> SDisposed) by congruence.
    pose proof (m_nend HM Hnd) as E.
    assert (H0 : cb_nend (cst c) <> 0) by (intros H; apply (m_nend0 HM Hnd) in H; congruence).
    destruct (@count_lt_ex (endedf (us (ms c))) n) as (j & Hj & Hne); [lia|].
    exists j. split; [exact Hj|].
    assert (Hg : greetedb (us (ms c) j) = true)
      by (apply (memb_greeted_us H1 p H2 HM); [congruence|exact Hj]).
    assert (Hns' : us (ms c) j <> UStopped).
    { destruct (i_phase HI) as [_ _ Hnst|u j' r Hd' _ _ _ _ _|Hd' _ _]; [apply Hnst|congruence..]. }
    unfold endedf in Hne. destruct (us (ms c) j); try discriminate; congruence.
  - intros tr s Htr. destruct (last_call HI Htr) as [Hs Hd]. auto.
Qed.
Print Assumptions combine_completes.
