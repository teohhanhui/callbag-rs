(** * Inv_threads_takemerge: C19 "through merge!" for the interleaving model of take(max) behind
      merge! of n member threads (ThreadsTakeMerge.v), over ALL schedules: for every max, n, all
      queues, ALL endings (any number of failing members) and every state reachable by any
      interleaving of [xm_step true max n].

    Method: each invariant is preserved by [xm_step true max n s t], by cases of the stepping thread's
    program counter ([xm_cases]: the step's result as an explicit record, with [nxt] for what
    [xm_next] makes of the thread and [sw_cell] / [sw_stp] / [sw_tr] of ThreadFacts.v for what
    [xm_sweep] does); every other thread's record is unchanged.  Safety, completion and order rest
    on [Live], [Tal], [End1], [Tick] and [Ord]; that take ends its upstream
    ([takemerge_members_stopped]) on [Mem], [Cnt], [Cel] and [Why] as well. *)

From CB Require Import Threads ThreadSpec ThreadsFine ThreadsTakeMerge ThreadFacts Inv_threads_merge.

Set Implicit Arguments.

#[local] Arguments count : simpl never.

Inductive xm_reach (max n : nat) (qs : nat -> list val) (fins : nat -> final) : xm_state -> Prop :=
| xmr0 : xm_reach max n qs fins (xm_init n qs fins)
| xmrS s t : xm_reach max n qs fins s -> xm_reach max n qs fins (xm_step true max n s t).

Notation XS := mk_xm_state.
Notation XT := mk_xm_thread.

(** what [xm_next] makes of a thread; [leaves]: it enters its Terminate arm, emptying its own cell *)
Definition nxt (sp : bool) (q : list val) (f : final) : xm_thread :=
  if sp then XT XmFinished q f
  else match q with
       | v :: q' => XT (XmAtTaken v) q' f
       | [] => XT (match f with
                   | FinTerm => XmAtEndInc | FinErr e => XmAtEndedStore e | FinNone => XmFinished
                   end) [] f
       end.
Lemma nxt_pcs (P : xm_pc -> Prop) sp q f :
  P XmFinished -> (forall v, P (XmAtTaken v)) -> P XmAtEndInc -> (forall e, P (XmAtEndedStore e)) ->
  P (xm_pcv (nxt sp q f)).
Proof.
  intros H1 H2 H3 H4. unfold nxt. destruct sp; [exact H1|]. destruct q; [|exact (H2 _)].
  destruct f; [exact H3 | exact (H4 _) | exact H1].
Qed.

Definition leaves (sp : bool) (q : list val) (f : final) : bool :=
  negb sp && match q with [] => fin_term f | _ => false end.

Definition clr (b : bool) (cell : nat -> bool) (t : nat) : nat -> bool :=
  if b then upd cell t false else cell.

Lemma clr_same b cell t : clr b cell t t = cell t && negb b.
Proof. unfold clr. destruct b; [now rewrite upd_same, andb_false_r | now rewrite andb_true_r]. Qed.

Lemma clr_other b cell t j : j <> t -> clr b cell t j = cell j.
Proof. intros ne. unfold clr. destruct b; [now apply upd_other | reflexivity]. Qed.

Lemma clr_false b cell t j : cell j = false -> clr b cell t j = false.
Proof. intros H. destruct (Nat.eq_dec j t) as [->|ne]; [now rewrite clr_same, H | now rewrite clr_other]. Qed.

Lemma xm_next_eq s t pc q f :
  xm_next s t (XT pc q f)
  = XS (xms_start s) (xms_endc s) (xms_ended s) (clr (leaves (xms_stopped s t) q f) (xms_cell s) t)
       (xms_stopped s) (xms_taken s) (xms_tend s)
       (upd (xms_th s) t (nxt (xms_stopped s t) q f)) (xms_tr s).
Proof.
  destruct s as [st ec en cell stp tk te th tr]. unfold xm_next, nxt, leaves, clr. cbn.
  destruct (stp t); [reflexivity|]. destruct q; [|reflexivity]. destruct f; reflexivity.
Qed.

Definition hit (skip : option nat) (j : nat) : bool :=
  match skip with Some i => negb (Nat.eqb j i) | None => true end.

Lemma xm_sweep_eq k skip t s :
  xm_sweep k skip t s
  = XS (xms_start s) (xms_endc s) (xms_ended s) (sw_cell (hit skip) (xms_cell s) k)
       (sw_stp (hit skip) (xms_cell s) (xms_stopped s) k) (xms_taken s) (xms_tend s) (xms_th s)
       (sw_tr (hit skip) t (xms_cell s) (xms_tr s) k).
Proof.
  destruct s as [st ec en cell stp tk te th tr]. cbn.
  induction k as [|k IH]; [reflexivity|]. cbn [xm_sweep sw_cell sw_stp sw_tr]. rewrite IH.
  replace (match skip with Some i => k =? i | None => false end) with (negb (hit skip k))
    by (destruct skip; cbn; [apply negb_involutive|reflexivity]).
  rewrite negb_involutive. cbn. destruct (hit skip k && cell k); reflexivity.
Qed.

Ltac xm_red H :=
  cbv beta iota zeta delta [set xm_set xm_emit xms_start xms_endc xms_ended xms_cell xms_stopped xms_taken
                            xms_tend xms_th xms_tr] in H;
  cbn [xm_pcv xm_q xm_fin] in H.

Ltac xm_proj :=
  cbn [xms_start xms_endc xms_ended xms_cell xms_stopped xms_taken xms_tend xms_th xms_tr xm_pcv xm_q xm_fin]
    in *.

(* [xm_next] and [xm_sweep] in [Es], by their equations; found by matching, because a [rewrite ?]
   that fails is dear *)
Ltac xm_nxt Es :=
  repeat match type of Es with
         | context [xm_next ?a ?b (XT ?p ?q ?f)] => rewrite (xm_next_eq a b p q f) in Es
         | context [xm_sweep ?k ?sk ?b ?a] => rewrite (xm_sweep_eq k sk b a) in Es
         end;
  xm_red Es.

(* One goal per branch of [xm_step true max n (XS ..) t], where [Hth : th t = XT pc q f]; the guards
   of the branch are in the context, the step's result is an explicit record.  [Hl : live pc = true]
   removes the program counters of the code before the repair. *)
Ltac xm_cases Hth Hl :=
  match goal with
  | |- context [xm_step true ?max ?n ?s ?t] =>
      let s' := fresh "s'" in let Es := fresh "Es" in
      remember (xm_step true max n s t) as s' eqn:Es;
      unfold xm_step, xm_take_end in Es; cbn [xms_th] in Es; rewrite Hth in Es; cbn [xm_pcv] in Es;
      match type of Hth with _ = XT ?pc _ _ => destruct pc end; try discriminate Hl;
      xm_red Es; xm_nxt Es;
      repeat match type of Es with context [if ?b then _ else _] =>
        destruct b eqn:?; xm_nxt Es end;
      subst s'; xm_proj
  end.

(* [pw] for cells under [clr], rewriting every [upd] and not only the first *)
Ltac pwt j t :=
  destruct (Nat.eq_dec j t) as [->|?];
  [rewrite ?clr_same, ?upd_same | rewrite ?clr_other, ?upd_other by assumption].

Section Proofs.
  Variable max n : nat.
  Variable qs : nat -> list val.
  Variable fins : nat -> final.

  Definition pcof (s : xm_state) (t : nat) : xm_pc := xm_pcv (xms_th s t).

  (** *** Live: the program counters of the code before the repair are never reached; the threads
      that are not members never start *)
  Definition live (p : xm_pc) : bool :=
    match p with XmAtEndLoad | XmAtEndStore => false | _ => true end.

  Definition Live (s : xm_state) : Prop :=
    forall j, live (pcof s j) = true /\ (n <= j -> pcof s j = XmFinished).

  Lemma Live_init : Live (xm_init n qs fins).
  Proof.
    intros j. unfold pcof. cbn -[Nat.ltb]. destruct (Nat.ltb_spec j n); split; auto; lia.
  Qed.

  Lemma nxt_live sp q f : live (xm_pcv (nxt sp q f)) = true.
  Proof. apply nxt_pcs; reflexivity. Qed.

  Lemma Live_step s t : Live s -> Live (xm_step true max n s t).
  Proof.
    destruct s as [st ec en cell stp tk te th tr]. unfold Live, pcof. cbn [xms_th]. intros HL j.
    destruct (HL t) as [Hl Ho]. destruct (th t) as [pc q f] eqn:Hth. cbn [xm_pcv] in Hl, Ho.
    xm_cases Hth Hl; try apply HL.
    all: pw j t; [|apply HL].
    all: split; [first [reflexivity | apply nxt_live] | intros Hn; discriminate (Ho Hn)].
  Qed.

  Lemma Live_lt s t : Live s -> pcof s t <> XmFinished -> t < n.
  Proof. intros HL Hp. destruct (Nat.lt_ge_cases t n); [assumption|]. now destruct (proj2 (HL t)). Qed.

  (* [HL : Live s]: the state and the record of thread [t] as explicit records, then one goal per
     branch of the step *)
  Ltac xm_open s t HL :=
    destruct s as [st ec en cell stp tk te th tr];
    let Hl := fresh "Hl" in
    destruct (HL t) as [Hl _]; unfold pcof in Hl; cbn [xms_th] in Hl;
    destruct (th t) as [pc q f] eqn:Hth; cbn [xm_pcv] in Hl;
    xm_cases Hth Hl.

  Definition Tal (s : xm_state) : Prop :=
    Talc max (xms_taken s) (xms_cell s) (xms_stopped s) (xms_tr s) /\ existsb is_panic (xms_tr s) = false.

  Lemma Tal_init : Tal (xm_init n qs fins).
  Proof. split; [split; [constructor; cbn; auto; lia | discriminate] | reflexivity]. Qed.

  Lemma Talc_clr tk cell stp tr b t : Talc max tk cell stp tr -> Talc max tk (clr b cell t) stp tr.
  Proof. apply Talc_cells. intros j. apply clr_false. Qed.

  Lemma Tal_step s t : Live s -> Tal s -> Tal (xm_step true max n s t).
  Proof.
    intros HL HT. xm_open s t HL; try exact HT; guards.
    all: destruct HT as (HT & Hp); unfold Tal; xm_proj;
      (split; [|cbn [existsb is_panic snd orb]; rewrite ?sw_tr_panic; exact Hp]).
    all: try apply Talc_clr; try (apply Talc_quiet; [reflexivity|]);
      try apply Talc_sweep; try exact HT.
    - (* the output ended during the greeting: the member takes its own talkback out of its cell *)
      now apply Talc_stop.
    - (* a ticket is taken *)
      now apply Talc_take.
  Qed.

  (** *** End1: the sink's terminal message.  Whoever finds take's [end] flag unset ends the sink: at
      once (the swaps of the Terminate and Error arms), or after merge's sink talkback has run
      (the thread at XmAtMgEnded, at most one) *)
  Definition is_holder (p : xm_pc) : bool := match p with XmAtMgEnded => true | _ => false end.
  Definition panicked (s : xm_state) : bool := existsb is_panic (xms_tr s).

  Definition End1 (s : xm_state) : Prop :=
    one_end (xms_tend s) (count is_begin_term (xms_tr s)) (panicked s) (fun t => is_holder (pcof s t)).

  Lemma End1_init : End1 (xm_init n qs fins).
  Proof.
    apply one_end_init. intros t. unfold pcof. cbn -[Nat.ltb]. destruct (t <? n); reflexivity.
  Qed.

  Lemma nxt_holder sp q f : is_holder (xm_pcv (nxt sp q f)) = false.
  Proof. apply nxt_pcs; reflexivity. Qed.

  Lemma End1_step s t : Live s -> End1 s -> End1 (xm_step true max n s t).
  Proof.
    intros HL HE. xm_open s t HL; try exact HE.
    all: unfold End1, panicked, pcof in *; xm_proj.
    all: rewrite ?count_cons_t, ?sw_tr_count by reflexivity; cbn [is_begin_term snd b2n Nat.add].
    all: try solve [ eapply one_end_frame with (t := t); [upd_others t | exact HE | | ];
                     [ cbn [existsb is_panic snd orb]; rewrite ?sw_tr_panic; auto
                     | cbn beta; rewrite upd_same, Hth, ?nxt_holder; reflexivity ] ].
    - (* the holder of the last ticket finds the flag unset *)
      eapply one_end_enter with (t := t); [upd_others t | exact HE | cbn beta; now rewrite upd_same].
    - (* merge's sink talkback has run: the sink's Terminate begins *)
      eapply one_end_leave with (t := t); [upd_others t | exact HE | cbn beta; now rewrite Hth | cbn beta; now rewrite upd_same | now left].
    - eapply one_end_set with (t := t); [upd_others t | exact HE | cbn beta; now rewrite upd_same].
    - eapply one_end_set with (t := t); [upd_others t | exact HE | cbn beta; now rewrite upd_same].
  Qed.

  (** *** Tick: while [max] items were taken and take's [end] flag is unset, the thread that
      obtained the last ticket is on its way to the swap *)
  Definition is_hpc (p : xm_pc) : bool :=
    match p with XmInData t' => Nat.eqb t' max | XmAtEndSwap => true | _ => false end.

  Definition Tick (s : xm_state) : Prop :=
    ticket max (xms_taken s) (xms_tend s) (fun t => is_hpc (pcof s t)).

  Lemma Tick_init : Tick (xm_init n qs fins).
  Proof. intros H1 H2. cbn in H2. lia. Qed.

  Lemma nxt_hpc sp q f : is_hpc (xm_pcv (nxt sp q f)) = false.
  Proof. apply nxt_pcs; reflexivity. Qed.

  Lemma Tick_step s t : Live s -> Tick s -> Tick (xm_step true max n s t).
  Proof.
    intros HL HT. xm_open s t HL; try exact HT.
    all: unfold Tick, pcof in *; xm_proj.
    all: try solve [ eapply ticket_frame with (t := t); [upd_others t | exact HT | auto | ];
                     cbn beta; rewrite upd_same, Hth; cbn [xm_pcv is_hpc]; intros Hh;
                     first [discriminate Hh | congruence | left; reflexivity | right; reflexivity] ].
    (* a ticket is taken *)
    intros _ Hm. right. exists t. rewrite upd_same. cbn [xm_pcv is_hpc]. now apply Nat.eqb_eq.
  Qed.

  (** *** Ord: every member's deliveries are a prefix of its queue; as long as take is not full,
      what remains is the datum in its hand and the rest of its queue *)
  Definition pend (p : xm_pc) : list val := match p with XmAtTaken v => [v] | _ => [] end.

  Definition Dc (tk : nat) (tr : list tevent) (j : nat) (thr : xm_thread) : Prop :=
    exists l, delivered_by j (rev tr) ++ l = qs j /\
              (tk < max -> l = pend (xm_pcv thr) ++ xm_q thr).

  Definition Ord (s : xm_state) : Prop := forall j, Dc (xms_taken s) (xms_tr s) j (xms_th s j).

  Lemma Ord_init : Ord (xm_init n qs fins).
  Proof.
    intros j. exists (qs j). split; [reflexivity|]. intros _. cbn -[Nat.ltb].
    destruct (j <? n); reflexivity.
  Qed.

  Lemma Dc_keep tk tr j thr tk' tr' thr' :
    Dc tk tr j thr -> delivered_by j (rev tr') = delivered_by j (rev tr) ->
    (tk' < max -> tk < max /\ pend (xm_pcv thr') ++ xm_q thr' = pend (xm_pcv thr) ++ xm_q thr) ->
    Dc tk' tr' j thr'.
  Proof.
    intros (l & Hl & Hq) Ht Hp. exists l. split; [now rewrite Ht|].
    intros Hlt. destruct (Hp Hlt) as [H1 H2]. rewrite H2. auto.
  Qed.

  Lemma pend_nxt sp q f : pend (xm_pcv (nxt sp q f)) ++ xm_q (nxt sp q f) = q.
  Proof. unfold nxt. destruct sp; [reflexivity|]. destruct q; [|reflexivity]. destruct f; reflexivity. Qed.

  Lemma Ord_step s t : Live s -> Ord s -> Ord (xm_step true max n s t).
  Proof.
    intros HL HO. xm_open s t HL; try exact HO; guards.
    all: intros j; specialize (HO j); xm_proj.
    all: try solve [ eapply Dc_keep; [exact HO | |];
           [ rewrite ?deliv_cons by discriminate; rewrite ?(qext_delivered _ (sw_tr_qext _ _ _ _ _)); reflexivity
           | intros Hlt; first [exfalso; lia | split; [exact Hlt|]; pw j t; [|reflexivity];
             rewrite Hth; cbn [xm_pcv xm_q pend]; rewrite ?pend_nxt; reflexivity ] ] ].
    (* a ticket is taken and the delivery begins *)
    pw j t.
    - destruct HO as (l & Hl' & Hq). rewrite Hth in Hq. specialize (Hq Heqb). subst l.
      exists q. split; [|reflexivity].
      cbn [rev]. rewrite delivered_snoc. cbn [ev_data]. rewrite Nat.eqb_refl, <- app_assoc. exact Hl'.
    - eapply Dc_keep; [exact HO | apply deliv_cons; auto | intros Hlt; split; [lia|reflexivity]].
  Qed.

  Definition Inv (s : xm_state) : Prop := Live s /\ Tal s /\ End1 s /\ Tick s /\ Ord s.

  Lemma Inv_init : Inv (xm_init n qs fins).
  Proof.
    split; [apply Live_init|]. split; [apply Tal_init|]. split; [apply End1_init|].
    split; [apply Tick_init | apply Ord_init].
  Qed.

  Lemma Inv_step s t : Inv s -> Inv (xm_step true max n s t).
  Proof.
    intros (HL & HT & HE & HK & HO).
    split; [now apply Live_step|]. split; [now apply Tal_step|]. split; [now apply End1_step|].
    split; [now apply Tick_step | now apply Ord_step].
  Qed.

  Lemma reach_inv s : xm_reach max n qs fins s -> Inv s.
  Proof. induction 1; [apply Inv_init | now apply Inv_step]. Qed.

  (** *** C19 through merge!, safety: never more than [max] data, the sink is ended at most once,
      every member is told to stop at most once, no panic - for any number of failing members *)
  Theorem takemerge_safe s : xm_reach max n qs fins s ->
    count is_begin_data (xms_tr s) <= max
    /\ count is_begin_term (xms_tr s) <= 1
    /\ (forall j, count (is_up_term_of j) (xms_tr s) <= 1)
    /\ existsb is_panic (xms_tr s) = false.
  Proof.
    intros Hr. destruct (reach_inv Hr) as (_ & (([Ha Hb Hc] & _) & Hp) & HE & _ & _).
    split; [|split; [|split]].
    - now rewrite <- Ha.
    - eapply Nat.le_trans; [exact (e_le HE)|apply b2n_le1].
    - intros j. rewrite Hc. apply b2n_le1.
    - exact Hp.
  Qed.

  Lemma finished_pc s : Live s -> (forall t, t < n -> xm_finished s t = true) ->
    forall t, pcof s t = XmFinished.
  Proof.
    intros HL. apply members_finished; [|apply HL].
    intros t. unfold xm_finished, pcof. now destruct (xm_pcv (xms_th s t)).
  Qed.

  Lemma quiet_tend s : 1 <= max -> Inv s -> (forall t, t < n -> xm_finished s t = true) ->
    max <= count is_begin_data (xms_tr s) -> xms_tend s = true.
  Proof.
    intros Hpos (HL & (([Ha Hb _] & _) & _) & _ & HK & _) Hfin Hmax.
    assert (Hm : xms_taken s = max) by lia.
    destruct (HK Hpos Hm) as [Ht|[t Ht]]; [exact Ht|]. rewrite (finished_pc HL Hfin) in Ht. discriminate.
  Qed.

  (** *** completion: once [max] data were delivered and everything is quiet, the sink has been
      ended exactly once *)
  Theorem takemerge_complete s : 1 <= max -> xm_reach max n qs fins s ->
    (forall t, t < n -> xm_finished s t = true) ->
    max <= count is_begin_data (xms_tr s) -> count is_begin_term (xms_tr s) = 1.
  Proof.
    intros Hpos Hr Hfin Hmax. pose proof (reach_inv Hr) as HI.
    pose proof (quiet_tend Hpos HI Hfin Hmax) as Hte.
    destruct HI as (HL & (_ & Hp) & HE & _ & _).
    rewrite (e_eq HE), Hte; [reflexivity| |exact Hp].
    intros t. cbn beta. now rewrite (finished_pc HL Hfin).
  Qed.

  (** *** a member's data arrive in its own order, nothing forged *)
  Theorem takemerge_order s t : xm_reach max n qs fins s ->
    is_prefix (delivered_by t (rev (xms_tr s))) (qs t) = true.
  Proof.
    intros Hr. destruct (reach_inv Hr) as (_ & _ & _ & _ & HO).
    destruct (HO t) as (l & Hl & _). rewrite <- Hl. apply is_prefix_app.
  Qed.

  Theorem takemerge_final s : 1 <= max -> xm_reach max n qs fins s ->
    (forall t, t < n -> xm_finished s t = true) -> takemerge_check max (rev (xms_tr s)) = [].
  Proof.
    intros Hpos Hr Hfin. destruct (takemerge_safe Hr) as (H1 & H2 & H3 & H4).
    apply takemerge_check_nil; auto. now apply takemerge_complete.
  Qed.

  (** ** take ends its upstream: the cells and the members *)

  (** *** Mem: per thread, by program counter: a member that greets or delivers has its talkback
      in its cell exactly as long as nobody told it to stop; a member that completes empties its
      cell itself and is never told to stop *)
  Definition Memc (ec : nat) (en : bool) (j : nat) (cl sp : bool) (thr : xm_thread) : Prop :=
    xm_fin thr = fins j /\
    match xm_pcv thr with
    | XmAtEndInc | XmInTermAll => cl = false /\ sp = false /\ xm_q thr = [] /\ xm_fin thr = FinTerm
    | XmAtEndSwapT => cl = false /\ sp = false /\ xm_q thr = [] /\ xm_fin thr = FinTerm /\ n <= ec
    | XmAtEndedStore e => xm_q thr = [] /\ xm_fin thr = FinErr e
    | XmAtEndSwapE e => xm_q thr = [] /\ xm_fin thr = FinErr e /\ en = true
    | XmInErr => xm_q thr = [] /\ xm_fin thr <> FinNone /\ xm_fin thr <> FinTerm
    | XmFinished =>
        j < n -> sp = false ->
        (xm_fin thr = FinNone -> cl = true) /\ (xm_fin thr = FinTerm -> cl = false) /\
        (xm_fin thr <> FinNone -> xm_q thr = [])
    | XmAtEndLoad | XmAtEndStore => True
    | _ => cl = negb sp
    end.

  Definition Mem (s : xm_state) : Prop :=
    forall j, Memc (xms_endc s) (xms_ended s) j (xms_cell s j) (xms_stopped s j) (xms_th s j).

  Lemma Mem_init : Mem (xm_init n qs fins).
  Proof.
    intros j. unfold Memc. cbn -[Nat.ltb].
    destruct (Nat.ltb_spec j n); cbn; split; auto. intros; lia.
  Qed.

  Lemma Memc_other ec en j cl sp thr ec' en' cl' sp' :
    Memc ec en j cl sp thr -> ec <= ec' -> (en = true -> en' = true) ->
    (cl' = cl /\ sp' = sp) \/ (cl = true /\ cl' = false /\ sp' = true) -> Memc ec' en' j cl' sp' thr.
  Proof.
    unfold Memc. intros (Hf & H) Hec Hen Hc. split; [exact Hf|].
    destruct Hc as [[-> ->]|(Hc & -> & ->)]; destruct (xm_pcv thr); try exact H; try reflexivity;
      try (intros; discriminate); try (destruct H as (H & _); congruence).
    - destruct H as (? & ? & ? & ? & ?). repeat split; auto; lia.
    - destruct H as (? & ? & ?). auto.
    - destruct H as (? & ? & ?). auto.
  Qed.

  Lemma Memc_nxt ec en j cl sp q f :
    f = fins j -> cl = negb sp -> Memc ec en j (cl && negb (leaves sp q f)) sp (nxt sp q f).
  Proof.
    intros Hf ->. unfold Memc, nxt, leaves. destruct sp; cbn; [split; [exact Hf|intros; discriminate]|].
    destruct q; cbn; [|now split]. destruct f; cbn; (split; [exact Hf|]); auto.
    intros _ _. repeat split; auto; intros; congruence.
  Qed.

  Lemma Mem_step s t : Live s -> Mem s -> Mem (xm_step true max n s t).
  Proof.
    intros HL HM. xm_open s t HL; try exact HM; guards.
    all: unfold Mem in *; xm_proj; intros j; pose proof (HM j) as Hj; pwt j t.
    all: try solve [ apply (Memc_other Hj); [lia | auto | first [left; split; reflexivity | apply sweep_cases]] ].
    all: clear Hj; destruct (HM t) as (Hf & Ht); rewrite Hth in Hf, Ht; cbn [xm_fin xm_pcv xm_q] in Hf, Ht.
    all: try solve [ apply Memc_nxt; [exact Hf | first [exact Ht | reflexivity]] ].
    all: split; [exact Hf|]; cbn [xm_fin xm_pcv xm_q]; try exact Ht.
    1: { (* merge's sink talkback sweeps the own cell too *)
      destruct (sweep_cases (hit None) cell stp n t) as [[-> ->]|(_ & -> & ->)]; [exact Ht|reflexivity]. }
    all: try (intros _ _); clear Hf; clauses.
  Qed.

  (** *** Cnt: [end_count] is the number of members that counted themselves: those past the
      counter, ending with Terminate, never told to stop *)
  Definition xpc_done (pc : xm_pc) : bool :=
    match pc with XmAtEndSwapT | XmInTermAll | XmFinished => true | _ => false end.
  Definition xcountedc (sp : bool) (thr : xm_thread) : bool :=
    xpc_done (xm_pcv thr) && fin_term (xm_fin thr) && negb sp.
  Definition xcounted (th : nat -> xm_thread) (stp : nat -> bool) (j : nat) : bool := xcountedc (stp j) (th j).
  Definition Cnt (s : xm_state) : Prop := xms_endc s = cnt (xcounted (xms_th s) (xms_stopped s)) n.

  Lemma Cnt_init : Cnt (xm_init n qs fins).
  Proof.
    unfold Cnt. cbn -[Nat.ltb]. symmetry. apply cnt_none. intros j Hj. unfold xcounted. cbn -[Nat.ltb].
    now rewrite (proj2 (Nat.ltb_lt j n) Hj).
  Qed.

  Lemma Cnt_upd th stp th' stp' t ec ec' :
    t < n -> ec = cnt (xcounted th stp) n ->
    (forall j, j < n -> j <> t -> xcounted th' stp' j = xcounted th stp j) ->
    ec' + b2n (xcountedc (stp t) (th t)) = ec + b2n (xcountedc (stp' t) (th' t)) ->
    ec' = cnt (xcounted th' stp') n.
  Proof.
    intros Ht -> Ho H. rewrite cnt_eq in *. pose proof (@cnt_change (xcounted th stp) (xcounted th' stp') n t Ht) as C.
    specialize (C Ho). unfold xcounted in *. lia.
  Qed.

  Lemma countedc_nxt sp q f : xcountedc sp (nxt sp q f) = false.
  Proof.
    unfold nxt, xcountedc. destruct sp; [apply andb_false_r|]. destruct q; [|reflexivity]. destruct f; reflexivity.
  Qed.

  (** a member that counted itself has emptied its cell: no sweep tells it to stop *)
  Lemma counted_sweep ec en th cell stp hit k j :
    Memc ec en j (cell j) (stp j) (th j) -> j < n ->
    xcounted th (sw_stp hit cell stp k) j = xcounted th stp j.
  Proof.
    intros (_ & H) Hj. unfold xcounted, xcountedc.
    destruct (sweep_cases hit cell stp k j) as [[_ ->]|(Hc & _ & ->)]; [reflexivity|].
    destruct (xpc_done (xm_pcv (th j))) eqn:Ed; [|reflexivity].
    destruct (fin_term (xm_fin (th j))) eqn:Ef; [|reflexivity]. destruct (stp j) eqn:Es; [reflexivity|].
    exfalso. destruct (xm_fin (th j)); try discriminate Ef.
    destruct (xm_pcv (th j)); try discriminate Ed;
      [destruct H as (Hcl & _) .. | destruct (H Hj eq_refl) as (_ & Hcl & _); specialize (Hcl eq_refl)];
      congruence.
  Qed.

  Lemma Cnt_step s t : Live s -> Mem s -> Cnt s -> Cnt (xm_step true max n s t).
  Proof.
    intros HL HM HC. xm_open s t HL; try exact HC; guards.
    all: unfold Cnt, Mem in *; xm_proj.
    all: assert (Htn : t < n) by (apply (@Live_lt _ t HL); unfold pcof; cbn [xms_th]; rewrite Hth; discriminate).
    all: destruct (HM t) as (_ & Ht); rewrite Hth in Ht; cbn [xm_fin xm_pcv xm_q] in Ht.
    all: eapply Cnt_upd with (t := t);
      [ exact Htn | exact HC
      | intros j Hj ne; unfold xcounted; rewrite ?upd_other by exact ne;
        first [reflexivity | exact (counted_sweep _ _ _ _ _ (HM j) Hj)] |].
    all: rewrite ?upd_same, Hth, ?countedc_nxt; unfold xcountedc; cbn [xm_pcv xm_fin xpc_done andb b2n].
    all: try reflexivity.
    - (* the member counts itself: it completes and was never told to stop *)
      destruct Ht as (_ & -> & _ & ->). cbn. lia.
    - destruct Ht as (_ & -> & _ & ->). cbn. lia.
    - (* a failing member is not counted *)
      destruct Ht as (_ & -> & _). reflexivity.
    - destruct Ht as (_ & _ & Ht). destruct f; [congruence|reflexivity..].
  Qed.

  (** *** Cel: once merge's [ended] flag is set, the cell of every member that neither completes
      nor fails has been emptied *)
  Definition Cel (s : xm_state) : Prop :=
    xms_ended s = true -> forall j, j < n -> fins j = FinNone -> xms_cell s j = false.

  Lemma Cel_init : Cel (xm_init n qs fins).
  Proof. intros H. discriminate. Qed.

  Lemma Cel_step s t : Live s -> Mem s -> Cel s -> Cel (xm_step true max n s t).
  Proof.
    intros HL HM HC. xm_open s t HL; try exact HC.
    all: unfold Cel, Mem in *; xm_proj; intros He j Hj Hn.
    all: try solve [ pose proof (HC He j Hj Hn) as Hc; pwt j t; rewrite ?Hc; reflexivity ].
    - (* merge's sink talkback empties every cell *)
      now apply sw_cell_hit.
    - (* the failing member passes over its own cell *)
      apply sw_cell_hit; [exact Hj|]. cbn. apply negb_true_iff, Nat.eqb_neq. intros ->.
      destruct (HM t) as (Hf & Ht). rewrite Hth in Hf, Ht. cbn in Hf, Ht. destruct Ht as (_ & Ht). congruence.
  Qed.

  (** *** Why: why take's [end] flag is set: merge's sink talkback has run or is about to,
      a member failed, or every member completed *)
  Definition Why (s : xm_state) : Prop :=
    why_end n (xms_tend s) (xms_ended s) (xms_endc s) (panicked s) (fun t => is_holder (pcof s t)).

  Lemma Why_init : Why (xm_init n qs fins).
  Proof. intros H. discriminate. Qed.

  Lemma Why_step s t : Live s -> Mem s -> Why s -> Why (xm_step true max n s t).
  Proof.
    intros HL HM HW. xm_open s t HL; try exact HW; guards.
    all: unfold Why, Mem, panicked, pcof in *; xm_proj.
    all: destruct (HM t) as (_ & Ht); rewrite Hth in Ht; cbn [xm_fin xm_pcv xm_q] in Ht.
    all: try solve [ eapply why_end_keep with (t := t); [upd_others t | exact HW | auto | lia | |];
           [ cbn [existsb is_panic snd orb]; rewrite ?sw_tr_panic; auto
           | cbn beta; rewrite Hth; cbn [xm_pcv is_holder]; intros Hh;
             first [discriminate Hh | right; left; reflexivity] ] ].
    - (* the holder of the last ticket sets the flag: merge's sink talkback is next *)
      intros _. right. right. left. exists t. now rewrite upd_same.
    - (* the last member's completion *)
      intros _. right. left. apply Ht.
    - (* a failing member *)
      intros _. left. apply Ht.
  Qed.

  Definition Inv2 (s : xm_state) : Prop := Inv s /\ Mem s /\ Cnt s /\ Cel s /\ Why s.

  Lemma reach_inv2 s : xm_reach max n qs fins s -> Inv2 s.
  Proof.
    induction 1 as [|s t _ (HI & HM & HC & HE & HW)].
    - split; [apply Inv_init|]. split; [apply Mem_init|]. split; [apply Cnt_init|].
      split; [apply Cel_init | apply Why_init].
    - pose proof (proj1 HI) as HL.
      split; [now apply Inv_step|]. split; [now apply Mem_step|]. split; [now apply Cnt_step|].
      split; [now apply Cel_step | now apply Why_step].
  Qed.

  (** *** take ends its upstream: once [max] data were delivered and everything is quiet, every
      member has been told to stop exactly once, or had ended by itself (completed or failed,
      its queue delivered or dropped by take) and was never told to stop *)
  Theorem takemerge_members_stopped s : 1 <= max -> xm_reach max n qs fins s ->
    (forall t, t < n -> xm_finished s t = true) -> max <= count is_begin_data (xms_tr s) ->
    forall j, j < n -> count (is_up_term_of j) (xms_tr s) = 1
                       \/ (xm_q (xms_th s j) = [] /\ fins j <> FinNone /\ xms_stopped s j = false).
  Proof.
    intros Hpos Hr Hfin Hmax j Hj. destruct (reach_inv2 Hr) as (HI & HM & HC & HE & HW).
    pose proof (quiet_tend Hpos HI Hfin Hmax) as Hte.
    destruct HI as (HL & (([_ _ Hup] & _) & Hp) & _).
    pose proof (finished_pc HL Hfin) as Hpc. unfold pcof in Hpc.
    rewrite Hup. destruct (xms_stopped s j) eqn:Es; [left; reflexivity|]. right.
    destruct (HM j) as (Hf & Hd). rewrite (Hpc j), Es, Hf in Hd. destruct (Hd Hj eq_refl) as (Hn & _ & Hq).
    assert (Hne : fins j <> FinNone); [|auto].
    intros Hnone. specialize (Hn Hnone).
    destruct (HW Hte) as [Hen|[Hec|[[t0 Ht0]|Hpan]]].
    - rewrite (HE Hen j Hj Hnone) in Hn. discriminate.
    - assert (Hcj : xcounted (xms_th s) (xms_stopped s) j = false).
      { unfold xcounted, xcountedc. rewrite Hf, Hnone. cbn. now rewrite andb_false_r. }
      pose proof (cnt_lt _ Hj Hcj). unfold Cnt in HC. rewrite cnt_eq in HC. lia.
    - cbn beta in Ht0. unfold pcof in Ht0. rewrite Hpc in Ht0. discriminate.
    - unfold panicked in Hpan. congruence.
  Qed.
End Proofs.

Lemma takemerge_run_full_reach max n qs fins nth sch fuel :
  xm_reach max n qs fins (run_full (xm_step true max n) xm_finished nth sch fuel (xm_init n qs fins)).
Proof. apply run_full_inv; [intros s t; apply xmrS | apply xmr0]. Qed.

Corollary takemerge_driver_final max n qs fins nth sch fuel : 1 <= max ->
  let s := run_full (xm_step true max n) xm_finished nth sch fuel (xm_init n qs fins) in
  (forall t, t < n -> xm_finished s t = true) -> takemerge_check max (rev (xms_tr s)) = [].
Proof. intros Hpos s Hf. apply takemerge_final with (n := n) (qs := qs) (fins := fins); auto. apply takemerge_run_full_reach. Qed.

(** the code before the repair: the sink is ended twice on the witness schedule of ThreadsTakeMerge.v *)
Theorem takemerge_unfixed_refuted :
  let s := run_full (xm_step false 1 2) xm_finished 2 h11_sched 400 (xm_init 2 h11_qs h11_fins) in
  (forall t, t < 2 -> xm_finished s t = true) /\ count is_begin_term (xms_tr s) = 2
  /\ In TvSinkTermTwice (takemerge_check 1 (rev (xms_tr s))).
Proof.
  cbv zeta. split; [|split].
  - intros t Ht. destruct t as [|[|t]]; [vm_compute; reflexivity | vm_compute; reflexivity | lia].
  - vm_compute. reflexivity.
  - vm_compute. auto.
Qed.

Example takemerge_fixed_h11_ok :
  let s := run_full (xm_step true 1 2) xm_finished 2 h11_sched 400 (xm_init 2 h11_qs h11_fins) in
  (forall t, t < 2 -> xm_finished s t = true) /\ takemerge_check 1 (rev (xms_tr s)) = []
  /\ count is_begin_term (xms_tr s) = 1.
Proof.
  cbv zeta. split; [|split].
  - intros t Ht. destruct t as [|[|t]]; [vm_compute; reflexivity | vm_compute; reflexivity | lia].
  - vm_compute. reflexivity.
  - vm_compute. reflexivity.
Qed.

Print Assumptions takemerge_safe.
Print Assumptions takemerge_complete.
Print Assumptions takemerge_order.
Print Assumptions takemerge_members_stopped.
Print Assumptions takemerge_final.
Print Assumptions takemerge_run_full_reach.
Print Assumptions takemerge_driver_final.
Print Assumptions takemerge_unfixed_refuted.
Print Assumptions takemerge_fixed_h11_ok.
