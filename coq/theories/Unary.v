(** * Unary: the relays map, filter, scan, skip - one sink, the one upstream port 0. *)
From CB Require Export Ports.

Set Implicit Arguments.

(** the monitor's base ([pbase] of Ports.v) of an operator that only ever subscribes port 0 *)
Notation ubase := (obase (fun i => i = 0)).

(** the activation ends: [pcall_done] where all that can be live or owe is port 0 *)
Lemma done_port0 p o m m' : m' = ms_settle p o m [] ARet -> ubase None m ->
  (cstack m = [] -> sk_over (sk m 0) = true -> us_live (us m 0) = false) ->
  (cstack m = [] -> c14 p = true -> sk m 0 = SLive ->
   us m 0 <> UNone /\ (owed m 0 = 0 -> npull m 0 = ndata m 0)) ->
  m' = m.
Proof.
  intros E B H1 H2. apply (pcall_done E B).
  - intros Hc Ho i Hl. assert (i = 0) by (apply (known_used B); congruence). subst i.
    specialize (H1 Hc Ho). now rewrite Hl in H1.
  - intros Hc H14 Hl Hall. destruct (H2 Hc H14 Hl) as [Hu H]. apply H, Hall, (pb_known B), Hu.
Qed.
Arguments done_port0 [p o m m'].

(** ** Relays: map, filter, scan, skip

    A relay answers every input on its port with exactly one call: it subscribes when
    subscribed, greets when greeted, passes talkback messages up and ends down, and answers
    a datum either with a datum for the sink or - having dropped it - with a Pull of its own.
    [ready] is whatever its state needs for that once the upstream has greeted (the talkback
    cell is set).  One invariant covers every regime: with [c14 p = true] (pullable upstream,
    one Pull per message) it also carries the demand counters,

      owed + ndata = npull      every Pull is answered or owed upstream
      credit + owed = 1         the one token is with the sink or upstream

    which a dropped datum leaves alone: it takes [owed] to 0 and the re-request back to 1. *)
Section Relay.
  Variable p : mparams.
  Hypothesis Hns : nsinks p = 1.
  Hypothesis Hnonest : no_nest p = false.
  Hypothesis Hreg : c14 p = true -> pullable p = true /\ one_pull p = true.
  Variable o : op.
  Variable ready : St o -> Prop.

  (** the call a relay answers an input with, in the only state of its two peers in which a
      conformant environment can perform that input *)
  Inductive row : sks -> uss -> input -> call -> Prop :=
  | row_sub : row SNone UNone (ISub 0 0) (CSub 0)
  | row_greet : row SNone USubd (IDn 0 DH) (CDn 0 DH)
  | row_fwd v w : row SLive ULive (IDn 0 (DD v)) (CDn 0 (DD w))
  | row_drop v : row SLive ULive (IDn 0 (DD v)) (CUp 0 UP)
  | row_end d : dmsg_is_term d = true -> row SLive ULive (IDn 0 d) (CDn 0 d)
  | row_up u : row SLive ULive (IUp 0 u) (CUp 0 u).

  Record relay : Prop := {
    rl_sub : forall s, exists s' k, handle o (ISub 0 0) s = (s', [], ACall (CSub 0) k);
    rl_greet : forall s, exists s' k,
        handle o (IDn 0 DH) s = (s', [], ACall (CDn 0 DH) k) /\ ready s';
    rl_data : forall s v, ready s -> exists s' k, ready s' /\
        ((exists w, handle o (IDn 0 (DD v)) s = (s', [], ACall (CDn 0 (DD w)) k)) \/
         handle o (IDn 0 (DD v)) s = (s', [], ACall (CUp 0 UP) k));
    rl_end : forall s d, dmsg_is_term d = true -> exists s' k,
        handle o (IDn 0 d) s = (s', [], ACall (CDn 0 d) k) /\ (ready s -> ready s');
    rl_up : forall s u, ready s -> exists s' k,
        handle o (IUp 0 u) s = (s', [], ACall (CUp 0 u) k) /\ ready s';
    rl_ret : forall k s, exists s', resume o k s = (s', [], ARet) /\ (ready s -> ready s');
  }.
  Hypothesis R : relay.

  Record rinv (c : cfg o) : Prop := {
    r_dead : dead c = false;
    r_base : ubase None (ms c);
    r_pair : paired (sk (ms c) 0) (us (ms c) 0);
    r_subd : subd (ms c) 0 = true -> us (ms c) 0 <> UNone;
    r_ready : us (ms c) 0 = ULive -> ready (cst c);
    r_nodata : us (ms c) 0 = UNone -> data_in 0 (trace c) = [];
    r_zero : c14 p = true -> sk (ms c) 0 = SNone -> owed (ms c) 0 = 0 /\ cnt3 (ms c) = (0, 0, 0);
    r_cnt : c14 p = true -> sk (ms c) 0 = SLive ->
            owed (ms c) 0 + ndata (ms c) 0 = npull (ms c) 0 /\
            credit (ms c) 0 + owed (ms c) 0 = 1;
  }.

  Lemma rinv0 : rinv (cfg0 o).
  Proof. constructor; cbn; auto; try discriminate. apply pbase0. constructor. Qed.

  Ltac pair_cases c Esk Eus :=
    match goal with H : paired (sk (ms c) 0) (us (ms c) 0) |- _ =>
      destruct (sk (ms c) 0) eqn:Esk; destruct (us (ms c) 0) eqn:Eus; inversion H; clear H
    end.

  (** every enabled input finds the relay in the state of its row, and is answered by that call *)
  Lemma relay_in c i : rinv c -> enabled p g_std c (MIn i) = true ->
    exists s' k cl, handle o i (cst c) = (s', [], ACall cl k) /\
                    row (sk (ms c) 0) (us (ms c) 0) i cl /\ (cl = CSub 0 \/ ready s').
  Proof.
    intros [Hd B HP _ HR _ _ _] He. destruct i as [s aux|s u|i d|s].
    - destruct (en_sub_std Hns He) as (-> & -> & _ & Hsub).
      pose proof (pb_subd B Hsub 0) as Hus. pair_cases c Esk Eus; try discriminate.
      destruct (rl_sub R (cst c)) as (s' & k & Hh). exists s', k, (CSub 0).
      repeat split; auto. constructor.
    - destruct (en_up _ _ _ _ _ He) as (_ & Hsk & _).
      pose proof (live_sink_0 B Hsk). subst s. pair_cases c Esk Eus; try discriminate.
      destruct (rl_up R u (HR eq_refl)) as (s' & k & Hh & Hr'). exists s', k, (CUp 0 u).
      repeat split; auto. constructor.
    - destruct (en_member _ _ _ _ _ He) as [_ Hus].
      assert (i = 0) by (apply (known_used B); rewrite Hus; destruct d; discriminate). subst i.
      destruct d as [|v|e|]; pair_cases c Esk Eus; try discriminate.
      + destruct (rl_greet R (cst c)) as (s' & k & Hh & Hr'). exists s', k, (CDn 0 DH).
        repeat split; auto. constructor.
      + destruct (rl_data R v (HR eq_refl)) as (s' & k & Hr' & [[w Hh]|Hh]);
          [exists s', k, (CDn 0 (DD w)) | exists s', k, (CUp 0 UP)]; repeat split; auto; constructor.
      + destruct (rl_end R (cst c) (DE e) eq_refl) as (s' & k & Hh & Hr').
        exists s', k, (CDn 0 (DE e)). repeat split; auto. now constructor.
      + destruct (rl_end R (cst c) DT eq_refl) as (s' & k & Hh & Hr').
        exists s', k, (CDn 0 DT). repeat split; auto. now constructor.
    - destruct (en_tick _ _ _ _ He) as [_ Ht]. now rewrite (pb_task B) in Ht.
  Qed.

  (** the fields of [rinv (step ..)] that follow from what became of the two peers: all but the
      counter clauses [r_zero]/[r_cnt] (and [r_ready] after a greeting), which each row proves *)
  Ltac peers := constructor; auto; rw_ports; try discriminate; try (now constructor).

  Lemma rinv_step c m : rinv c -> enabled p g_std c m = true -> rinv (step p c m).
  Proof.
    intros I He. pose proof (nest_off Hnonest) as Hnn. destruct m as [i|].
    - destruct (relay_in _ I He) as (s' & k & cl & Hh & Hrow & Hr').
      step_eqs (en_step_in _ _ _ _ He Hh). rewrite <- Ec in Hr'.
      destruct I as [Hd B HP HS HR HN HZ HC].
      inversion Hrow as [Esk Eus|Esk Eus|v w Esk Eus|v Esk Eus|d Hterm Esk Eus|u Esk Eus];
        subst i cl; symmetry in Esk, Eus; rewrite Esk, Eus in *; clear Hrow HP.
      + env_half (pin_sub Em1 B).
        op_half (pcall_sub Em B1 eq_refl); [congruence | now rewrite K1, Esk | exact S1 |].
        peers. intros Hc _. rewrite C2, C1. now apply HZ.
      + env_half (pin_greet Em1 B); [congruence|].
        op_half (pcall_greet Em B1); [congruence|].
        peers; [now destruct Hr'|]. intros Hc _. destruct (HZ Hc eq_refl) as [Z1 Z2]. cnts. lia.
      + destruct (@en_dn p o g_std c 0 (DD v) ltac:(discriminate) He) as (_ & _ & How).
        env_half (pin_data Em1 B).
        assert (Hc : c14 p = true -> owed (ms c) 0 = 1 /\ ndata (ms c) 0 < npull (ms c) 0).
        { intros Hc. destruct (HC Hc eq_refl). destruct (Hreg Hc) as [H1 _].
          pose proof (How H1). lia. }
        op_half (pcall_data Em B1 (Hnn _)); [congruence | |]; cnts.
        { intros Hc'. destruct (Hc Hc'). lia. }
        peers; [now destruct Hr'|]. intros Hc' _. destruct (Hc Hc'), (HC Hc' eq_refl). lia.
      + destruct (@en_dn p o g_std c 0 (DD v) ltac:(discriminate) He) as (_ & _ & How).
        env_half (pin_data Em1 B).
        assert (Hc : c14 p = true -> owed (ms c) 0 = 1).
        { intros Hc. destruct (HC Hc eq_refl). destruct (Hreg Hc) as [H1 _].
          pose proof (How H1). lia. }
        op_half (pcall_pull Em B1); [congruence | |].
        { intros Hc'. now rewrite O1, upd_same, (Hc Hc'). }
        cnts. peers; [now destruct Hr'|]. intros Hc' _.
        pose proof (Hc Hc'). destruct (HC Hc' eq_refl). lia.
      + destruct d as [|v|e|]; try discriminate.
        * env_half (pin_error Em1 B Hns Esk); [congruence|].
          op_half (pcall_error Em B1 (Hnn _)); [congruence|]. peers.
        * env_half (pin_term Em1 B); [congruence|].
          op_half (pcall_term Em B1 (Hnn _)); [congruence|]. peers.
      + destruct (umsg_is_term u) eqn:Hu.
        * env_half (pin_stop Em1 B Hu).
          op_half (pcall_stop Em B1 Hu); [congruence|]. peers.
        * destruct u; try discriminate.
          destruct (en_up _ _ _ _ _ He) as (_ & _ & Hcr).
          env_half (pin_pull Em1 B).
          assert (Hc : c14 p = true -> credit (ms c) 0 = 1 /\ owed (ms c) 0 = 0).
          { intros Hc. destruct (HC Hc eq_refl). destruct (Hreg Hc) as [_ H1].
            pose proof (Hcr eq_refl H1). lia. }
          op_half (pcall_pull Em B1); [congruence | intros Hc'; rewrite O1; now apply Hc |].
          cnts. peers; [now destruct Hr'|]. intros Hc' _. destruct (Hc Hc'), (HC Hc' eq_refl). lia.
    - destruct I as [Hd B HP HS HR HN HZ HC].
      destruct (en_ret _ _ _ He) as (k & cl & rest & Hst & _).
      destruct (rl_ret R k (cst c)) as (s' & Hh & Hr').
      pose proof (step_ret_trace p c Hd Hst Hh) as Ht.
      step_eqs (en_step_ret _ _ _ He Hst Hh). env_half (pin_ret Em1 B).
      pose proof (cnt3_eq C1) as (Cc & Cp & Cd).
      done_half done_port0; rewrite ?K1, ?U1, ?O1, ?Cp, ?Cd.
      + constructor; rewrite ?Ec, ?S1, ?K1, ?U1, ?O1, ?C1, ?Cc, ?Cp, ?Cd; auto.
        intros E. rewrite Ht, data_in_app, app_nil_r. auto.
      + intros _ Ho. destruct HP; try discriminate; reflexivity.
      + intros _ Hc E. rewrite E in HP. inversion HP. split; [discriminate|].
        destruct (HC Hc E). lia.
  Qed.

  Theorem relay_reach c : reach p g_std c -> rinv c.
  Proof. apply reach_invariant; [exact rinv0 | intros ? ? _; apply rinv_step]. Qed.

  Lemma relay_ret c : rinv c -> enabled p g_std c MRet = true ->
    exists k cl rest s', stack c = (k, cl) :: rest /\ resume o k (cst c) = (s', [], ARet).
  Proof.
    intros _ He. destruct (en_ret _ _ _ He) as (k & cl & rest & Hst & _).
    destruct (rl_ret R k (cst c)) as (s' & Hh & _). now exists k, cl, rest, s'.
  Qed.
End Relay.
