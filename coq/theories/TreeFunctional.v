(** * TreeFunctional: what each node of a program computes, in terms of what its children delivered.

    At every point of a reachable program net where the environment has the turn
    ([tpend N = PIdle]):
    - a map / filter / scan / take / skip node has delivered its list function of what its child
      delivered;
    - a concat! node all of whose members are wired has delivered the members' outputs one after
      the other, in member order (append - the concat! stage of C06);
    - a merge! node has delivered an interleaving of its members' outputs (each in its own order);
    - a for_each root has called its closure on exactly what its child delivered;
    - a from_iter leaf has delivered the defined prefix of its iterator.
    Together with [program_tree_sound] these equations determine what every program computes. *)

From CB Require Import ProofLib Spec MonitorSound Results Chain Programs Tree TreePrograms TreeWire.
From CB Require Import Order_nary Inv_for_each Inv_from_iter.

Set Implicit Arguments.

Section ProgFun.
  Variable ts : list tnode.
  Variable es : list edge.
  Variable N : tnet.
  Hypothesis Hok : Forall tnode_ok ts.
  Hypothesis Hes : edges_okb es (length ts) = true.
  Hypothesis Hsink : forall e, In e es -> nth_error ts (e_child e) <> Some TSink.
  Hypothesis Hr : tnet_reach (wiring_of es) (prog_net ts) N.
  Hypothesis Hidle : tpend N = PIdle.

  Let out (n : node) : list val := data_out 0 (ntrace n).

  Lemma prog_wire c P k U D :
    In (c, P, k) es -> nth_error (tnodes N) c = Some U -> nth_error (tnodes N) P = Some D ->
    data_in k (ntrace D) = out U.
  Proof.
    intros Hin HU HD.
    destruct (prog_hyps es Hok Hes Hsink) as (Hw & Hsafe & Hreg & Hsync).
    apply (proj1 (wiring_of_edges es _ Hes c P k)) in Hin.
    pose proof (tree_wire Hw Hsafe Hreg Hsync (nsig_map_mk0 _) (@ninit_map_mk0 _) Hr c
                  Hin HU HD) as Hwire.
    rewrite Hidle in Hwire. cbn [tinflight] in Hwire.
    rewrite app_nil_r in Hwire. unfold out. now rewrite Hwire.
  Qed.

  Lemma prog_node i n t :
    nth_error (tnodes N) i = Some n -> nth_error ts i = Some t ->
    tnode_ok t /\
    exists c : cfg (fst (fst (tsig t))),
      n = mk_node (snd (fst (tsig t))) (snd (tsig t)) c /\
      reach (snd (fst (tsig t))) (snd (tsig t)) c.
  Proof.
    intros Hn Ht. destruct (@program_tree_sound ts es N Hok Hes Hsink Hr i n Hn) as (Hsig & Hre & _).
    rewrite nth_error_map, Ht in Hsig. injection Hsig as Hsig. split.
    - rewrite Forall_forall in Hok. apply Hok. exact (nth_error_In _ _ Ht).
    - destruct (tsig t) as [[o p] g]. destruct (nsig_inv (eq_sym Hsig)) as [c ->]. now exists c.
  Qed.

  Lemma kids_inputs i n k (kids : list nat) (Us : list node) :
    nth_error (tnodes N) i = Some n -> length kids = k -> length Us = k ->
    (forall j c U, nth_error kids j = Some c -> nth_error Us j = Some U ->
       In (c, i, j) es /\ nth_error (tnodes N) c = Some U) ->
    map (fun j => data_in j (ntrace n)) (seq 0 k) = map out Us.
  Proof.
    intros Hn Hlk Hlu Hkids. rewrite <- Hlu.
    assert (G : forall (l : list node) b,
              (forall j U, nth_error l j = Some U -> data_in (b + j) (ntrace n) = out U) ->
              map (fun j => data_in j (ntrace n)) (seq b (length l)) = map out l).
    { induction l as [|U l IH]; intros b H; [reflexivity|]. cbn [length seq map].
      rewrite <- (H 0 U eq_refl), Nat.add_0_r. f_equal. apply IH. intros j U' E.
      rewrite <- (H (S j) U' E). f_equal. lia. }
    apply (G Us 0). intros j U Eu.
    destruct (nth_error kids j) as [c|] eqn:Ec.
    2: { apply nth_error_None in Ec. apply nth_error_lt in Eu. lia. }
    destruct (Hkids j c U Ec Eu) as [Hin HU]. exact (@prog_wire c i j U n Hin HU Hn).
  Qed.

  Theorem prog_stage i n s c U :
    nth_error (tnodes N) i = Some n -> nth_error ts i = Some (TStage s) ->
    In (c, i, 0) es -> nth_error (tnodes N) c = Some U ->
    out n = usem1 s (out U).
  Proof.
    intros Hn Ht Hin HU. rewrite <- (@prog_wire c i 0 U n Hin HU Hn).
    destruct (@prog_node _ _ _ Hn Ht) as (Hokt & c0 & -> & Hre).
    exact (@ustage_functional (p_tree false) eq_refl eq_refl eq_refl eq_refl s Hokt c0 Hre).
  Qed.

  (** concat!: append, in member order (all members wired).  [kids] is read off the edge list: its
      [j]-th entry is the [c] with [(c, i, j)] in [es], for [j < k]; [Us] are the nodes of [N] at
      those indices. *)
  Theorem prog_concat i n k (kids : list nat) (Us : list node) :
    nth_error (tnodes N) i = Some n -> nth_error ts i = Some (TConcat k) ->
    length kids = k -> length Us = k ->
    (forall j c U, nth_error kids j = Some c -> nth_error Us j = Some U ->
       In (c, i, j) es /\ nth_error (tnodes N) c = Some U) ->
    out n = flat_map out Us.
  Proof.
    intros Hn Ht Hlk Hlu Hkids.
    rewrite flat_map_concat_map, <- (@kids_inputs _ _ _ _ _ Hn Hlk Hlu Hkids), <- flat_map_concat_map.
    destruct (@prog_node _ _ _ Hn Ht) as (_ & c0 & -> & Hre).
    exact (@concat_list_function k (p_tree false) eq_refl eq_refl eq_refl eq_refl eq_refl c0 Hre).
  Qed.

  (** merge!: an interleaving of the members' outputs, each member in its own order *)
  Theorem prog_merge i n k (kids : list nat) (Us : list node) :
    nth_error (tnodes N) i = Some n -> nth_error ts i = Some (TMerge k) ->
    length kids = k -> length Us = k ->
    (forall j c U, nth_error kids j = Some c -> nth_error Us j = Some U ->
       In (c, i, j) es /\ nth_error (tnodes N) c = Some U) ->
    interleave (map out Us) (out n).
  Proof.
    intros Hn Ht Hlk Hlu Hkids. rewrite <- (@kids_inputs _ _ _ _ _ Hn Hlk Hlu Hkids).
    destruct (@prog_node _ _ _ Hn Ht) as (Hokt & c0 & -> & Hre).
    exact (@merge_interleaves k (p_tree false) eq_refl eq_refl eq_refl eq_refl Hokt c0 Hre).
  Qed.

  (** for_each at a root: the closure has been called on exactly what the child delivered *)
  Theorem prog_sink i n c U :
    nth_error (tnodes N) i = Some n -> nth_error ts i = Some TSink ->
    In (c, i, 0) es -> nth_error (tnodes N) c = Some U ->
    user_calls (ntrace n) = out U.
  Proof.
    intros Hn Ht Hin HU. rewrite <- (@prog_wire c i 0 U n Hin HU Hn).
    destruct (@prog_node _ _ _ Hn Ht) as (_ & c0 & -> & Hre). exact (@for_each_user (p_tree false) c0 Hre).
  Qed.

  Theorem prog_src i n it :
    nth_error (tnodes N) i = Some n -> nth_error ts i = Some (TSrc it) ->
    exists pos, map Some (out n) =
                filter (fun r => match r with Some _ => true | None => false end) (map it (seq 0 pos)).
  Proof.
    intros Hn Ht. destruct (@prog_node _ _ _ Hn Ht) as (_ & c0 & -> & Hre).
    destruct (@from_iter_order it (p_tree true) eq_refl eq_refl eq_refl eq_refl c0 Hre) as [H1 H2].
    exists (fi_pos (cst c0)). exact (eq_trans H2 (f_equal (filter _) H1)).
  Qed.
End ProgFun.

Print Assumptions prog_stage.
Print Assumptions prog_concat.
Print Assumptions prog_merge.
Print Assumptions prog_sink.
Print Assumptions prog_src.

