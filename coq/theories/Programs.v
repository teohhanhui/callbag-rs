(** * Programs: pipelines [pipe!(from_iter(it), stage_1, .., stage_k [, for_each(f)])] of any
      length as nets of component configurations (Chain.v), and what the composition theorem
      gives for them.

    - [pipeline_sound]: in every reachable net - whatever the external sink (or for_each) and the
      scheduling of internal transfers do - every component is in a configuration that is
      reachable in its own conformant environment, without violation and without panic; in
      particular the trace of every component, and so the output of the pipeline, obeys the
      protocol (C01-C04, C17 for programs).
    - [pipeline_functional]: at every point where the environment has the turn, what stage k has
      delivered is the list function of the first k stages applied to what from_iter has delivered,
      and that is the [Some] prefix of the iterator (C06, C07 composed); with for_each at the end
      the user closure has been called on exactly those values, in order.

    Flatten stages are not covered: they stay validated on the crate (C06 check). *)

From CB Require Import ProofLib Spec MonitorSound Results Chain.
From CB Require Import Inv_relay Inv_take Inv_from_iter Inv_for_each.

Set Implicit Arguments.

(** ** Stages *)

Inductive ustage : Type :=
| UMap (f : val -> val)
| UFilter (c : val -> bool)
| UScan (r : val -> val -> val) (seed : val)
| UTake (n : nat)
| USkip (n : nat).

Definition ustage_op (s : ustage) : op :=
  match s with
  | UMap f => map_op f
  | UFilter c => filter_op c
  | UScan r seed => scan_op r seed
  | UTake n => take_op n
  | USkip n => skip_op n
  end.

Definition usem1 (s : ustage) (l : list val) : list val :=
  match s with
  | UMap f => map f l
  | UFilter c => filter c l
  | UScan r seed => scan_list r seed l
  | UTake n => firstn n l
  | USkip n => skipn n l
  end.

Definition usem (p : list ustage) (l : list val) : list val :=
  fold_left (fun acc s => usem1 s acc) p l.

Definition ustage_ok (s : ustage) : Prop :=
  match s with UTake n => 1 <= n | _ => True end.

(** ** Regimes: every inner node tolerates a late greeting (the theorems of the unary operators
    do not depend on [late_ok]); from_iter is additionally checked for nested deliveries *)
Definition p_mid : mparams :=
  {| nsinks := 1; late_ok := true; pullable := false; one_pull := false; resub := false;
     no_nest := false; c14 := false |}.
Definition p_src : mparams :=
  {| nsinks := 1; late_ok := true; pullable := false; one_pull := false; resub := false;
     no_nest := true; c14 := false |}.

Definition sigT3 : Type := (op * mparams * (mstate -> input -> bool))%type.

Definition sig_src (it : nat -> option val) : sigT3 := (from_iter_op it, p_src, g_std).
Definition sig_stage (s : ustage) : sigT3 := (ustage_op s, p_mid, g_std).
Definition sig_sink : sigT3 := (for_each_op, p_mid, g_std).

Definition pipe_sigs (it : nat -> option val) (stages : list ustage) (with_sink : bool)
  : list sigT3 :=
  sig_src it :: map sig_stage stages ++ (if with_sink then [sig_sink] else []).

Definition mk0 (s : sigT3) : node := let '(o, p, g) := s in mk_node p g (cfg0 o).

Lemma nsig_mk0 s : nsig (mk0 s) = s.
Proof. destruct s as [[o p] g]. reflexivity. Qed.

Lemma ninit_mk0 s : ninit (mk0 s).
Proof. destruct s as [[o p] g]. reflexivity. Qed.

Lemma nsig_map_mk0 sigs : map nsig (map mk0 sigs) = sigs.
Proof. rewrite map_map. rewrite <- (map_id sigs) at 2. apply map_ext. apply nsig_mk0. Qed.

Lemma ninit_map_mk0 sigs m : In m (map mk0 sigs) -> ninit m.
Proof. intros Hm. apply in_map_iff in Hm. destruct Hm as (s & <- & _). apply ninit_mk0. Qed.

Lemma nsig_inv n o p g : nsig n = (o, p, g) -> exists c : cfg o, n = mk_node p g c.
Proof. destruct n as [o' p' g' c]. unfold nsig. cbn. intros E. inversion E; subst. now exists c. Qed.

Definition pipe_net (it : nat -> option val) (stages : list ustage) (with_sink : bool) : net :=
  net0 (map mk0 (pipe_sigs it stages with_sink)).

(** ** The theorems about a stage, in any regime they hold in *)

Section Stage.
  Variable p : mparams.
  Hypothesis (H1 : nsinks p = 1) (H2 : resub p = false) (H3 : no_nest p = false) (H4 : c14 p = false).

  Lemma ustage_safe s :
    ustage_ok s -> forall c : cfg (ustage_op s), reach p g_std c -> viols (ms c) = [] /\ dead c = false.
  Proof.
    destruct s; cbn; intros Hok;
      [apply map_safe | apply filter_safe | apply scan_safe | apply take_safe | apply skip_safe];
      assumption.
  Qed.

  Lemma ustage_functional s :
    ustage_ok s -> forall c : cfg (ustage_op s), reach p g_std c ->
    data_out 0 (trace c) = usem1 s (data_in 0 (trace c)).
  Proof.
    destruct s; cbn; intros Hok;
      [apply map_functional | apply filter_functional | apply scan_functional
       | apply take_functional | apply skip_functional]; assumption.
  Qed.
End Stage.

(** ** The hypotheses of the composition theorem hold for pipelines *)

Lemma safe_src it : safe_sig (sig_src it).
Proof. intros c Hr. now apply (@from_iter_safe it p_src). Qed.

Lemma safe_stage s : ustage_ok s -> safe_sig (sig_stage s).
Proof. intros Hok c. exact (@ustage_safe p_mid eq_refl eq_refl eq_refl eq_refl s Hok c). Qed.

Lemma safe_sink : safe_sig sig_sink.
Proof. intros c Hr. now apply (@for_each_safe p_mid). Qed.

Lemma pipe_safe it stages b :
  Forall ustage_ok stages -> forall s, In s (pipe_sigs it stages b) -> safe_sig s.
Proof.
  intros Hok s [<-|Hin]; [apply safe_src|].
  apply in_app_or in Hin. destruct Hin as [Hin|Hin].
  - apply in_map_iff in Hin. destruct Hin as (st & <- & Hst).
    apply safe_stage. rewrite Forall_forall in Hok. now apply Hok.
  - destruct b; [|contradiction]. destruct Hin as [<-|[]]. apply safe_sink.
Qed.

Lemma pipe_regime it stages b :
  forall i s, nth_error (pipe_sigs it stages b) i = Some s -> regime_ok i s.
Proof.
  intros i s Hn. apply nth_error_In in Hn. destruct Hn as [<-|Hin].
  - cbn. repeat split; auto.
  - apply in_app_or in Hin. destruct Hin as [Hin|Hin].
    + apply in_map_iff in Hin. destruct Hin as (st & <- & _). cbn. repeat split; auto.
    + destruct b; [|contradiction]. destruct Hin as [<-|[]]. cbn. repeat split; auto.
Qed.

(** ** C01-C04, C17 for programs *)

Theorem pipeline_sound it stages b N :
  Forall ustage_ok stages -> net_reach (pipe_net it stages b) N ->
  forall i n, nth_error (nodes N) i = Some n ->
    nsig n = nth i (pipe_sigs it stages b) (nsig n) /\
    nreach n /\ viols (nms n) = [] /\ dead (ncfg n) = false /\ protocol_ok (ntrace n).
Proof.
  intros Hok Hr i n Hn.
  pose proof (@pipe_safe it stages b Hok) as Hsafe. pose proof (@pipe_regime it stages b) as Hreg.
  destruct (chain_sound Hsafe Hreg (nsig_map_mk0 _) (@ninit_map_mk0 _) Hr i Hn)
    as (Hsig & Hre & Hv & Hd).
  split; [exact Hsig|]. split; [exact Hre|]. split; [exact Hv|]. split; [exact Hd|].
  destruct (chain_inv Hsafe Hreg (nsig_map_mk0 _) (@ninit_map_mk0 _) Hr) as ([Hm _] & _).
  destruct (node_facts Hsafe Hreg (nodes N) i Hm Hn) as (_ & _ & Hrs & _).
  unfold ntrace. eapply protocol_of_safe; [exact Hrs | exact Hre | exact Hv].
Qed.
Print Assumptions pipeline_sound.

(** ** C06/C07 composed: the functional content *)

(** the stage nodes compute their list functions (C07, transported to a node of a net) *)
Lemma stage_functional n s :
  nsig n = sig_stage s -> ustage_ok s -> nreach n ->
  data_out 0 (ntrace n) = usem1 s (data_in 0 (ntrace n)).
Proof.
  intros E Hok Hr. destruct (nsig_inv E) as [c ->].
  exact (@ustage_functional p_mid eq_refl eq_refl eq_refl eq_refl s Hok c Hr).
Qed.

Lemma src_functional n it :
  nsig n = sig_src it -> nreach n ->
  exists pos, map Some (data_out 0 (ntrace n)) =
              filter (fun r => match r with Some _ => true | None => false end)
                     (map it (seq 0 pos)).
Proof.
  intros E Hr. destruct (nsig_inv E) as [c ->].
  destruct (@from_iter_order it p_src eq_refl eq_refl eq_refl eq_refl c Hr) as [H1 H2].
  exists (fi_pos (cst c)). now rewrite <- H1.
Qed.

Lemma sink_functional n :
  nsig n = sig_sink -> nreach n -> user_calls (ntrace n) = data_in 0 (ntrace n).
Proof. intros E Hr. destruct (nsig_inv E) as [c ->]. exact (@for_each_user p_mid c Hr). Qed.

Lemma usem_snoc p s l : usem (p ++ [s]) l = usem1 s (usem p l).
Proof. unfold usem. now rewrite fold_left_app. Qed.

Lemma firstn_S_nth A (l : list A) k x :
  nth_error l k = Some x -> firstn (S k) l = firstn k l ++ [x].
Proof.
  revert k. induction l as [|y l IH]; intros [|k] H; cbn in *; try discriminate.
  - now inversion H.
  - now rewrite (IH k H).
Qed.

Theorem pipeline_functional it stages b N :
  Forall ustage_ok stages -> net_reach (pipe_net it stages b) N -> pend N = PIdle ->
  forall k nk n0, k <= length stages ->
    nth_error (nodes N) k = Some nk -> nth_error (nodes N) 0 = Some n0 ->
    data_out 0 (ntrace nk) = usem (firstn k stages) (data_out 0 (ntrace n0)).
Proof.
  intros Hok Hr Hidle.
  pose proof (chain_wire (@pipe_safe it stages b Hok) (@pipe_regime it stages b)
                (nsig_map_mk0 _) (@ninit_map_mk0 _) Hr) as Hw.
  rewrite Hidle in Hw.
  induction k as [|k IH]; intros nk n0 Hk Hnk Hn0.
  - rewrite Hnk in Hn0. inversion Hn0. reflexivity.
  - destruct (nth_error (nodes N) k) as [nu|] eqn:Hnu.
    2: { apply nth_error_None in Hnu. apply nth_error_lt in Hnk. lia. }
    destruct (nth_error stages k) as [s|] eqn:Hsk.
    2: { apply nth_error_None in Hsk. lia. }
    rewrite (@firstn_S_nth _ stages k s Hsk), usem_snoc, <- (IH nu n0 ltac:(lia) eq_refl Hn0).
    destruct (@pipeline_sound it stages b N Hok Hr (S k) nk Hnk) as (Hsig & Hre & _).
    assert (Esig : nsig nk = sig_stage s).
    { rewrite Hsig. unfold pipe_sigs. cbn [nth].
      rewrite app_nth1 by (rewrite map_length; lia).
      rewrite (nth_indep _ _ (sig_stage s)) by (rewrite map_length; lia).
      rewrite map_nth. f_equal. now apply nth_error_nth. }
    assert (Hoks : ustage_ok s).
    { rewrite Forall_forall in Hok. apply Hok. exact (nth_error_In _ _ Hsk). }
    rewrite (stage_functional Esig Hoks Hre).
    specialize (Hw k nu nk Hnu Hnk). cbn [inflight] in Hw. rewrite app_nil_r in Hw.
    now rewrite Hw.
Qed.
Print Assumptions pipeline_functional.

(** with [for_each] at the end: the user closure has been called on exactly the list function of
    what from_iter has delivered, and that is the defined prefix of the iterator *)
Theorem pipeline_for_each it stages N :
  Forall ustage_ok stages -> net_reach (pipe_net it stages true) N -> pend N = PIdle ->
  forall nf n0,
    nth_error (nodes N) (S (length stages)) = Some nf -> nth_error (nodes N) 0 = Some n0 ->
    user_calls (ntrace nf) = usem stages (data_out 0 (ntrace n0)) /\
    exists pos, map Some (data_out 0 (ntrace n0)) =
                filter (fun r => match r with Some _ => true | None => false end)
                       (map it (seq 0 pos)).
Proof.
  intros Hok Hr Hidle nf n0 Hnf Hn0.
  pose proof (chain_wire (@pipe_safe it stages true Hok) (@pipe_regime it stages true)
                (nsig_map_mk0 _) (@ninit_map_mk0 _) Hr) as Hw.
  rewrite Hidle in Hw.
  destruct (@pipeline_sound it stages true N Hok Hr _ nf Hnf) as (Hsigf & Href & _).
  destruct (@pipeline_sound it stages true N Hok Hr _ n0 Hn0) as (Hsig0 & Hre0 & _).
  assert (Ef : nsig nf = sig_sink).
  { rewrite Hsigf. unfold pipe_sigs. cbn [nth].
    rewrite app_nth2 by (rewrite map_length; lia). rewrite map_length, Nat.sub_diag. reflexivity. }
  assert (E0 : nsig n0 = sig_src it) by (rewrite Hsig0; reflexivity).
  split; [|exact (src_functional E0 Hre0)].
  rewrite (sink_functional Ef Href).
  destruct (nth_error (nodes N) (length stages)) as [nl|] eqn:Hnl.
  2: { apply nth_error_None in Hnl. apply nth_error_lt in Hnf. lia. }
  specialize (Hw _ nl nf Hnl Hnf). cbn [inflight] in Hw. rewrite app_nil_r in Hw.
  rewrite <- Hw.
  rewrite (@pipeline_functional it stages true N Hok Hr Hidle (length stages) nl n0 (le_n _) Hnl Hn0).
  now rewrite firstn_all.
Qed.
Print Assumptions pipeline_for_each.

(** ** Running a net (for the examples and for the extracted driver) *)

Definition net_run (N : net) (mvs : list nmove) : net := fold_left net_step mvs N.

Fixpoint net_all_enabled (N : net) (mvs : list nmove) : bool :=
  match mvs with
  | [] => true
  | mv :: mvs' => net_enabled N mv && net_all_enabled (net_step N mv) mvs'
  end.

Lemma net_run_reach N0 N mvs :
  net_reach N0 N -> net_all_enabled N mvs = true -> net_reach N0 (net_run N mvs).
Proof.
  revert N. induction mvs as [|mv mvs IH]; intros N Hr He; cbn in *; [exact Hr|].
  apply andb_prop in He. destruct He as [H1 H2]. apply IH; [now apply nreachS | exact H2].
Qed.

(** internal transfers until the environment has the turn again, at most [fuel] of them *)
Fixpoint settle_net (fuel : nat) (N : net) : net :=
  match fuel with
  | 0 => N
  | S f => match pend N with PIdle => N | _ => settle_net f (net_step N NTau) end
  end.

(** *** Non-vacuity: pipe!(from_iter([1;2;3;4;5]), map(+1), filter(even), take(2), for_each) runs by
    itself once for_each is applied (one environment move, then internal transfers only) *)
Definition ex_it (k : nat) : option val := nth_error [VN 1; VN 2; VN 3; VN 4; VN 5] k.
Definition ex_stages : list ustage :=
  [UMap (fun v => match v with VN x => VN (S x) | _ => v end);
   UFilter (fun v => match v with VN x => Nat.even x | _ => false end);
   UTake 2].
Definition ex_moves : list nmove := NEnv 4 (MIn (ISub 0 0)) :: repeat NTau 150.

Example ex_pipeline_runs :
  let N := net_run (pipe_net ex_it ex_stages true) ex_moves in
  pend N = PIdle /\ gst N = [] /\
  option_map (fun n => user_calls (ntrace n)) (nth_error (nodes N) 4) = Some [VN 2; VN 4] /\
  option_map (fun n => data_out 0 (ntrace n)) (nth_error (nodes N) 0) = Some [VN 1; VN 2; VN 3] /\
  option_map (fun n => sk (nms n) 0) (nth_error (nodes N) 3) = Some SFinished.
Proof. vm_compute. repeat split. Qed.

(** the moves that were actually needed are all enabled (the run is inside [net_reach]) *)
Definition ex_moves_exact : list nmove := NEnv 4 (MIn (ISub 0 0)) :: repeat NTau 66.
Example ex_pipeline_enabled :
  net_all_enabled (pipe_net ex_it ex_stages true) ex_moves_exact = true /\
  pend (net_run (pipe_net ex_it ex_stages true) ex_moves_exact) = PIdle.
Proof. vm_compute. split; reflexivity. Qed.

(** the protocol half alone, as the property files quote it *)
Theorem pipeline_protocol it stages b N :
  Forall ustage_ok stages -> net_reach (pipe_net it stages b) N ->
  forall i n, nth_error (nodes N) i = Some n -> protocol_ok (ntrace n) /\ dead (ncfg n) = false.
Proof.
  intros Hok Hr i n Hn.
  destruct (@pipeline_sound it stages b N Hok Hr i n Hn) as (_ & _ & _ & Hd & Hp). split; assumption.
Qed.
Print Assumptions pipeline_protocol.
