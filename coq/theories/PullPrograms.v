(** * PullPrograms: demand conservation (C14) for whole pipelines under an external sink.

    LivenessG.v is about the CLOSED net  from_iter -> stages -> for_each.  Here the net is OPEN:
    [pipe_net it stages false], the environment is the sink of the last stage (of from_iter itself
    when there are no stages), and the iterator [it] is arbitrary (possibly unbounded).  The sink of
    the program sends at most one Pull per message it received ([disciplined]).  Then

    - [program_no_overdata]: the program never delivers more Data than it received Pulls;
    - [program_answers]: whenever the net is at rest (nothing pending anywhere) and the sink of the
      program is still live, every Pull has been answered by exactly one datum - no Pull is lost in
      the pipeline, none is waiting for "further prompting";

    both also in the monitor's own counters [npull]/[ndata] of the last node.

    The argument is the counting argument of LivenessG.v, whose first part is about both nets:
    - every node is reachable in the environment with [one_pull] ([preach_one_pull]: external Pulls
      are disciplined by hypothesis, an internal Pull comes from a node that has not sent more Pulls
      than it received messages, [one_pull_step]); hence from_iter at rest has served every Pull
      ([rf_served]);
    - at rest a live sink means every link is live ([live_down]), every stage has passed on exactly
      the demand it received ([sf_demand_eq]) and nothing is in flight on the wires. *)

From CB Require Import ProofLib Spec Chain Programs Flow LivenessG.
From CB Require Import Flow_ends.

Set Implicit Arguments.

(** convertible with [with_one_pull] and [nreach1] of LivenessG.v *)

Definition one1 (p : mparams) : mparams :=
  {| nsinks := nsinks p; late_ok := late_ok p; pullable := pullable p; one_pull := true;
     resub := resub p; no_nest := no_nest p; c14 := c14 p |}.

Definition nreach1 (n : node) : Prop := reach (one1 (npar n)) (ngrd n) (ncfg n).

(** ** The open pipeline *)

Section PullPipe.
  Variable it : nat -> option val.
  Variable stages : list ustage.
  Hypothesis Hok : Forall ustage_ok stages.

  Definition NQ : net := pipe_net it stages false.
  (** the index of the last node ([ptop] of LivenessG.v without for_each) *)
  Definition top : nat := length stages.

  (** the sink of the program sends at most one Pull per message it received *)
  Definition disciplined (N : net) (mv : nmove) : Prop :=
    match mv with
    | NEnv i (MIn (IUp s UP)) => forall n, nth_error (nodes N) i = Some n -> 0 < credit (nms n) s
    | _ => True
    end.

  Inductive preach : net -> Prop :=
  | preach0 : preach NQ
  | preachS N mv : preach N -> net_enabled N mv = true -> disciplined N mv -> preach (net_step N mv).

  Lemma preach_reach N : preach N -> net_reach NQ N.
  Proof. induction 1 as [|N mv _ IH He _]; [apply nreach0 | now apply nreachS]. Qed.

  Lemma preach_tau N : preach N -> pend N <> PIdle -> preach (net_step N NTau).
  Proof. intros Hp Hne. apply preachS; [exact Hp | now apply tau_enabled | exact I]. Qed.

  Lemma q_below N i : net_reach NQ N -> i <= top -> exists n, nth_error (nodes N) i = Some n.
  Proof. exact (p_below Hok (N:=N) (i:=i)). Qed.

  Lemma preach_one_pull N : preach N ->
    forall i n, nth_error (nodes N) i = Some n -> LivenessG.nreach1 n.
  Proof.
    induction 1 as [|N mv Hp IH He Hdisc]; [apply one_pull_init|].
    apply (one_pull_step Hok (preach_reach Hp) He); [|exact IH].
    intros i s n -> Hn. exact (Hdisc n Hn).
  Qed.

  (** *** The net at rest *)

  Section Rest.
    Variable N : net.
    Hypothesis Hr : net_reach NQ N.
    Hypothesis Hpd : pend N = PIdle.
    Hypothesis Hg : gst N = [].

    (** a live sink of the program means that every link is live, all the way down *)
    Lemma live_down nt : nth_error (nodes N) top = Some nt -> sk (nms nt) 0 = SLive ->
      forall d i n, i + d = top -> nth_error (nodes N) i = Some n -> sk (nms n) 0 = SLive.
    Proof.
      intros Hnt Hlive. induction d as [|d IH]; intros i n Hid Hn.
      - assert (i = top) by lia. subst i. rewrite Hnt in Hn. inversion Hn; subst n. exact Hlive.
      - destruct (@q_below N (S i) Hr ltac:(lia)) as [D HD].
        specialize (IH (S i) D ltac:(lia) HD).
        pose proof (p_reach Hok _ Hr HD) as Hre.
        destruct (p_stage_at Hok Hr HD ltac:(unfold top in *; lia)) as (s & Hs & E).
        destruct (ns_flow E (stage_ok_at Hok _ Hs) Hre) as (_ & _ & Hrest & _).
        destruct (Hrest (rest_stack Hok Hr Hg _ HD) IH) as [_ Hus].
        pose proof (rest_link Hok Hr Hpd _ Hn HD) as Hl. unfold link in Hl. rewrite Hus in Hl. tauto.
    Qed.

    (** so no demand is lost anywhere: at every node Pulls in = data out *)
    Lemma answered_up nt :
      (forall n0, nth_error (nodes N) 0 = Some n0 -> LivenessG.nreach1 n0) ->
      nth_error (nodes N) top = Some nt -> sk (nms nt) 0 = SLive ->
      forall i n, i <= top -> nth_error (nodes N) i = Some n -> pin (ntrace n) = dout (ntrace n).
    Proof.
      intros H0 Hnt Hlive. induction i as [|i IH]; intros n Hi Hn;
        pose proof (p_reach Hok _ Hr Hn) as Hre; pose proof (rest_stack Hok Hr Hg _ Hn) as Hst.
      - pose proof (@live_down nt Hnt Hlive top 0 n ltac:(lia) Hn) as Hsk.
        exact (nr_served (p_src_at Hok Hr Hn) (H0 n Hn) Hst Hsk).
      - pose proof (@live_down nt Hnt Hlive (top - S i) (S i) n ltac:(lia) Hn) as Hsk.
        destruct (nth_error_pred _ _ Hn) as [U HU]. specialize (IH U ltac:(lia) HU).
        destruct (rest_counts Hok Hr Hpd _ HU Hn) as (_ & W2 & W3 & _).
        destruct (p_stage_at Hok Hr Hn ltac:(unfold top in *; lia)) as (s & Hs & E).
        destruct (ns_flow E (stage_ok_at Hok _ Hs) Hre) as (_ & _ & Hrest & _).
        destruct (Hrest Hst Hsk) as [Heq _]. lia.
    Qed.
  End Rest.

  (** the sink of the program never receives more Data than it sent Pulls *)
  Theorem program_no_overdata N : preach N ->
    forall n, nth_error (nodes N) top = Some n -> dout (ntrace n) <= pin (ntrace n).
  Proof. intros Hp n Hn. exact (no_overdata Hok (preach_reach Hp) (le_n _) Hn). Qed.

  (** at rest, towards a live sink, every Pull has been answered by a datum *)
  Theorem program_answers N : preach N -> pend N = PIdle -> gst N = [] ->
    forall n, nth_error (nodes N) top = Some n -> sk (nms n) 0 = SLive ->
      pin (ntrace n) = dout (ntrace n).
  Proof.
    intros Hp Hpd Hg n Hn Hl.
    exact (answered_up (preach_reach Hp) Hpd Hg (preach_one_pull Hp 0) Hn Hl (le_n _) Hn).
  Qed.

  (** the same in the monitor's own counters (the ones the C14 checks of the monitor read) *)
  Theorem program_no_overdata_mon N : preach N ->
    forall n, nth_error (nodes N) top = Some n -> ndata (nms n) 0 <= npull (nms n) 0.
  Proof.
    intros Hp n Hn. pose proof (p_reach Hok _ (preach_reach Hp) Hn) as Hre.
    unfold nms. rewrite (reach_npull_pin Hre), (reach_ndata_dout Hre).
    exact (program_no_overdata Hp Hn).
  Qed.

  Theorem program_answers_mon N : preach N -> pend N = PIdle -> gst N = [] ->
    forall n, nth_error (nodes N) top = Some n -> sk (nms n) 0 = SLive ->
      npull (nms n) 0 = ndata (nms n) 0.
  Proof.
    intros Hp Hpd Hg n Hn Hl. pose proof (p_reach Hok _ (preach_reach Hp) Hn) as Hre.
    unfold nms. rewrite (reach_npull_pin Hre), (reach_ndata_dout Hre).
    exact (program_answers Hp Hpd Hg Hn Hl).
  Qed.

End PullPipe.

Print Assumptions program_no_overdata.
Print Assumptions program_answers.
Print Assumptions program_no_overdata_mon.
Print Assumptions program_answers_mon.

(** ** Runs: a script all of whose moves are enabled and disciplined stays inside [preach] *)

Definition disc_b (N : net) (mv : nmove) : bool :=
  match mv with
  | NEnv i (MIn (IUp s UP)) =>
      match nth_error (nodes N) i with Some n => 0 <? credit (nms n) s | None => true end
  | _ => true
  end.

Lemma disc_b_ok N mv : disc_b N mv = true -> disciplined N mv.
Proof.
  unfold disc_b, disciplined. destruct mv as [i [[s a|s [|e|]|j d|s]|]|]; auto.
  intros H n Hn. rewrite Hn in H. now apply Nat.ltb_lt.
Qed.

Fixpoint net_all_disc (N : net) (mvs : list nmove) : bool :=
  match mvs with
  | [] => true
  | mv :: mvs' => net_enabled N mv && disc_b N mv && net_all_disc (net_step N mv) mvs'
  end.

Lemma preach_run it stages N mvs :
  preach it stages N -> net_all_disc N mvs = true -> preach it stages (net_run N mvs).
Proof.
  revert N. induction mvs as [|mv mvs IH]; intros N Hp He; cbn in *; [exact Hp|].
  apply andb_prop in He. destruct He as [He H2]. apply andb_prop in He. destruct He as [H0 H1].
  apply IH; [|exact H2]. apply preachS; [exact Hp | exact H0 | now apply disc_b_ok].
Qed.

(** ** Non-vacuity: pipe!(from_iter([1;2;3;4]), filter(even), map(+1)) under a disciplined sink
    that sends its first Pull from inside the greeting and its second Pull from INSIDE the
    delivery of the first datum (re-entrant), and then only returns.  filter swallows 1 and 3 and
    re-Pulls for them; the sink receives 3 and 5; the net comes to rest with the sink live and
    2 Pulls = 2 Data at the last node (4 = 4 at from_iter). *)
Module PullProgramsSanity.
  Definition pp_it (k : nat) : option val := nth_error [VN 1; VN 2; VN 3; VN 4] k.
  Definition pp_stages : list ustage :=
    [UFilter (fun v => match v with VN x => Nat.even x | _ => false end);
     UMap (fun v => match v with VN x => VN (S x) | _ => v end)].

  (** up to the point where the sink is inside the delivery of the first datum *)
  Definition pp_script1 : list nmove :=
    NEnv 2 (MIn (ISub 0 0)) :: repeat NTau 4 ++        (* subscribe; greeted from inside *)
    NEnv 2 (MIn (IUp 0 UP)) :: repeat NTau 8.          (* Pull inside the greeting: 1 dropped, 2 -> 3 *)
  (** the re-entrant Pull, and the returns *)
  Definition pp_script2 : list nmove :=
    NEnv 2 (MIn (IUp 0 UP)) :: repeat NTau 4 ++        (* Pull inside the delivery of 3: flagged *)
    NEnv 2 MRet :: repeat NTau 8 ++                    (* return: 3 dropped, 4 -> 5 delivered *)
    NEnv 2 MRet :: repeat NTau 4 ++                    (* return without a Pull: the loop ends *)
    NEnv 2 MRet :: repeat NTau 4.                      (* return from the greeting *)
  Definition pp_script : list nmove := pp_script1 ++ pp_script2.

  Definition pp_N1 : net := net_run (NQ pp_it pp_stages) pp_script1.
  Definition pp_N : net := net_run (NQ pp_it pp_stages) pp_script.

  Definition top_view (N : net) :=
    option_map (fun n => (sk (nms n) 0, pin (ntrace n), dout (ntrace n),
                          npull (nms n) 0, ndata (nms n) 0, data_out 0 (ntrace n)))
               (nth_error (nodes N) 2).

  Example pp_enabled : net_all_disc (NQ pp_it pp_stages) pp_script = true.
  Proof. vm_compute. reflexivity. Qed.

  (** the second Pull is sent while the delivery of the datum 3 to the sink is pending *)
  Example pp_reentrant :
    pend pp_N1 = PIdle /\ hd_error (gst pp_N1) = Some (2, KExt) /\
    option_map (fun n => hd_error (cstack (nms n))) (nth_error (nodes pp_N1) 2)
      = Some (Some (CDn 0 (DD (VN 3)))) /\
    hd_error pp_script2 = Some (NEnv 2 (MIn (IUp 0 UP))).
  Proof. vm_compute. repeat split. Qed.

  Example pp_at_rest :
    pend pp_N = PIdle /\ gst pp_N = [] /\
    top_view pp_N = Some (SLive, 2, 2, 2, 2, [VN 3; VN 5]) /\
    option_map (fun n => (pin (ntrace n), dout (ntrace n))) (nth_error (nodes pp_N) 0) = Some (4, 4).
  Proof. vm_compute. repeat split. Qed.

  (** so the theorems apply to this run: their hypotheses are satisfiable ([preach], at rest, the
      top sink live - see [pp_at_rest]), and the conclusion pin = dout = 2 is what [pp_at_rest] computes *)
  Example pp_preach : preach pp_it pp_stages pp_N.
  Proof.
    exact (@preach_run pp_it pp_stages (NQ pp_it pp_stages) pp_script (preach0 pp_it pp_stages) pp_enabled).
  Qed.

  (** [disciplined] is needed for [program_answers]: a sink that sends TWO Pulls from inside one
      delivery (the second without credit) has them coalesced by from_iter's flag; every move is
      enabled in the net ([one_pull = false] in the components' regimes), the net comes to rest
      with the sink live, 3 Pulls and 2 Data *)
  Definition pp_bad : list nmove :=
    pp_script1 ++
    NEnv 2 (MIn (IUp 0 UP)) :: repeat NTau 4 ++
    NEnv 2 (MIn (IUp 0 UP)) :: repeat NTau 4 ++
    NEnv 2 MRet :: repeat NTau 8 ++ NEnv 2 MRet :: repeat NTau 4 ++ NEnv 2 MRet :: repeat NTau 4.
  Example pp_undisciplined :
    let N := net_run (NQ pp_it pp_stages) pp_bad in
    net_all_enabled (NQ pp_it pp_stages) pp_bad = true /\
    net_all_disc (NQ pp_it pp_stages) pp_bad = false /\
    pend N = PIdle /\ gst N = [] /\
    top_view N = Some (SLive, 3, 2, 3, 2, [VN 3; VN 5]).
  Proof. vm_compute. repeat split. Qed.
End PullProgramsSanity.
